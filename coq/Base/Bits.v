(* Two small toolkits about bits.  On N, for bits packed into words and bytes (used by Bytes, Leb128 and the C02, C05,
   C08, C11, C14, C17, C19 proofs): N.testbit and N.lor of a sum with a shifted part, bounds of such sums, one
   base-128 group of a LEB128 integer.  On Z, at the end, for the float sort keys of C07_Order and C10_Float only:
   Z.lxor with a mask of low ones. *)
From Coq Require Import NArith ZArith Lia Bool.
Local Open Scope N_scope.

Lemma testbit_add_shift a b k i :
  a < 2^k ->
  N.testbit (a + 2^k * b) i = if i <? k then N.testbit a i else N.testbit b (i - k).
Proof.
  intros Ha. destruct (N.ltb_spec i k) as [Hlt|Hge].
  - rewrite <- (N.mod_pow2_bits_low (a + 2^k*b) k i Hlt).
    replace (a + 2^k*b) with (a + b * 2^k) by lia.
    rewrite N.mod_add by (apply N.pow_nonzero; lia).
    rewrite N.mod_small by assumption. reflexivity.
  - replace i with ((i - k) + k) at 1 by lia.
    rewrite <- N.div_pow2_bits.
    replace (a + 2^k*b) with (a + b * 2^k) by lia.
    rewrite N.div_add by (apply N.pow_nonzero; lia).
    rewrite N.div_small by assumption. reflexivity.
Qed.

Lemma testbit_high a k i : a < 2^k -> k <= i -> N.testbit a i = false.
Proof. intros Ha Hk. rewrite <- (N.mod_small a (2^k) Ha). now apply N.mod_pow2_bits_high. Qed.

Lemma ones_pred k : 2^k - 1 = N.ones k.
Proof. rewrite N.ones_equiv. lia. Qed.

Lemma land_ones_lt a k : N.land a (N.ones k) < 2^k.
Proof. rewrite N.land_ones. apply N.mod_lt, N.pow_nonzero. discriminate. Qed.

(* From here on the shifted part is written x * 2^s, as N.shiftl_mul_pow2 and the group-by-group readers write it;
   [testbit_add_shift] has it as 2^k * b, the way Bytes.le_val is defined. *)
Lemma lor_shift_add a x s : a < 2^s -> N.lor a (N.shiftl x s) = a + x * 2^s.
Proof.
  intros Ha. apply N.bits_inj. intros i.
  rewrite N.lor_spec, (N.mul_comm x), (testbit_add_shift a x s i Ha).
  destruct (N.ltb_spec i s) as [Hlt|Hge].
  - rewrite N.shiftl_spec_low by exact Hlt. apply orb_false_r.
  - rewrite (testbit_high a s i Ha Hge), N.shiftl_spec_high' by exact Hge. reflexivity.
Qed.

(* the accumulator invariant of a loop that reads a number group by group: s bits so far, k more on top *)
Lemma add_shift_lt a x s k : a < 2^s -> x < 2^k -> a + x * 2^s < 2^(s + k).
Proof.
  intros Ha Hx. rewrite N.pow_add_r.
  assert ((x + 1) * 2^s <= 2^k * 2^s) by (apply N.mul_le_mono_r; lia). lia.
Qed.
(* a k-bit number shifted up by s still fits n bits *)
Lemma shift_fits x k s n : x < 2^k -> s + k <= n -> x * 2^s < 2^n.
Proof.
  intros Hx Hn. apply N.lt_le_trans with (2^k * 2^s).
  - apply N.mul_lt_mono_pos_r; [apply N.neq_0_lt_0, N.pow_nonzero; discriminate|exact Hx].
  - rewrite <- N.pow_add_r. apply N.pow_le_mono_r; [discriminate|lia].
Qed.

(* One base-128 group of a LEB128 / VLQ integer. *)
Lemma land_127 b : N.land b 127 = b mod 128.
Proof. change 127 with (N.ones 7). apply N.land_ones. Qed.
Lemma septet_split n s : (n mod 128) * 2^s + (n / 128) * 2^(s + 7) = n * 2^s.
Proof. rewrite N.pow_add_r. change (2^7) with 128. rewrite (N.div_mod n 128) at 3 by discriminate. ring. Qed.
Lemma leb_127 b : (b <=? 127) = (b <? 128).
Proof. destruct (N.leb_spec b 127) as [H|H]; symmetry; [apply N.ltb_lt|apply N.ltb_ge]; lia. Qed.

Local Open Scope Z_scope.

(* The Z part: IEEE totalOrder keys flip the low bits of a pattern by xor with a mask of ones. *)
Lemma testbit_high_Z a k i : 0 <= a < 2 ^ k -> 0 <= k <= i -> Z.testbit a i = false.
Proof. intros Ha Hk. rewrite <- (Z.mod_small a (2^k) Ha). now apply Z.mod_pow2_bits_high. Qed.

(* xor with the low-ones mask complements the low n bits: m and its complement share no bit, so their
   xor, which is the mask, is also their sum *)
Lemma lxor_ones_low_Z m n : 0 <= n -> 0 <= m < 2^n -> Z.lxor m (Z.ones n) = 2^n - 1 - m.
Proof.
  intros Hn Hm. assert (H : Z.land (Z.lxor m (Z.ones n)) m = 0).
  { apply Z.bits_inj'. intros i Hi. rewrite Z.land_spec, Z.lxor_spec, Z.bits_0.
    destruct (Z.ltb_spec i n) as [L|L].
    - rewrite Z.ones_spec_low by lia. destruct (Z.testbit m i); reflexivity.
    - rewrite (testbit_high_Z m n i) by lia. apply andb_false_r. }
  apply Z.add_nocarry_lxor in H.
  rewrite Z.lxor_assoc, (Z.lxor_comm (Z.ones n) m), <- Z.lxor_assoc, Z.lxor_nilpotent, Z.lxor_0_l in H.
  rewrite Z.ones_equiv in *. lia.
Qed.

Lemma land_shift_low_Z h n x : 0 <= n -> 0 <= x < 2^n -> Z.land (h * 2^n) x = 0.
Proof.
  intros Hn Hx. apply Z.bits_inj'. intros i Hi. rewrite Z.land_spec, Z.bits_0.
  destruct (Z.ltb_spec i n) as [L|L].
  - now rewrite Z.mul_pow2_bits_low by lia.
  - rewrite (testbit_high_Z x n i) by lia. apply andb_false_r.
Qed.
(* xor with the low-ones mask complements the low n bits and leaves what stands above them: h = 0 is
   [lxor_ones_low_Z], h = 1 a pattern with its top bit set, h = -1 the same pattern read as a negative number *)
Lemma lxor_ones_above_Z h m n : 0 <= n -> 0 <= m < 2^n ->
  Z.lxor (h * 2^n + m) (Z.ones n) = h * 2^n + (2^n - 1 - m).
Proof.
  intros Hn Hm. rewrite (Z.add_nocarry_lxor (h * 2^n) m) by (now apply land_shift_low_Z).
  rewrite Z.lxor_assoc, lxor_ones_low_Z by assumption.
  symmetry. apply Z.add_nocarry_lxor, land_shift_low_Z; lia.
Qed.
