(* What the proofs need about lists beyond Coq 8.16's List, by topic: positions (nth, firstn, skipn); a prefix of known
   length; seq and map; repeat, last and filter; the pieces of a flat_map.  Then two functions with their lemmas,
   eqb_list and map2: the models define their own copies of them, which compute to these. *)
From Coq Require Import List Arith Lia.
Import ListNotations.

(* positions: nth, firstn, skipn *)
Lemma nth_skipn {A} (l : list A) n i d : nth i (skipn n l) d = nth (n + i) l d.
Proof. revert l; induction n as [|n IH]; intros l; [reflexivity|]. destruct l; [destruct i; reflexivity|]. cbn. apply IH. Qed.
Lemma nth_firstn {A} (l : list A) n i d : (i < n)%nat -> nth i (firstn n l) d = nth i l d.
Proof. revert l i; induction n as [|n IH]; intros l i Hi; [lia|]. destruct l; [reflexivity|]. destruct i; [reflexivity|]. cbn. apply IH; lia. Qed.
Lemma Forall_firstn {A} (P : A -> Prop) n l : Forall P l -> Forall P (firstn n l).
Proof. revert l; induction n; intros l H; [constructor|]. destruct H; constructor; auto. Qed.
Lemma Forall_skipn {A} (P : A -> Prop) n l : Forall P l -> Forall P (skipn n l).
Proof. revert l; induction n; intros l H; [exact H|]. destruct H; [constructor|]. cbn. auto. Qed.
Lemma In_firstn {A} (x : A) k l : In x (firstn k l) -> In x l.
Proof. intros H. rewrite <- (firstn_skipn k l). apply in_or_app. now left. Qed.
Lemma skipn_skipn {A} a b (l : list A) : skipn a (skipn b l) = skipn (b + a) l.
Proof. revert l; induction b as [|b IH]; intros l; [reflexivity|]. destruct l; [now rewrite !skipn_nil|apply IH]. Qed.
Lemma skipn_S {A} n : forall (l : list A) x r, skipn n l = x :: r -> skipn (S n) l = r.
Proof. intros l x r H. now rewrite <- Nat.add_1_r, <- skipn_skipn, H. Qed.
Lemma firstn_plus {A} a b (l : list A) : firstn (a + b) l = firstn a l ++ firstn b (skipn a l).
Proof.
  revert l. induction a as [|a IH]; intros l; [reflexivity|]. destruct l as [|x l]; [now destruct b|].
  cbn [Nat.add firstn skipn app]. now rewrite IH.
Qed.
Lemma firstn_min_length {A} k (l : list A) : firstn (Nat.min k (length l)) l = firstn k l.
Proof.
  destruct (Nat.le_ge_cases k (length l)); [now rewrite Nat.min_l|]. now rewrite Nat.min_r, firstn_all, firstn_all2.
Qed.
Lemma skipn_nth_cons {A} k (l : list A) d : k < length l -> skipn k l = nth k l d :: skipn (S k) l.
Proof.
  revert l. induction k as [|k IH]; intros [|a l] H; cbn [length] in H; try lia; [reflexivity|].
  apply IH. lia.
Qed.

(* a decoder that takes n of the bytes offered, 0 < n <= |l|: the two pieces, by name *)
Lemma cut_at {A} n (l : list A) : 0 < n <= length l ->
  exists p q, l = p ++ q /\ length p = n /\ length q < length l /\ firstn n l = p /\ skipn n l = q.
Proof.
  intros H. exists (firstn n l), (skipn n l).
  rewrite firstn_skipn, firstn_length, skipn_length. repeat split; lia.
Qed.

(* a prefix of known length: the steps of a decoder that asks "are there n more?", takes them and goes on with the
   rest, on input that begins with exactly the n it takes *)
Lemma ltb_app_exact {A} n (a b : list A) : length a = n -> (length (a ++ b) <? n) = false.
Proof. intros <-. rewrite app_length. apply Nat.ltb_ge, Nat.le_add_r. Qed.
Lemma firstn_app_exact {A} n (a b : list A) : length a = n -> firstn n (a ++ b) = a.
Proof. intros <-. rewrite firstn_app, Nat.sub_diag, firstn_O, app_nil_r. apply firstn_all. Qed.
Lemma skipn_app_exact {A} n (a b : list A) : length a = n -> skipn n (a ++ b) = b.
Proof. intros <-. rewrite skipn_app, Nat.sub_diag, skipn_all. reflexivity. Qed.
(* ... and a cut on either side of the boundary *)
Lemma firstn_app_le {A} k (a b : list A) : k <= length a -> firstn k (a ++ b) = firstn k a.
Proof. intros H. rewrite firstn_app. replace (k - length a) with 0 by lia. apply app_nil_r. Qed.
Lemma firstn_app_ge {A} k (a b : list A) : length a <= k -> firstn k (a ++ b) = a ++ firstn (k - length a) b.
Proof. intros H. rewrite firstn_app. now rewrite firstn_all2 by exact H. Qed.

(* seq and map *)
Lemma nth_map_seq {A} (f : nat -> A) s n i d : i < n -> nth i (map f (seq s n)) d = f (s + i).
Proof.
  intros Hi. rewrite (nth_indep _ d (f 0)) by (rewrite map_length, seq_length; exact Hi).
  rewrite map_nth with (d := 0), seq_nth by exact Hi. reflexivity.
Qed.
Lemma nth_map_lt {A B} (f : A -> B) l k d d' : k < length l -> nth k (map f l) d = f (nth k l d').
Proof. intros Hk. rewrite (nth_indep _ d (f d')) by (rewrite map_length; exact Hk). apply map_nth. Qed.
Lemma map_nth_seq {A} (l : list A) d : map (fun i => nth i l d) (seq 0 (length l)) = l.
Proof.
  apply (nth_ext _ _ d d); [now rewrite map_length, seq_length|].
  intros i Hi. rewrite map_length, seq_length in Hi. now rewrite nth_map_seq.
Qed.
Lemma seq_shift_map o n : seq o n = map (fun i => o + i) (seq 0 n).
Proof.
  revert o. induction n as [|n IH]; intros o; [reflexivity|]. cbn [seq map]. f_equal; [lia|].
  rewrite (IH (S o)), <- seq_shift, map_map. apply map_ext. intros; lia.
Qed.
Lemma repeat_map_seq {A} (x : A) n a : repeat x n = map (fun _ => x) (seq a n).
Proof. revert a. induction n as [|n IH]; intros a; [reflexivity|]. cbn. f_equal. apply IH. Qed.
Lemma forallb_seq_iff f n : forallb f (seq 0 n) = true <-> (forall i, i < n -> f i = true).
Proof. rewrite forallb_forall. split; intros H i Hi; apply H; [apply in_seq; lia | apply in_seq in Hi; lia]. Qed.

(* repeat, last, filter *)
Lemma rev_repeat {A} (x : A) n : rev (repeat x n) = repeat x n.
Proof. induction n as [|n IH]; [reflexivity|]. cbn [repeat rev]. now rewrite IH, <- repeat_cons. Qed.
Lemma last_cons {A} (l : list A) : forall x d, last (x :: l) d = last l x.
Proof.
  induction l as [|y l IH]; intros x d; [reflexivity|].
  change (last (x :: y :: l) d) with (last (y :: l) d). now rewrite !IH.
Qed.
Lemma filter_length_le {A} (f : A -> bool) l : length (filter f l) <= length l.
Proof. induction l as [|y l IH]; cbn [filter length]; [lia|]. destruct (f y); cbn [length]; lia. Qed.
Lemma filter_length_lt {A} (f : A -> bool) l x : In x l -> f x = false -> length (filter f l) < length l.
Proof.
  induction l as [|y l IH]; intros Hin Hf; [contradiction|]. cbn [filter length].
  destruct Hin as [->|Hin].
  - rewrite Hf. pose proof (filter_length_le f l). lia.
  - specialize (IH Hin Hf). destruct (f y); cbn [length]; lia.
Qed.

(* The pieces of a flat_map, found again by position: piece i begins where the first i pieces end; when all pieces have
   one width w it is the i-th window of width w. *)
Lemma flat_map_window {A B} (f : A -> list B) d vs : forall i, i < length vs ->
  firstn (length (f (nth i vs d))) (skipn (length (flat_map f (firstn i vs))) (flat_map f vs)) = f (nth i vs d).
Proof.
  induction vs as [|v r IH]; intros i Hi; [cbn [length] in Hi; lia|].
  destruct i as [|i]; cbn [firstn nth flat_map].
  - cbn [length skipn]. rewrite firstn_app, Nat.sub_diag. cbn [firstn]. rewrite app_nil_r. apply firstn_all.
  - rewrite app_length, skipn_app, skipn_all2 by lia. cbn [app].
    replace (length (f v) + length (flat_map f (firstn i r)) - length (f v)) with (length (flat_map f (firstn i r))) by lia.
    apply IH. cbn [length] in Hi; lia.
Qed.
Lemma flat_map_length_const {A B} (f : A -> list B) k vs : Forall (fun v => length (f v) = k) vs ->
  length (flat_map f vs) = length vs * k.
Proof. induction 1 as [|v vs Hv _ IH]; [reflexivity|]. cbn [flat_map length]. rewrite app_length, Hv, IH. lia. Qed.
Lemma flat_map_chunk {A B} (f : A -> list B) w vs d : Forall (fun v => length (f v) = w) vs ->
  forall i, i < length vs -> firstn w (skipn (i * w) (flat_map f vs)) = f (nth i vs d).
Proof.
  intros Hw i Hi.
  assert (Ei : length (flat_map f (firstn i vs)) = i * w).
  { rewrite (flat_map_length_const f w) by now apply Forall_firstn. rewrite firstn_length, Nat.min_l by lia. reflexivity. }
  assert (Ew : length (f (nth i vs d)) = w) by apply (proj1 (Forall_forall _ _) Hw), nth_In, Hi.
  rewrite <- Ei, <- Ew at 1. apply flat_map_window, Hi.
Qed.

(* Equality of lists decided element by element.  The test on elements is a section variable, so that [eqb_list eqb]
   unfolds to a fixpoint on the two lists alone: the list_eqb / bytes_eqb of the models of C02, C08, C10, C14 and C18,
   and the list walks nested inside the equality tests of their value types, are this function by computation
   (C04_Frame.list_eqb, a length test and a forallb over the zipped lists, is not).  The hypothesis is asked of the
   elements of the first list only, which is what an induction over a nested value type can supply. *)
Section EqbList.
Context {A : Type} (eqb : A -> A -> bool).
Fixpoint eqb_list (x y : list A) : bool :=
  match x, y with [], [] => true | p :: x', q :: y' => eqb p q && eqb_list x' y' | _, _ => false end.

Lemma eqb_list_eq xs : Forall (fun a => forall b, eqb a b = true <-> a = b) xs ->
  forall ys, eqb_list xs ys = true <-> xs = ys.
Proof.
  induction 1 as [|x xs Hx Hxs IH]; intros [|y ys]; cbn [eqb_list].
  - split; reflexivity.
  - split; discriminate.
  - split; discriminate.
  - rewrite Bool.andb_true_iff, Hx, IH. split; [intros [-> ->]; reflexivity|intros E; injection E; auto].
Qed.
Lemma eqb_list_eq_all : (forall a b, eqb a b = true <-> a = b) -> forall xs ys, eqb_list xs ys = true <-> xs = ys.
Proof. intros H xs. apply eqb_list_eq, Forall_forall. intros a _. apply H. Qed.
End EqbList.

(* Element-wise combination of two lists, cut at the shorter.  The models that zip two buffers (C03, C07, C12, C19, C20)
   each define this function under this name with this body, so these lemmas apply to theirs by computation. *)
Fixpoint map2 {A B C} (f : A -> B -> C) (a : list A) (b : list B) : list C :=
  match a, b with x :: a', y :: b' => f x y :: map2 f a' b' | _, _ => [] end.

Lemma map2_length {A B C} (f : A -> B -> C) a b : length (map2 f a b) = Nat.min (length a) (length b).
Proof. revert b; induction a as [|x a IH]; intros [|y b]; cbn; auto. Qed.
Lemma map2_firstn {A B C} (f : A -> B -> C) n a b : map2 f (firstn n a) (firstn n b) = firstn n (map2 f a b).
Proof. revert a b; induction n as [|n IH]; intros [|x a] [|y b]; cbn; auto. now rewrite IH. Qed.
Lemma map2_skipn {A B C} (f : A -> B -> C) n a b : map2 f (skipn n a) (skipn n b) = skipn n (map2 f a b).
Proof.
  revert a b; induction n as [|n IH]; intros a b; [reflexivity|].
  destruct a as [|x a]; destruct b as [|y b]; cbn [skipn map2]; auto.
  destruct (skipn n a); reflexivity.
Qed.
