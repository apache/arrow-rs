(* LEB128 (VLQ, varint) and zig-zag for the Parquet, Thrift and Avro models.  A number is written in base-128 groups,
   least significant first, every byte but the last with bit 7 set.  [leb_run] reads one; [leb_run_reads] turns the step
   equations of a transcribed reader into its agreement with [leb_run]; [leb_run_enc] is the round trip.
   Compared with [leb_run], each by one lemma of its property's proofs: Parquet get_vlq_int (C05 vlq_dec), the bounded
   specifications (C08 uleb_dec, C14 uleb), Thrift read_vlq (C08 vlq_loop, one direction), the three transcriptions of
   vlq::read_varint on each of their paths (C08, C14, C17), and the resumable VLQDecoder::long of C14.  Not compared: the
   transcription of VLQDecoder::long with a panic branch (C08_Avro.vlq_long), of which only the ten-byte bound is
   claimed and proved, and the one over Z (C18_Avro.vlq), whose bytes may be negative, with its own round trip.
   Zig-zag: [zz] decodes and [unzz] encodes; zz (unzz z) = z, the ranges of both, and that the shift/xor spellings of
   arrow-rs and the even/odd spelling of the specifications are [zz] and [unzz]. *)
From Coq Require Import List NArith ZArith Lia.
From AV Require Import Base.Bits.
Import ListNotations.
Local Open Scope N_scope.

Fixpoint leb_enc (fuel : nat) (n : N) : list N :=
  match fuel with
  | O => []
  | S f => if n <? 128 then [n] else (n mod 128 + 128) :: leb_enc f (n / 128)
  end.

(* the shift of group k *)
Definition leb_shift (k : nat) : N := 7 * N.of_nat k.

(* More: the input ended inside the number, after k groups that sum to a.  Bad: the byte in front of rest breaks the
   limit.  Val: the value, the number of groups read, what follows. *)
Inductive leb_outcome := More (k : nat) (a : N) | Bad (rest : list N) | Val (v : N) (k : nat) (rest : list N).

(* lim is the limit of the Avro readers of arrow-rs: at most ten bytes, the value a u64, so that group 9, at bit 63,
   may only be 0 or 1.  A continuation byte is at least 128, so none passes in tenth place.  Parquet's get_vlq_int
   has no such test on the value; its model (C05 vlq_dec) is the reader without a limit. *)
Definition over_limit (lim : bool) (k : nat) (b : N) : bool := lim && (k =? 9)%nat && (2 <=? b).

Fixpoint leb_run (lim : bool) (bs : list N) (k : nat) (a : N) : leb_outcome :=
  match bs with
  | [] => More k a
  | b :: r => if over_limit lim k b then Bad bs
              else let a' := a + b mod 128 * 2^leb_shift k in
                   if b <? 128 then Val a' (S k) r else leb_run lim r (S k) a'
  end.

(* the bytes [leb_run] looks at: up to and including the first one below 128 *)
Fixpoint leb_head (bs : list N) : list N :=
  match bs with [] => [] | b :: r => b :: if b <? 128 then [] else leb_head r end.

(* what a reader hands back: the rest of the input, or the number of bytes consumed as a usize (C14 counts in nat,
   C08 in N) *)
Definition value_rest (o : leb_outcome) : option (N * list N) := match o with Val v _ r => Some (v, r) | _ => None end.
Definition value_count (o : leb_outcome) : option (N * nat) := match o with Val v k _ => Some (v, k) | _ => None end.
Definition value_countN (o : leb_outcome) : option (N * N) :=
  match o with Val v k _ => Some (v, N.of_nat k) | _ => None end.

Lemma leb_shift_S k : leb_shift (S k) = leb_shift k + 7.
Proof. unfold leb_shift. lia. Qed.

(* The tenth group as the transcriptions test for it: `shift == 63` where the shift is carried (VLQDecoder::long and
   the specifications), `count == 9` on an N counter in the slow paths of C08 and C17. *)
Lemma leb_shift_63 k : (leb_shift k =? 63) = (k =? 9)%nat.
Proof. unfold leb_shift. destruct (N.eqb_spec (7 * N.of_nat k) 63), (Nat.eqb_spec k 9); lia || reflexivity. Qed.
Lemma of_nat_9 k : (N.of_nat k =? 9) = (k =? 9)%nat.
Proof. destruct (N.eqb_spec (N.of_nat k) 9), (Nat.eqb_spec k 9); lia || reflexivity. Qed.

(* Bit 7 and the low seven bits of a byte, in the spellings of the transcriptions: `& 0x7F` is land_127 of Base/Bits,
   `<= 0x7F` its leb_127; below, the septet as a number, a continuation byte, read_varint_array's `+= b << s` followed
   by `-= 0x80 << s`, VLQDecoder::long's `byte & 0x80 == 0`, write_long's `zz & !0x7F != 0` and `| 0x80`, and the
   specification's `1 < b` for the tenth byte. *)
Lemma septet_lt b : b mod 128 < 2^7.
Proof. apply N.mod_lt. discriminate. Qed.

Lemma cont_byte x : x < 128 -> (x + 128 <? 128) = false /\ (x + 128) mod 128 = x.
Proof.
  intros H. split; [apply N.ltb_ge; lia|].
  replace (x + 128) with (x + 1 * 128) by lia. rewrite N.mod_add by discriminate. apply N.mod_small, H.
Qed.

Lemma cont_sub a b p : 128 <= b < 256 -> a + b * p - 128 * p = a + b mod 128 * p.
Proof.
  intros H. replace (b mod 128) with (b - 128) by (apply (N.mod_unique b 128 1); lia).
  rewrite N.mul_sub_distr_r, N.add_sub_assoc by (apply N.mul_le_mono_r, H). reflexivity.
Qed.

(* clear below 128 because x = x land 127; at or above, the byte is (b - 128) lor 128 *)
Lemma land_128_low x : x < 128 -> N.land x 128 = 0.
Proof. intros H. rewrite <- (N.mod_small x 128 H), <- land_127, <- N.land_assoc. apply N.land_0_r. Qed.
Lemma land_128_zero b : b < 256 -> (N.land b 128 =? 0) = (b <? 128).
Proof.
  intros Hb. destruct (N.ltb_spec b 128) as [H|H]; [now rewrite land_128_low|].
  replace b with (N.lor (b - 128) (N.shiftl 1 7)) by (rewrite lor_shift_add; change (2 ^ 7) with 128; lia).
  rewrite N.land_lor_distr_l, land_128_low by lia. reflexivity.
Qed.

Lemma ldiff_127 z : (N.ldiff z 127 =? 0) = (z <? 128).
Proof.
  change 127 with (N.ones 7). rewrite N.ldiff_ones_r, N.shiftr_div_pow2, N.shiftl_mul_pow2.
  change (2^7) with 128.
  destruct (N.ltb_spec z 128) as [H|H].
  - rewrite N.div_small by exact H. reflexivity.
  - apply N.eqb_neq. assert (1 <= z / 128) by (apply N.div_le_lower_bound; lia). lia.
Qed.

Lemma lor_128 x : x < 128 -> N.lor x 128 = x + 128.
Proof.
  intros H. change 128 with (N.shiftl 1 7) at 1. rewrite lor_shift_add by (change (2^7) with 128; exact H).
  change (2^7) with 128. lia.
Qed.

Lemma ltb_1 b : (1 <? b) = (2 <=? b).
Proof. destruct (N.ltb_spec 1 b), (N.leb_spec 2 b); lia || reflexivity. Qed.

(* The invariant of every reader.  The groups read so far lie below the next shift: that is what makes or-ing the next
   group in the same as adding it (lor_shift_add).  Under the limit no group beyond the tenth is reached: that is what
   lets a reader with ten bytes of fuel, 10 - k of them left at group k, take one more step. *)
Definition leb_inv (lim : bool) (k : nat) (a : N) : Prop := a < 2^leb_shift k /\ (lim = true -> (k <= 9)%nat).

Lemma leb_inv_0 lim : leb_inv lim 0 0.
Proof. split; [reflexivity|intros _; apply Nat.le_0_l]. Qed.

Lemma leb_inv_next lim k a b :
  leb_inv lim k a -> over_limit lim k b = false -> 128 <= b -> leb_inv lim (S k) (a + b mod 128 * 2^leb_shift k).
Proof.
  intros [Ha Hk] Ho Hb. split; [rewrite leb_shift_S; apply add_shift_lt; [exact Ha|apply septet_lt]|].
  intros ->. specialize (Hk eq_refl). unfold over_limit in Ho. cbn [andb] in Ho.
  destruct (Nat.eqb_spec k 9) as [->|]; [|lia]. cbn [andb] in Ho. apply N.leb_gt in Ho. lia.
Qed.

(* A concrete reader [go], started at group k with accumulator a, does what [leb_run] does if one step of it does.
   Q relates the outcome to the reader's result and need not be an equation: the Thrift loop wraps where [leb_run]
   says Bad, and agrees with it only where there is a value.  P is what the reader needs of its input from group k on.
   It ranges over the input still to read so that it can speak of the bytes looked at only (head_wf) and of how many
   there are (ten_present); a round trip then holds whatever follows the number.
   A reader's lemma is stated like the conclusion, for all bs k a, and proved by applying [leb_run_reads] to lim, P, Q,
   go and the proof of P_next; what is left is go_nil, then go_cons. *)
Section Reader.
  Context {R : Type} (lim : bool) (P : nat -> list N -> Prop) (Q : leb_outcome -> R -> Prop)
          (go : nat -> N -> list N -> R).
  Hypothesis P_next : forall k b r, P k (b :: r) -> 128 <= b -> P (S k) r.
  Hypothesis go_nil : forall k a, leb_inv lim k a -> P k [] -> Q (More k a) (go k a []).
  Hypothesis go_cons : forall k a b r, leb_inv lim k a -> P k (b :: r) ->
    if over_limit lim k b then Q (Bad (b :: r)) (go k a (b :: r))
    else if b <? 128 then Q (Val (a + b mod 128 * 2^leb_shift k) (S k) r) (go k a (b :: r))
    else go k a (b :: r) = go (S k) (a + b mod 128 * 2^leb_shift k) r.

  Lemma leb_run_reads : forall bs k a, leb_inv lim k a -> P k bs -> Q (leb_run lim bs k a) (go k a bs).
  Proof.
    induction bs as [|b r IH]; intros k a Hi Hp; [apply go_nil; assumption|]. cbn [leb_run]. cbv zeta.
    pose proof (go_cons k a b r Hi Hp) as H. destruct (over_limit lim k b) eqn:Ho; [exact H|].
    destruct (N.ltb_spec b 128) as [Hlt|Hge]; [exact H|]. rewrite H.
    apply IH; [apply leb_inv_next; assumption|exact (P_next _ _ _ Hp Hge)].
  Qed.
End Reader.

(* the same for a reader that asks nothing of its input *)
Section AnyInput.
  Context {R : Type} (lim : bool) (Q : leb_outcome -> R -> Prop) (go : nat -> N -> list N -> R).
  Hypothesis go_nil : forall k a, leb_inv lim k a -> Q (More k a) (go k a []).
  Hypothesis go_cons : forall k a b r, leb_inv lim k a ->
    if over_limit lim k b then Q (Bad (b :: r)) (go k a (b :: r))
    else if b <? 128 then Q (Val (a + b mod 128 * 2^leb_shift k) (S k) r) (go k a (b :: r))
    else go k a (b :: r) = go (S k) (a + b mod 128 * 2^leb_shift k) r.

  Lemma leb_run_reads_any bs k a : leb_inv lim k a -> Q (leb_run lim bs k a) (go k a bs).
  Proof.
    intros Hi. exact (leb_run_reads lim (fun _ _ => True) Q go (fun _ _ _ _ _ => I) (fun k a Hi _ => go_nil k a Hi)
                        (fun k a b r Hi _ => go_cons k a b r Hi) bs k a Hi I).
  Qed.
End AnyInput.

(* for readers that compute with the whole byte (a test of bit 7, += b << s): the bytes looked at are below 256 *)
Definition head_wf (bs : list N) : Prop := Forall (fun b => b < 256) (leb_head bs).

Lemma head_wf_next b r : head_wf (b :: r) -> 128 <= b -> head_wf r.
Proof.
  unfold head_wf. cbn [leb_head]. intros H Hb. apply Forall_cons_iff in H as [_ H].
  now rewrite (proj2 (N.ltb_ge b 128) Hb) in H.
Qed.

Lemma head_wf_hd b r : head_wf (b :: r) -> b < 256.
Proof. intros H. now apply Forall_cons_iff in H as [H _]. Qed.

Lemma head_wf_all bs : Forall (fun b => b < 256) bs -> head_wf bs.
Proof.
  induction 1 as [|b r Hb _ IH]; cbn [leb_head]; constructor; [exact Hb|]. destruct (b <? 128); [constructor|exact IH].
Qed.

(* the unrolled read_varint_array is entered with ten bytes in hand, 10 - k of them from group k on *)
Definition ten_present (k : nat) (bs : list N) : Prop := head_wf bs /\ (10 - k <= length bs)%nat.

Lemma ten_present_next k b r : ten_present k (b :: r) -> 128 <= b -> ten_present (S k) r.
Proof. intros [Hw Hl] Hb. split; [exact (head_wf_next _ _ Hw Hb)|cbn [length] in Hl; lia]. Qed.

Lemma leb_enc_S f n : leb_enc (S f) n = if n <? 128 then [n] else (n mod 128 + 128) :: leb_enc f (n / 128).
Proof. reflexivity. Qed.

Lemma leb_enc_bytes : forall f n, Forall (fun b => b < 256) (leb_enc f n).
Proof.
  induction f as [|f IH]; intros n; [constructor|]. rewrite leb_enc_S. destruct (N.ltb_spec n 128).
  - constructor; [lia|constructor].
  - constructor; [|apply IH]. pose proof (septet_lt n). change (2^7) with 128 in *. lia.
Qed.

(* a group whose value fits in 64 bits at its place passes the limit *)
Lemma fits_not_over lim k b : (lim = true -> b * 2^leb_shift k < 2^64) -> over_limit lim k b = false.
Proof.
  intros H. unfold over_limit. destruct lim; [|reflexivity]. destruct (Nat.eqb_spec k 9) as [->|]; [|reflexivity].
  cbn [andb]. apply N.leb_gt. specialize (H eq_refl). change (2^leb_shift 9) with (2^63) in H.
  change (2^64) with (2 * 2^63) in H. apply N.mul_lt_mono_pos_r in H; [exact H|reflexivity].
Qed.

(* In the three lemmas below n is all of the number still to read, groups k, k + 1, ... of the whole; under the limit
   it has to fit in 64 bits at its place. *)
Lemma leb_run_last lim n rest k a : n < 128 -> (lim = true -> n * 2^leb_shift k < 2^64) ->
  leb_run lim (n :: rest) k a = Val (a + n * 2^leb_shift k) (S k) rest.
Proof.
  intros Hn Hfit. cbn [leb_run].
  rewrite (fits_not_over lim k n Hfit), N.mod_small, (proj2 (N.ltb_lt n 128) Hn) by exact Hn. reflexivity.
Qed.

Lemma leb_run_cont lim n rest k a : 128 <= n -> (lim = true -> n * 2^leb_shift k < 2^64) ->
  leb_run lim ((n mod 128 + 128) :: rest) k a = leb_run lim rest (S k) (a + n mod 128 * 2^leb_shift k).
Proof.
  intros Hn Hfit. destruct (cont_byte (n mod 128) (septet_lt n)) as [Hc Hm]. cbn [leb_run].
  rewrite Hc, Hm, fits_not_over; [reflexivity|].
  (* the byte written is at most n *)
  intros L. eapply N.le_lt_trans; [apply N.mul_le_mono_r|exact (Hfit L)].
  rewrite (N.div_mod n 128) at 2 by discriminate.
  assert (1 <= n / 128) by (apply N.div_le_lower_bound; [discriminate|exact Hn]). lia.
Qed.

(* S f groups are enough for n; what follows the number is not looked at *)
Theorem leb_run_enc lim : forall f n k a rest, n < 2^leb_shift (S f) -> (lim = true -> n * 2^leb_shift k < 2^64) ->
  leb_run lim (leb_enc (S f) n ++ rest) k a = Val (a + n * 2^leb_shift k) (k + length (leb_enc (S f) n)) rest.
Proof.
  assert (Last : forall n k a rest, n < 128 -> (lim = true -> n * 2^leb_shift k < 2^64) ->
            leb_run lim ([n] ++ rest) k a = Val (a + n * 2^leb_shift k) (k + length [n]) rest).
  { intros n k a rest Hn Hfit. cbn [length]. rewrite Nat.add_1_r. apply leb_run_last; assumption. }
  induction f as [|f IH]; intros n k a rest Hn Hfit; rewrite leb_enc_S.
  - (* one group *)
    destruct (N.ltb_spec n 128) as [Hlt|Hge]; [apply Last; assumption|]. change (2^leb_shift 1) with 128 in Hn. lia.
  - destruct (N.ltb_spec n 128) as [Hlt|Hge]; [apply Last; assumption|].
    (* a continuation byte, then the S f groups of n / 128 *)
    cbn [app length]. rewrite leb_run_cont by assumption.
    rewrite IH; [rewrite <- N.add_assoc, leb_shift_S, septet_split, Nat.add_succ_r; reflexivity| |].
    + apply N.div_lt_upper_bound; [discriminate|]. rewrite leb_shift_S, N.pow_add_r, N.mul_comm in Hn. exact Hn.
    + intros L. rewrite <- (septet_split n (leb_shift k)) in Hfit. rewrite leb_shift_S.
      eapply N.le_lt_trans; [apply N.le_add_l|exact (Hfit L)].
Qed.

(* a value was read from the bytes looked at, one group each *)
Lemma leb_run_val lim : forall bs k a v k' r, leb_run lim bs k a = Val v k' r ->
  bs = leb_head bs ++ r /\ k' = (k + length (leb_head bs))%nat.
Proof.
  induction bs as [|b t IH]; intros k a v k' r; cbn [leb_run leb_head]; [discriminate|].
  destruct (over_limit lim k b); [discriminate|]. cbv zeta. destruct (b <? 128).
  - (* the last byte *)
    intros [= _ <- <-]. now rewrite Nat.add_1_r.
  - intros H. apply IH in H as [E ->]. cbn [app length]. now rewrite <- E, Nat.add_succ_r.
Qed.

Lemma leb_run_count lim bs k a v k' r : leb_run lim bs k a = Val v k' r ->
  k' = (k + (length bs - length r))%nat /\ (length r < length bs)%nat.
Proof.
  intros H. destruct (leb_run_val _ _ _ _ _ _ _ H) as [E ->]. apply (f_equal (@length N)) in E. rewrite app_length in E.
  destruct bs; [discriminate H|]. cbn [leb_head length] in *. lia.
Qed.

(* under the limit nothing beyond the tenth byte is looked at: read_varint hands its array path `&buf[..10]` *)
Lemma leb_run_firstn : forall bs k a, (k <= 9)%nat -> (10 - k <= length bs)%nat ->
  value_count (leb_run true (firstn (10 - k) bs) k a) = value_count (leb_run true bs k a).
Proof.
  induction bs as [|b r IH]; intros k a Hk Hl; [cbn [length] in Hl; lia|].
  replace (10 - k)%nat with (S (10 - S k)) by lia. cbn [firstn leb_run]. unfold over_limit. cbn [andb].
  destruct (Nat.eqb_spec k 9) as [->|H9]; cbn [andb].
  - (* the tenth byte ends the number or breaks the limit *)
    destruct (N.leb_spec 2 b); [reflexivity|]. cbv zeta. now rewrite (proj2 (N.ltb_lt b 128)) by lia.
  - cbv zeta. destruct (b <? 128); [reflexivity|]. apply IH; cbn [length] in Hl; lia.
Qed.

Lemma leb_head_enc f n rest : n < 2^leb_shift (S f) -> leb_head (leb_enc (S f) n ++ rest) = leb_enc (S f) n.
Proof.
  intros Hn. destruct (leb_run_val _ _ _ _ _ _ _ (leb_run_enc false f n 0 0 rest Hn ltac:(discriminate))) as [E _].
  symmetry. exact (app_inv_tail _ _ _ E).
Qed.

(* Zig-zag: 0, -1, 1, -2, ... numbered 0, 1, 2, 3, ...  The decoder is written (u >> 1) ^ -(u & 1) in arrow-rs, the
   encoder (v << 1) ^ (v >> 63); both are compared with the arithmetic form once, here. *)
Local Open Scope Z_scope.

Definition zz (u : N) : Z := if N.even u then Z.of_N (u / 2) else - Z.of_N (u / 2) - 1.
Definition unzz (z : Z) : N := if 0 <=? z then Z.to_N (2 * z) else Z.to_N (- 2 * z - 1).

Lemma of_N_unzz z : Z.of_N (unzz z) = if 0 <=? z then 2 * z else - 2 * z - 1.
Proof. unfold unzz. destruct (Z.leb_spec 0 z); lia. Qed.

Lemma zz_unzz z : zz (unzz z) = z.
Proof.
  unfold zz, unzz. destruct (Z.leb_spec 0 z) as [Hz|Hz].
  - rewrite Z2N.inj_mul by lia. change (Z.to_N 2) with 2%N.
    rewrite N.even_mul, N.mul_comm, N.div_mul by discriminate. cbn [N.even orb]. lia.
  - replace (Z.to_N (-2 * z - 1)) with (1 + 2 * Z.to_N (- z - 1))%N by lia.
    rewrite N.even_add_mul_2, N.add_comm, N.mul_comm, N.div_add_l by discriminate. cbn. lia.
Qed.

Lemma unzz_lt m v : - m <= v < m -> Z.of_N (unzz v) < 2 * m.
Proof. intros H. rewrite of_N_unzz. destruct (Z.leb_spec 0 v); lia. Qed.

(* u = 2 q + r with r the low bit: every spelling of the decoder is a function of q and r *)
Lemma half_cases u : (u mod 2 = 0 /\ u = 2 * (u / 2) \/ u mod 2 = 1 /\ u = 2 * (u / 2) + 1)%N.
Proof.
  pose proof (N.div_mod u 2 ltac:(discriminate)) as E. pose proof (N.mod_lt u 2 ltac:(discriminate)) as Hm.
  pose proof (N.le_0_l (u mod 2)). assert (C : (u mod 2 = 0 \/ u mod 2 = 1)%N) by lia.
  destruct C as [C|C]; rewrite C in E |- *; [left|right]; (split; [reflexivity|lia]).
Qed.

Lemma zz_half u : zz u = if (u mod 2 =? 0)%N then Z.of_N (u / 2) else - Z.of_N (u / 2) - 1.
Proof.
  unfold zz. replace (N.even u) with (u mod 2 =? 0)%N; [reflexivity|].
  rewrite <- N.bit0_mod, N.bit0_odd, <- N.negb_even. destruct (N.even u); reflexivity.
Qed.

Lemma zz_range u m : Z.of_N u < 2 * m -> - m <= zz u < m.
Proof. intros H. rewrite zz_half. destruct (half_cases u) as [[-> E]|[-> E]]; cbn [N.eqb]; lia. Qed.

Lemma zz_lxor u : Z.lxor (Z.of_N (N.shiftr u 1)) (- Z.of_N (N.land u 1)) = zz u.
Proof.
  rewrite zz_half, N.shiftr_div_pow2. change 1%N with (N.ones 1) at 2. rewrite N.land_ones. change (2^1)%N with 2%N.
  destruct (half_cases u) as [[-> _]|[-> _]]; cbn [N.eqb Z.of_N Z.opp]; [apply Z.lxor_0_r|].
  rewrite Z.lxor_m1_r. unfold Z.lnot. lia.
Qed.

Lemma zz_arith u : (if Z.even (Z.of_N u) then Z.of_N u / 2 else - ((Z.of_N u + 1) / 2)) = zz u.
Proof.
  rewrite zz_half. set (q := (u / 2)%N). destruct (half_cases u) as [[-> E]|[-> E]]; fold q in E; clearbody q; subst u; cbn [N.eqb].
  - (* u = 2 q *)
    rewrite N2Z.inj_mul. change (Z.of_N 2) with 2. rewrite Z.even_mul, Z.mul_comm, Z.div_mul by discriminate. reflexivity.
  - (* u = 2 q + 1 *)
    rewrite N2Z.inj_add, N2Z.inj_mul. change (Z.of_N 2) with 2. change (Z.of_N 1) with 1.
    rewrite Z.add_comm, Z.even_add_mul_2. cbn [Z.even].
    replace (1 + 2 * Z.of_N q + 1) with ((Z.of_N q + 1) * 2) by lia. rewrite Z.div_mul by discriminate. lia.
Qed.

(* for an i64 the arithmetic shift v >> 63 is 0 or -1, and xor with -1 is complement *)
Lemma unzz_shift_xor v : - 2^63 <= v < 2^63 -> Z.to_N ((Z.lxor (Z.shiftl v 1) (Z.shiftr v 63)) mod 2^64) = unzz v.
Proof.
  intros Hv. unfold unzz. rewrite Z.shiftl_mul_pow2, Z.shiftr_div_pow2 by lia. change (2^1) with 2.
  destruct (Z.leb_spec 0 v) as [Hp|Hn].
  - rewrite Z.div_small, Z.lxor_0_r, Z.mod_small by lia. f_equal. lia.
  - replace (v / 2^63) with (-1) by (apply Z.div_unique with (r := v + 2^63); lia).
    rewrite Z.lxor_m1_r. unfold Z.lnot. rewrite Z.mod_small by lia. f_equal. lia.
Qed.
