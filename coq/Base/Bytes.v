(* Byte buffers as [list N], little-endian values and digits, Arrow (LSB-first) bit addressing and packing. *)
From Coq Require Import List Arith NArith Lia.
From AV Require Import Base.ListX Base.Bits.
Import ListNotations.
Local Open Scope N_scope.

Fixpoint le_val (bs : list N) : N :=
  match bs with [] => 0 | b :: r => b + 2^8 * le_val r end.

Definition wf_bytes (bs : list N) := Forall (fun b => b < 2^8) bs.

(* bit i (LSB-first, Arrow order) of a byte buffer; out-of-range reads give false *)
Definition bit_at (bs : list N) (i : nat) : bool :=
  N.testbit (nth (i / 8)%nat bs 0) (N.of_nat (i mod 8)%nat).

(* the bit range (off,len) of a buffer as a list of booleans: the spec-side object *)
Definition bits_range (bs : list N) (off len : nat) : list bool :=
  map (fun i => bit_at bs (off + i)) (seq 0 len).

Definition read_u64 (bs : list N) (byte_off : nat) : N := le_val (firstn 8 (skipn byte_off bs)).

Lemma wf_firstn_skipn bs a b : wf_bytes bs -> wf_bytes (firstn a (skipn b bs)).
Proof. intros H. apply Forall_firstn, Forall_skipn, H. Qed.

Lemma nth_bound bs k : wf_bytes bs -> nth k bs 0 < 2^8.
Proof.
  intros H. destruct (Nat.lt_ge_cases k (length bs)) as [Hl|Hl].
  - unfold wf_bytes in H. rewrite Forall_forall in H. apply H, nth_In, Hl.
  - rewrite nth_overflow by exact Hl. reflexivity.
Qed.

Lemma bits_range_length bs off len : length (bits_range bs off len) = len.
Proof. unfold bits_range. now rewrite map_length, seq_length. Qed.

Lemma bits_range_nth bs off len i : (i < len)%nat -> nth i (bits_range bs off len) false = bit_at bs (off + i).
Proof. intros Hi. unfold bits_range. now rewrite nth_map_seq. Qed.

Lemma bit_at_nil i : bit_at [] i = false.
Proof. unfold bit_at. destruct (i / 8)%nat; cbn [nth]; apply N.bits_0. Qed.
Lemma bit_at_cons_lt x r i : (i < 8)%nat -> bit_at (x :: r) i = N.testbit x (N.of_nat i).
Proof. intros Hi. unfold bit_at. now rewrite Nat.div_small, Nat.mod_small by exact Hi. Qed.
Lemma bit_at_skipn bs k i : bit_at (skipn k bs) i = bit_at bs (8 * k + i).
Proof.
  unfold bit_at. rewrite nth_skipn. replace (8 * k + i)%nat with (i + k * 8)%nat by lia.
  rewrite Nat.div_add, Nat.mod_add by lia. now rewrite Nat.add_comm.
Qed.
Lemma bit_at_cons_ge x r i : (8 <= i)%nat -> bit_at (x :: r) i = bit_at r (i - 8).
Proof. intros Hi. replace i with (8 * 1 + (i - 8))%nat at 1 by lia. symmetry. apply (bit_at_skipn (x :: r) 1). Qed.
Lemma bit_at_firstn bs n i : (i / 8 < n)%nat -> bit_at (firstn n bs) i = bit_at bs i.
Proof. intros H. unfold bit_at. now rewrite nth_firstn. Qed.

Lemma le_val_bound bs : wf_bytes bs -> le_val bs < 2^(8 * N.of_nat (length bs)).
Proof.
  induction 1 as [|b r Hb Hr IH]; [reflexivity|].
  cbn [le_val length]. replace (8 * N.of_nat (S (length r))) with (8 + 8 * N.of_nat (length r)) by lia.
  rewrite N.mul_comm. now apply add_shift_lt.
Qed.

Lemma le_val_testbit bs i : wf_bytes bs ->
  N.testbit (le_val bs) (N.of_nat i) = bit_at bs i.
Proof.
  intros Hwf. revert i. induction Hwf as [|b r Hb Hr IH]; intros i.
  - cbn [le_val]. now rewrite N.bits_0, bit_at_nil.
  - cbn [le_val]. rewrite testbit_add_shift by exact Hb.
    destruct (N.ltb_spec (N.of_nat i) 8) as [Hlt|Hge].
    + rewrite bit_at_cons_lt by lia. reflexivity.
    + rewrite bit_at_cons_ge by lia. rewrite <- IH. f_equal. lia.
Qed.

(* the w low base-256 digits of x, least significant first: what to_le_bytes writes *)
Fixpoint digits (w : nat) (x : N) : list N :=
  match w with O => [] | S w' => x mod 256 :: digits w' (x / 256) end.

Lemma digits_length w : forall x, length (digits w x) = w.
Proof. induction w as [|w IH]; intros x; cbn [digits length]; [reflexivity|now rewrite IH]. Qed.
Lemma le_val_digits w : forall x, le_val (digits w x) = x mod 2 ^ (8 * N.of_nat w).
Proof.
  induction w as [|w IH]; intros x; cbn [digits le_val]; [now rewrite N.mod_1_r|].
  rewrite IH. replace (8 * N.of_nat (S w)) with (8 + 8 * N.of_nat w) by lia. rewrite N.pow_add_r.
  symmetry. apply N.mod_mul_r; [|apply N.pow_nonzero]; discriminate.
Qed.
Lemma le_val_inj x : forall y, wf_bytes x -> wf_bytes y -> length x = length y -> le_val x = le_val y -> x = y.
Proof.
  induction x as [|u x IH]; intros [|v y] Hx Hy Hl E; cbn [length] in Hl; try discriminate; [reflexivity|].
  inversion Hx as [|? ? Hu Hx']; inversion Hy as [|? ? Hv Hy']; subst. cbn [le_val] in E.
  destruct (N.div_mod_unique (2^8) (le_val x) (le_val y) u v Hu Hv) as [E' ->]; [lia|].
  f_equal. apply IH; auto.
Qed.

(* The number whose binary digits, least significant first, are l; and a bit list cut into bytes of eight.
   The models of C02, C04 and C19 pack validity and boolean buffers with copies of their own (byte_of_bools / pack_bits,
   byte_of_bits / bytes_of_bits) that compute to these two. *)
Fixpoint bits_val (l : list bool) : N :=
  match l with [] => 0 | b :: r => (if b then 1 else 0) + 2 * bits_val r end.
(* one byte per unit of fuel: fuel >= length l / 8 rounded up packs all of l, as bit_at_pack_bytes asks *)
Fixpoint pack_bytes (fuel : nat) (l : list bool) : list N :=
  match fuel with O => [] | S f =>
    match l with [] => [] | _ => bits_val (firstn 8 l) :: pack_bytes f (skipn 8 l) end end.

Lemma bits_val_testbit l : forall j, N.testbit (bits_val l) (N.of_nat j) = nth j l false.
Proof.
  induction l as [|b r IH]; intros j; cbn [bits_val].
  - rewrite N.bits_0. now destruct j.
  - replace ((if b then 1 else 0) + 2 * bits_val r) with (2 * bits_val r + N.b2n b) by (destruct b; cbn [N.b2n]; lia).
    destruct j as [|j]; cbn [nth]; [apply N.testbit_0_r|]. rewrite Nat2N.inj_succ, N.testbit_succ_r. apply IH.
Qed.

Lemma bit_at_pack_bytes fuel : forall l i, (length l <= 8 * fuel)%nat -> bit_at (pack_bytes fuel l) i = nth i l false.
Proof.
  induction fuel as [|f IH]; intros l i Hl.
  - destruct l; [|cbn [length] in Hl; lia]. cbn [pack_bytes]. rewrite bit_at_nil. now destruct i.
  - destruct l as [|b l']; [cbn [pack_bytes]; rewrite bit_at_nil; now destruct i|].
    change (pack_bytes (S f) (b :: l')) with (bits_val (firstn 8 (b :: l')) :: pack_bytes f (skipn 8 (b :: l'))).
    destruct (Nat.lt_ge_cases i 8) as [Hi|Hi].
    + rewrite bit_at_cons_lt, bits_val_testbit by exact Hi. now apply nth_firstn.
    + rewrite bit_at_cons_ge, IH by (rewrite ?skipn_length; lia). rewrite nth_skipn. f_equal. lia.
Qed.

(* the 64-bit little-endian read of the bit-chunk iterators (C19) *)
Lemma read_u64_bound bs o : wf_bytes bs -> read_u64 bs o < 2^64.
Proof.
  intros Hwf. unfold read_u64. eapply N.lt_le_trans; [apply le_val_bound, wf_firstn_skipn, Hwf|].
  apply N.pow_le_mono_r; [lia|]. rewrite firstn_length. lia.
Qed.
