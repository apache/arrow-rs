(* Strict RFC 3629 UTF-8; bytes and code points are N: the relation [encoded] (Table 3-7 in six-bit
   digits), the two round trips of [encode] / [decode1] and of whole strings ([valid_utf8_iff]), the
   shape of an encoding and [encoding_split]. *)
From Coq Require Import List NArith Lia Bool ZifyBool.
Import ListNotations.
Local Open Scope N_scope.

Definition scalar (c : N) : bool := (c <? 55296) || ((57343 <? c) && (c <=? 1114111)).   (* not D800..DFFF, <= 10FFFF *)
Definition cont (b : N) : bool := (128 <=? b) && (b <=? 191).
Definition in_rng (lo hi b : N) : bool := (lo <=? b) && (b <=? hi).

Definition encode (c : N) : list N :=
  if c <? 128 then [c]
  else if c <? 2048 then [192 + c / 64; 128 + c mod 64]
  else if c <? 65536 then [224 + c / 4096; 128 + (c / 64) mod 64; 128 + c mod 64]
  else [240 + c / 262144; 128 + (c / 4096) mod 64; 128 + (c / 64) mod 64; 128 + c mod 64].

(* strict decoder of one scalar value (Table 3-7 of the Unicode standard) *)
Definition decode1 (bs : list N) : option (N * list N) :=
  match bs with
  | [] => None
  | b0 :: r =>
    if b0 <? 128 then Some (b0, r)
    else if in_rng 194 223 b0 then
      match r with b1 :: r' => if cont b1 then Some ((b0 - 192) * 64 + (b1 - 128), r') else None | _ => None end
    else if in_rng 224 239 b0 then
      match r with
      | b1 :: b2 :: r' =>
        let lo := if b0 =? 224 then 160 else 128 in
        let hi := if b0 =? 237 then 159 else 191 in
        if in_rng lo hi b1 && cont b2
        then Some ((b0 - 224) * 4096 + (b1 - 128) * 64 + (b2 - 128), r') else None
      | _ => None end
    else if in_rng 240 244 b0 then
      match r with
      | b1 :: b2 :: b3 :: r' =>
        let lo := if b0 =? 240 then 144 else 128 in
        let hi := if b0 =? 244 then 143 else 191 in
        if in_rng lo hi b1 && cont b2 && cont b3
        then Some ((b0 - 240) * 262144 + (b1 - 128) * 4096 + (b2 - 128) * 64 + (b3 - 128), r') else None
      | _ => None end
    else None
  end.

(* whole strings; the length suffices as fuel, every character takes at least one byte *)
Fixpoint decode_all (fuel : nat) (bs : list N) : option (list N) :=
  match bs with
  | [] => Some []
  | _ => match fuel with
         | O => None
         | S fuel => match decode1 bs with
                     | Some (c, r) => option_map (cons c) (decode_all fuel r)
                     | None => None end
         end
  end.
Definition valid_utf8 (bs : list N) : bool := match decode_all (length bs) bs with Some _ => true | None => false end.

Lemma ltb_false a b : b <= a -> (a <? b) = false. Proof. intros; now apply N.ltb_ge. Qed.
Lemma ltb_true a b : a < b -> (a <? b) = true. Proof. intros; now apply N.ltb_lt. Qed.
Lemma in_rng_iff lo hi b : in_rng lo hi b = true <-> lo <= b <= hi.
Proof. unfold in_rng. rewrite andb_true_iff, !N.leb_le. tauto. Qed.
Lemma in_rng_true lo hi b : lo <= b <= hi -> in_rng lo hi b = true.
Proof. apply in_rng_iff. Qed.
Lemma in_rng_false_lo lo hi b : b < lo -> in_rng lo hi b = false.
Proof. intros. unfold in_rng. now rewrite (proj2 (N.leb_gt lo b)). Qed.
Lemma in_rng_false_hi lo hi b : hi < b -> in_rng lo hi b = false.
Proof. intros. unfold in_rng. rewrite (proj2 (N.leb_gt b hi)) by assumption. apply andb_false_r. Qed.
Lemma cont_iff b : cont b = true <-> 128 <= b <= 191.
Proof. apply (in_rng_iff 128 191). Qed.
Lemma scalar_iff c : scalar c = true <-> c < 55296 \/ (57343 < c /\ c <= 1114111).
Proof. unfold scalar. now rewrite orb_true_iff, andb_true_iff, !N.ltb_lt, N.leb_le. Qed.

Lemma digits64 c : exists q l, c = q * 64 + l /\ l < 64.
Proof.
  exists (c / 64), (c mod 64). split; [|now apply N.mod_lt].
  rewrite N.mul_comm. now apply N.div_mod.
Qed.
Lemma div64 q l : l < 64 -> (q * 64 + l) / 64 = q.
Proof. intros. symmetry. apply (N.div_unique _ 64 q l); lia. Qed.
Lemma mod64 q l : l < 64 -> (q * 64 + l) mod 64 = l.
Proof. intros. symmetry. apply (N.mod_unique _ 64 q l); lia. Qed.
Lemma offset k b : k <= b -> exists h, b = k + h.
Proof. exists (b - k). lia. Qed.
Lemma add_sub_l k h : k + h - k = h.
Proof. rewrite N.add_comm. apply N.add_sub. Qed.
Lemma ltb_add k j h : j <= k -> (k + h <? j) = false.
Proof. intros. apply ltb_false. lia. Qed.
Lemma in_rng_add lo hi k h : hi < k -> in_rng lo hi (k + h) = false.
Proof. intros. apply in_rng_false_hi. lia. Qed.
Lemma cont_digit l : l < 64 -> cont (128 + l) = true.
Proof. intros. apply cont_iff. lia. Qed.
(* the decoder's test of the second byte: a continuation byte, restricted after two of the lead bytes.
   The side conditions are boolean so that a caller discharges them on its numerals by [eq_refl]
   (lia reads them through ZifyBool, which this file requires; so has it every file that loads this one, among them
   Model/C09_Layout.v and with it all of C02). *)
Lemma second_byte k1 lo k2 hi b0 b1 : (128 <=? lo) = true -> (hi <=? 191) = true ->
  in_rng (if b0 =? k1 then lo else 128) (if b0 =? k2 then hi else 191) b1 = true <->
  128 <= b1 <= 191 /\ (b0 = k1 -> lo <= b1) /\ (b0 = k2 -> b1 <= hi).
Proof. intros. rewrite in_rng_iff. destruct (N.eqb_spec b0 k1), (N.eqb_spec b0 k2); lia. Qed.

(* [encoded c bs]: [bs] is the well-formed byte sequence (Table 3-7) of the scalar value [c], both
   written with the six-bit digits of [c].  Overlong forms, surrogates and values above
   10FFFF are excluded by [2 <= h] in the second row (no lead byte C0, C1) and by the second-byte
   restrictions after E0, ED, F0 and F4. *)
Inductive encoded : N -> list N -> Prop :=
| enc1 c : c < 128 -> encoded c [c]
| enc2 h l : 2 <= h < 32 /\ l < 64 -> encoded (h * 64 + l) [192 + h; 128 + l]
| enc3 h m l : h < 16 /\ m < 64 /\ l < 64 /\ (h = 0 -> 32 <= m) /\ (h = 13 -> m < 32) ->
    encoded (h * 4096 + m * 64 + l) [224 + h; 128 + m; 128 + l]
| enc4 h m n l : h <= 4 /\ m < 64 /\ n < 64 /\ l < 64 /\ (h = 0 -> 16 <= m) /\ (h = 4 -> m < 16) ->
    encoded (h * 262144 + m * 4096 + n * 64 + l) [240 + h; 128 + m; 128 + n; 128 + l].

Lemma encoded_scalar c bs : encoded c bs -> scalar c = true.
Proof. intros E. apply scalar_iff. destruct E; lia. Qed.

Lemma encoded_encode c bs : encoded c bs -> encode c = bs.
Proof.
  intros E. unfold encode. change 4096 with (64 * 64). change 262144 with (64 * 64 * 64).
  rewrite <- !N.div_div by discriminate.
  destruct E as [c H|h l (Hh & Hl)|h m l (Hh & Hm & Hl & H)|h m n l (Hh & Hm & Hn & Hl & H)].
  - now rewrite ltb_true.
  - rewrite ltb_false, ltb_true by lia. now rewrite div64, mod64.
  - rewrite (ltb_false _ 128), (ltb_false _ 2048), ltb_true by lia.
    replace (h * 4096 + m * 64 + l) with ((h * 64 + m) * 64 + l) by ring. now rewrite !div64, !mod64.
  - rewrite (ltb_false _ 128), (ltb_false _ 2048), (ltb_false _ 65536) by lia.
    replace (h * 262144 + m * 4096 + n * 64 + l) with (((h * 64 + m) * 64 + n) * 64 + l) by ring.
    now rewrite !div64, !mod64.
Qed.

Lemma encode_ascii c : c < 128 -> encode c = [c].
Proof. intros H. exact (encoded_encode c [c] (enc1 c H)). Qed.

Lemma encode_encoded c : scalar c = true -> encoded c (encode c).
Proof.
  intros S. apply scalar_iff in S.
  enough (exists bs, encoded c bs) as [bs E] by now rewrite (encoded_encode c bs E).
  destruct (N.lt_ge_cases c 128); [eexists; now apply enc1|].
  destruct (digits64 c) as (q & l & -> & Hl).
  destruct (N.lt_ge_cases (q * 64 + l) 2048); [eexists; apply enc2; lia|].
  destruct (digits64 q) as (h & m & -> & Hm).
  replace ((h * 64 + m) * 64 + l) with (h * 4096 + m * 64 + l) in * by ring.
  destruct (N.lt_ge_cases (h * 4096 + m * 64 + l) 65536); [eexists; apply enc3; lia|].
  destruct (digits64 h) as (h' & m' & -> & Hm').
  replace ((h' * 64 + m') * 4096 + m * 64 + l) with (h' * 262144 + m' * 4096 + m * 64 + l) in * by ring.
  eexists. apply enc4; lia.
Qed.

Lemma encoded_decode1 c bs rest : encoded c bs -> decode1 (bs ++ rest) = Some (c, rest).
Proof.
  destruct 1 as [c H|h l (Hh & Hl)|h m l (Hh & Hm & Hl & H)|h m n l (Hh & Hm & Hn & Hl & H)];
    cbn [app decode1].
  - now rewrite ltb_true.
  - rewrite (ltb_add 192 128) by lia.
    rewrite in_rng_true, cont_digit by (assumption || lia). now rewrite !add_sub_l.
  - rewrite (ltb_add 224 128), (in_rng_add 194 223 224) by lia.
    rewrite (in_rng_true 224), cont_digit, andb_true_r by (assumption || lia).
    rewrite (proj2 (second_byte 224 160 237 159 _ _ eq_refl eq_refl)) by lia. now rewrite !add_sub_l.
  - rewrite (ltb_add 240 128), (in_rng_add 194 223 240), (in_rng_add 224 239 240) by lia.
    rewrite (in_rng_true 240), !cont_digit, !andb_true_r by (assumption || lia).
    rewrite (proj2 (second_byte 240 144 244 143 _ _ eq_refl eq_refl)) by lia. now rewrite !add_sub_l.
Qed.

Theorem decode1_encode c rest : scalar c = true -> decode1 (encode c ++ rest) = Some (c, rest).
Proof. intros S. now apply encoded_decode1, encode_encoded. Qed.

Lemma decode1_encoded bs c r : decode1 bs = Some (c, r) -> exists e, bs = e ++ r /\ encoded c e.
Proof.
  destruct bs as [|b0 t]; [discriminate|]. cbn [decode1].
  destruct (N.ltb_spec b0 128) as [L0|L0].
  { intros H; inversion H; subst c r. exists [b0]. split; [reflexivity|now apply enc1]. }
  destruct (in_rng 194 223 b0) eqn:R2.
  { apply in_rng_iff in R2. destruct t as [|b1 t]; [discriminate|].
    destruct (cont b1) eqn:C1; [|discriminate]. apply cont_iff in C1.
    intros H; inversion H; subst c r; clear H.
    destruct (offset 192 b0) as [h ->], (offset 128 b1 (proj1 C1)) as [l ->]; [lia|]. rewrite !add_sub_l.
    exists [192 + h; 128 + l]. split; [reflexivity|apply enc2; lia]. }
  destruct (in_rng 224 239 b0) eqn:R3.
  { apply in_rng_iff in R3. destruct t as [|b1 [|b2 t]]; try discriminate.
    destruct (in_rng _ _ b1 && cont b2) eqn:C; [|discriminate].
    apply andb_true_iff in C as [C1 C2]. apply cont_iff in C2.
    apply (second_byte 224 160 237 159 _ _ eq_refl eq_refl) in C1 as (B1 & B224 & B237).
    intros H; inversion H; subst c r; clear H.
    destruct (offset 224 b0 (proj1 R3)) as [h ->], (offset 128 b1 (proj1 B1)) as [m ->], (offset 128 b2 (proj1 C2)) as [l ->].
    rewrite !add_sub_l. exists [224 + h; 128 + m; 128 + l]. split; [reflexivity|apply enc3; lia]. }
  destruct (in_rng 240 244 b0) eqn:R4; [|discriminate].
  apply in_rng_iff in R4. destruct t as [|b1 [|b2 [|b3 t]]]; try discriminate.
  destruct (in_rng _ _ b1 && cont b2 && cont b3) eqn:C; [|discriminate].
  apply andb_true_iff in C as [C C3]. apply andb_true_iff in C as [C1 C2].
  apply cont_iff in C2. apply cont_iff in C3.
  apply (second_byte 240 144 244 143 _ _ eq_refl eq_refl) in C1 as (B1 & B240 & B244).
  intros H; inversion H; subst c r; clear H.
  destruct (offset 240 b0 (proj1 R4)) as [h ->], (offset 128 b1 (proj1 B1)) as [m ->],
    (offset 128 b2 (proj1 C2)) as [n ->], (offset 128 b3 (proj1 C3)) as [l ->].
  rewrite !add_sub_l. exists [240 + h; 128 + m; 128 + n; 128 + l]. split; [reflexivity|apply enc4; lia].
Qed.

Theorem decode1_inv bs c r : decode1 bs = Some (c, r) -> bs = encode c ++ r /\ scalar c = true.
Proof.
  intros D. destruct (decode1_encoded bs c r D) as (e & -> & E).
  split; [now rewrite (encoded_encode c e E)|exact (encoded_scalar c e E)].
Qed.

(* the first byte of an encoding is no continuation byte, all others are: character boundaries of a
   valid string can be told from single bytes *)
Lemma encode_shape c : exists b0 t, encode c = b0 :: t /\ cont b0 = false /\ Forall (fun b => cont b = true) t.
Proof.
  assert (L : forall k x, 191 < k -> cont (k + x) = false) by (intros; apply (in_rng_false_hi 128 191); lia).
  assert (C : forall x, cont (128 + x mod 64) = true) by (intros; now apply cont_digit, N.mod_lt).
  unfold encode. destruct (N.ltb_spec c 128) as [H1|H1].
  { exists c, []. repeat split; [now apply (in_rng_false_lo 128 191)|constructor]. }
  destruct (c <? 2048).
  { eexists _, _. repeat split; [now apply L|repeat constructor; apply C]. }
  destruct (c <? 65536).
  { eexists _, _. repeat split; [now apply L|repeat constructor; apply C]. }
  eexists _, _. repeat split; [now apply L|repeat constructor; apply C].
Qed.

Lemma encode_high c : 128 <= c -> Forall (fun b => 128 <= b) (encode c).
Proof.
  intros H. assert (L : forall k x, 128 <= k -> 128 <= k + x) by (intros; lia).
  unfold encode. rewrite (ltb_false c 128 H).
  destruct (c <? 2048), (c <? 65536); repeat constructor; now apply L.
Qed.

Lemma encode_len c : (1 <= length (encode c) <= 4)%nat.
Proof. unfold encode. destruct (c <? 128), (c <? 2048), (c <? 65536); cbn [length]; lia. Qed.

Definition char_start (r : list N) : Prop := cont (nth 0 r 0) = false.

Lemma encoding_split cs : forall l r, flat_map encode cs = l ++ r -> char_start r ->
  exists cs1 cs2, cs = cs1 ++ cs2 /\ l = flat_map encode cs1 /\ r = flat_map encode cs2.
Proof.
  induction cs as [|c cs IH]; intros l r E Hr; cbn [flat_map] in E.
  - symmetry in E. apply app_eq_nil in E as [-> ->]. now exists [], [].
  - apply app_eq_app in E as [m [[E1 E2]|[E1 E2]]].
    + destruct l as [|b l]; [exists [], (c :: cs); cbn in E1; subst; auto|].
      destruct m as [|x m].
      { rewrite app_nil_r in E1. subst. exists [c], cs. cbn. now rewrite app_nil_r. }
      (* the cut would fall inside c, in front of the continuation byte x *)
      exfalso. destruct (encode_shape c) as (b0 & t & Ec & _ & Ht). rewrite Ec in E1. inversion E1; subst t.
      apply Forall_app in Ht as [_ Ht]. inversion Ht; subst. unfold char_start in Hr. cbn in Hr. congruence.
    + destruct (IH m r E2 Hr) as (h1 & h2 & -> & -> & ->). exists (c :: h1), h2. subst l. auto.
Qed.

Theorem decode_all_encode cs : Forall (fun c => scalar c = true) cs ->
  forall fuel, (length (flat_map encode cs) <= fuel)%nat -> decode_all fuel (flat_map encode cs) = Some cs.
Proof.
  induction 1 as [|c cs Hc _ IH]; intros fuel Hf; [destruct fuel; reflexivity|].
  cbn [flat_map] in *. rewrite app_length in Hf. pose proof (encode_len c) as Hl.
  destruct fuel as [|fuel]; [lia|].
  destruct (encode c) as [|e0 er] eqn:Ee; [cbn in Hl; lia|].
  cbn [app decode_all].
  change (e0 :: er ++ flat_map encode cs) with ((e0 :: er) ++ flat_map encode cs).
  rewrite <- Ee. rewrite decode1_encode by exact Hc.
  rewrite IH; [reflexivity|]. cbn [length] in Hf. lia.
Qed.
Print Assumptions decode_all_encode.

Lemma decode_all_inv fuel : forall bs cs, decode_all fuel bs = Some cs ->
  bs = flat_map encode cs /\ Forall (fun c => scalar c = true) cs.
Proof.
  induction fuel as [|fuel IH]; intros [|b t] cs H.
  - injection H as <-. now split.
  - discriminate H.
  - injection H as <-. now split.
  - cbn [decode_all] in H. destruct (decode1 (b :: t)) as [[c r]|] eqn:D; [|discriminate].
    destruct (decode_all fuel r) as [cs'|] eqn:E; [|discriminate]. inversion H; subst cs.
    apply decode1_inv in D as [-> Sc]. apply IH in E as [-> Scs]. now split; [|constructor].
Qed.

(* whole strings: the valid byte strings are the encodings of sequences of scalar values *)
Theorem valid_utf8_iff bs : valid_utf8 bs = true <-> exists cs, Forall (fun c => scalar c = true) cs /\ bs = flat_map encode cs.
Proof.
  unfold valid_utf8. split.
  - destruct (decode_all (length bs) bs) as [cs|] eqn:D; [|discriminate]. intros _.
    apply decode_all_inv in D as [E S]. now exists cs.
  - intros (cs & S & ->). now rewrite (decode_all_encode cs S _ (le_n _)).
Qed.
