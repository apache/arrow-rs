(* Three-way comparisons [A -> A -> comparison]: what it means for one to be a total order at a point, and what
   antisymmetry and transitivity alone give (section Preorder); the lexicographic comparison of lists [lexc], a
   total order wherever the comparison of elements is; and why comparing zero-padded prefixes before lengths
   agrees with it.  Rust's [u8]::cmp, Vec<T>::cmp and memcmp-then-length are
   [lexc] at an element comparison; so are the byte-wise comparisons of the C07 and C11 models, by computation, and
   C10's [lex_cmp], by a lemma (C10_Cmp.lex_cmp_lexc: it takes the comparison as an argument of its fixpoint). *)
From Coq Require Import List NArith ZArith Lia.
Import ListNotations.

(* The element comparison is a section variable, not an argument of the fixpoint: [lexc c] then unfolds to a
   fixpoint on the two lists alone, which is what the byte-wise comparisons of C07_Trunc and C11_Row are. *)
Section LexcDef.
Context {A : Type} (c : A -> A -> comparison).
Fixpoint lexc (x y : list A) : comparison :=
  match x, y with
  | [], [] => Eq
  | [], _ :: _ => Lt
  | _ :: _, [] => Gt
  | a :: x', b :: y' => match c a b with Eq => lexc x' y' | r => r end
  end.
End LexcDef.

(* c behaves at a like a total order whose equivalence is equality.  The four facts are kept together and
   pointwise because an induction over nested values has to carry them together: transitivity of the
   lexicographic comparison at a list needs the other three at its elements. *)
Definition ord_at {A} (c : A -> A -> comparison) (a : A) : Prop :=
  c a a = Eq /\ (forall b, c b a = CompOpp (c a b)) /\ (forall b, c a b = Eq -> a = b) /\
  (forall b d, c a b <> Gt -> c b d <> Gt -> c a d <> Gt).

(* What follows from antisymmetry and transitivity alone; Eq need not be equality.  C10's sort, rank and heap
   theorems ask no more of a comparator (C10_Cmp.tpo), and [ord_at] everywhere gives both. *)
Section Preorder.
Context {A : Type} (c : A -> A -> comparison).
Hypothesis Ha : forall a b, c b a = CompOpp (c a b).
Hypothesis Ht : forall a b d, c a b <> Gt -> c b d <> Gt -> c a d <> Gt.

(* a strict step anywhere in a chain makes the chain strict: d <= a would put b below a *)
Lemma cmp_lt_le a b d : c a b = Lt -> c b d <> Gt -> c a d = Lt.
Proof.
  intros E1 E2. assert (N : c a d <> Gt) by (apply (Ht a b d); congruence).
  destruct (c a d) eqn:E; try congruence. exfalso.
  assert (N2 : c b a <> Gt). { apply (Ht b d a); [exact E2|]. rewrite Ha, E. discriminate. }
  rewrite Ha, E1 in N2. now apply N2.
Qed.
Lemma cmp_eq_trans a b d : c a b = Eq -> c b d = Eq -> c a d = Eq.
Proof.
  intros E1 E2. assert (N : c a d <> Gt) by (apply (Ht a b d); congruence).
  assert (N2 : c d a <> Gt). { apply (Ht d b a); rewrite Ha; [rewrite E2|rewrite E1]; discriminate. }
  rewrite Ha in N2. destruct (c a d); cbn in *; congruence.
Qed.
(* Lt and Eq pass from c d a to c d b and back, so Gt does too *)
Lemma cmp_eq_r a b d : c a b = Eq -> c d a = c d b.
Proof.
  intros E. assert (E' : c b a = Eq) by now rewrite Ha, E.
  destruct (c d a) eqn:E1; symmetry.
  - now apply cmp_eq_trans with a.
  - apply cmp_lt_le with a; congruence.
  - destruct (c d b) eqn:E2; [| |reflexivity].
    + rewrite (cmp_eq_trans d b a E2 E') in E1. discriminate.
    + rewrite (cmp_lt_le d b a E2) in E1 by congruence. discriminate.
Qed.
Lemma cmp_eq_l a b d : c a b = Eq -> c a d = c b d.
Proof. intros E. rewrite (Ha d a), (Ha d b). f_equal. now apply cmp_eq_r. Qed.
End Preorder.

(* the mirror image, by cmp_lt_le for the converse comparison *)
Lemma cmp_le_lt {A} (c : A -> A -> comparison) :
  (forall a b, c b a = CompOpp (c a b)) -> (forall a b d, c a b <> Gt -> c b d <> Gt -> c a d <> Gt) ->
  forall a b d, c a b <> Gt -> c b d = Lt -> c a d = Lt.
Proof.
  intros Ha Ht a b d E1 E2.
  exact (cmp_lt_le (fun x y => c y x) (fun x y => Ha y x) (fun x y z H1 H2 => Ht z y x H2 H1) d b a E2 E1).
Qed.

Section Ord.
Context {A : Type} (c : A -> A -> comparison).
Hypothesis Hc : forall a, ord_at c a.

Lemma ord_refl a : c a a = Eq.
Proof. apply Hc. Qed.
Lemma ord_opp a b : c b a = CompOpp (c a b).
Proof. apply Hc. Qed.
Lemma ord_eq a b : c a b = Eq -> a = b.
Proof. apply Hc. Qed.
Lemma ord_le_trans a b d : c a b <> Gt -> c b d <> Gt -> c a d <> Gt.
Proof. apply Hc. Qed.
Lemma ord_le_lt_trans a b d : c a b <> Gt -> c b d = Lt -> c a d = Lt.
Proof. exact (cmp_le_lt c ord_opp ord_le_trans a b d). Qed.
End Ord.

Lemma ord_Ncompare a : ord_at N.compare a.
Proof.
  split; [apply N.compare_refl|]. split; [intros b; apply N.compare_antisym|]. split; [apply N.compare_eq|].
  intros b d. rewrite !N.compare_gt_iff. lia.
Qed.
Lemma ord_Zcompare a : ord_at Z.compare a.
Proof.
  split; [apply Z.compare_refl|]. split; [intros b; apply Z.compare_antisym|]. split; [apply Z.compare_eq|].
  intros b d. rewrite !Z.compare_gt_iff. lia.
Qed.

Section Lexc.
Context {A : Type} (c : A -> A -> comparison).

Lemma lexc_ord x : Forall (ord_at c) x -> ord_at (lexc c) x.
Proof.
  induction 1 as [|a x (Hr & Ha & He & Ht) _ (IHr & IHa & IHe & IHt)].
  { split; [reflexivity|]. split; [now intros [|b y]|]. split; [now intros [|b y]|].
    intros [|b y] [|d z]; cbn; congruence. }
  split; [|split; [|split]].
  - cbn. now rewrite Hr.
  - intros [|b y]; cbn; [reflexivity|]. rewrite Ha. destruct (c a b); cbn; [apply IHa|reflexivity..].
  - intros [|b y]; cbn; [discriminate|]. destruct (c a b) eqn:E; try discriminate.
    intros E2. f_equal; [now apply He|now apply IHe].
  - intros [|b y] [|d z]; cbn; try congruence. destruct (c a b) eqn:E1; try congruence.
    + apply He in E1. subst b. destruct (c a d); try congruence. apply IHt.
    + (* a < b <= d, that is c b d = Eq or Lt, treated alike below: then a <= d, and a = d would put b below a *)
      intros _. destruct (c b d) eqn:E2; try congruence; intros _.
      all: assert (N : c a d <> Gt) by (apply (Ht b d); congruence).
      all: destruct (c a d) eqn:E3; try congruence.
      all: apply He in E3; subst d; rewrite Ha, E1 in E2; discriminate.
Qed.

(* on lists of one length the first difference decides, and what follows them is looked at only after a tie *)
Lemma lexc_app_same_len a : forall b x y, length a = length b ->
  lexc c (a ++ x) (b ++ y) = match lexc c a b with Eq => lexc c x y | r => r end.
Proof.
  induction a as [|p a IH]; intros [|q b] x y H; cbn [length] in H; try discriminate; [reflexivity|].
  cbn [app lexc]. destruct (c p q); [apply IH; lia | reflexivity | reflexivity].
Qed.
Lemma lexc_app_same a x y : (forall p, In p a -> c p p = Eq) -> lexc c (a ++ x) (a ++ y) = lexc c x y.
Proof.
  induction a as [|p a IH]; intros H; [reflexivity|]. cbn [app lexc].
  rewrite (H p (or_introl eq_refl)). apply IH. intros q Hq. apply H. now right.
Qed.
End Lexc.

(* an order-preserving map commutes with the lexicographic comparison; f = id: comparisons that agree on the elements *)
Lemma lexc_map {A B} (f : A -> B) (cA : A -> A -> comparison) (cB : B -> B -> comparison) x : forall y,
  (forall a b, In a x -> In b y -> cB (f a) (f b) = cA a b) -> lexc cB (map f x) (map f y) = lexc cA x y.
Proof.
  induction x as [|a x IH]; intros [|b y] H; try reflexivity. cbn [map lexc].
  rewrite (H a b) by now left. destruct (cA a b); try reflexivity. apply IH. intros; apply H; now right.
Qed.
Lemma lexc_ext {A} (c1 c2 : A -> A -> comparison) x y :
  (forall a b, In a x -> In b y -> c1 a b = c2 a b) -> lexc c1 x y = lexc c2 x y.
Proof. intros H. rewrite <- (map_id x) at 1. rewrite <- (map_id y) at 1. now apply lexc_map. Qed.

(* Comparing fixed-width, padded prefixes first.  arrow-ord's sort_bytes and byte-view comparators look at a
   4- or 12-byte zero-padded prefix and then at the lengths; arrow-row's variable-length encoding writes
   zero-padded blocks followed by a length byte.  Both are right for one reason: the padding z is below every
   element, so a difference between padded prefixes is the difference between the lists, and a tie between
   them leaves the lengths to decide.  [P] holds of the elements the lists are made of, those the
   padding is known to be below (every byte, for z = 0). *)
Section Pad.
Context {A : Type} (c : A -> A -> comparison) (z : A) (P : A -> Prop).
Hypothesis Hc : forall a, ord_at c a.
Hypothesis Hz : forall a, P a -> c z a <> Gt.

Definition padz (n : nat) (l : list A) : list A := firstn n l ++ repeat z (n - length l).

Lemma padz_length n l : length (padz n l) = n.
Proof. unfold padz. rewrite app_length, firstn_length, repeat_length. lia. Qed.
Lemma padz_short n l : length l <= n -> padz n l = l ++ repeat z (n - length l).
Proof. intros H. unfold padz. now rewrite firstn_all2. Qed.

Lemma padz_S_nil n : padz (S n) [] = z :: padz n [].
Proof. unfold padz. rewrite !firstn_nil. cbn [app length Nat.sub repeat]. now rewrite Nat.sub_0_r. Qed.
Lemma padz_cons n a l : padz (S n) (a :: l) = a :: padz n l.
Proof. reflexivity. Qed.

Let Hl (l : list A) : ord_at (lexc c) l := lexc_ord c l (proj2 (Forall_forall _ _) (fun a _ => Hc a)).

Lemma padz_nil_min n : forall l, Forall P l -> lexc c (padz n []) (padz n l) <> Gt.
Proof.
  induction n as [|n IH]; intros l Hp; [destruct l; discriminate|].
  rewrite padz_S_nil. destruct l as [|b l].
  - rewrite padz_S_nil. cbn [lexc]. rewrite (ord_refl c Hc). now apply IH.
  - inversion Hp as [|? ? Hb Hp']; subst. rewrite padz_cons. cbn [lexc].
    specialize (Hz b Hb). destruct (c z b); [now apply IH|discriminate|congruence].
Qed.

Lemma lexc_pad_ne n : forall a b, Forall P a -> Forall P b ->
  lexc c (padz n a) (padz n b) <> Eq -> lexc c a b = lexc c (padz n a) (padz n b).
Proof.
  induction n as [|n IH]; intros a b Ha Hb; [cbn; congruence|].
  assert (L : forall l, Forall P l -> lexc c (padz (S n) []) (padz (S n) l) <> Eq ->
              lexc c (padz (S n) []) (padz (S n) l) = Lt).
  { intros l Hp N. pose proof (padz_nil_min (S n) l Hp). destruct (lexc c _ _); congruence. }
  destruct a as [|x a], b as [|y b].
  - intros N. elim N. apply (ord_refl _ Hl).
  - intros N. now rewrite (L (y :: b) Hb N).
  - rewrite (ord_opp _ Hl (padz (S n) []) (padz (S n) (x :: a))). intros N.
    rewrite (L (x :: a) Ha); [reflexivity|]. intros E. apply N. now rewrite E.
  - rewrite !padz_cons. cbn [lexc]. inversion Ha; inversion Hb; subst.
    destruct (c x y); try reflexivity. now apply IH.
Qed.

Lemma lexc_pad_tie n : forall a b, lexc c (padz n a) (padz n b) = Eq -> length a <= n \/ length b <= n ->
  lexc c a b = Nat.compare (length a) (length b).
Proof.
  induction n as [|n IH]; intros a b E L.
  - destruct a, b; cbn in *; try reflexivity; lia.
  - destruct a as [|x a], b as [|y b]; try reflexivity.
    rewrite !padz_cons in E. cbn [lexc] in E |- *.
    destruct (c x y); try discriminate. cbn [length Nat.compare]. apply IH; [exact E|cbn in L; lia].
Qed.

(* the comparators' shape: padded prefixes, then whatever t settles a tie *)
Lemma lexc_pad_then n a b t : Forall P a -> Forall P b ->
  (lexc c (padz n a) (padz n b) = Eq -> t = lexc c a b) ->
  match lexc c (padz n a) (padz n b) with Eq => t | r => r end = lexc c a b.
Proof.
  intros Ha Hb Ht. destruct (lexc c (padz n a) (padz n b)) eqn:E; [now apply Ht|..];
    symmetry; rewrite <- E; apply lexc_pad_ne; congruence.
Qed.

(* the encoding's shape: a padded block, then a mark that orders like the length, then the rest *)
Lemma lexc_pad_mark n (m : list A -> A) v w x y : Forall P v -> Forall P w ->
  c (m v) (m w) = Nat.compare (length v) (length w) -> length v <= n \/ length w <= n ->
  lexc c (padz n v ++ m v :: x) (padz n w ++ m w :: y) = match lexc c v w with Eq => lexc c x y | r => r end.
Proof.
  intros Hv Hw Hm L. rewrite lexc_app_same_len by now rewrite !padz_length. cbn [lexc]. rewrite Hm.
  rewrite <- (lexc_pad_then n v w (Nat.compare (length v) (length w)) Hv Hw)
    by (intros E; symmetry; exact (lexc_pad_tie n v w E L)).
  now destruct (lexc c (padz n v) (padz n w)).
Qed.
End Pad.
