(* C15: the concrete planner replayed by the correspondence run (Model/C15_Plan.v) satisfies the
   hypothesis of the abstract theorems whenever the column chunk ranges it was given lie within the
   file; non-vacuity examples. *)
From Coq Require Import List NArith Bool.
From AV Require Import Model.C15_PushBuf Model.C15_Machine Model.C15_Trace Model.C15_Plan Proofs.C15_Machine Proofs.C15_Drive.
Import ListNotations.
Local Open Scope N_scope.

Lemma chunk_ranges_incl cs : forall mask fetched c, In c (chunk_ranges cs mask fetched) -> In c cs.
Proof.
  induction cs as [|c0 cs IH]; intros mask fetched c; cbn [chunk_ranges]; [tauto|].
  intros H. apply in_app_or in H. destruct H as [H|H].
  - destruct (hd false mask && negb (hd false fetched)); [|contradiction]. destruct H as [<-|[]]. now left.
  - right. eapply IH; eauto.
Qed.

Section Inst.
Variable fp : fileplan.
Variable file : list N.
Hypothesis chunks_in_file : forall g c, In c (nth g (fp_chunks fp) []) -> in_file_range file c.

Notation pok := (phase_ok unit budget file (in_file_range file)).

Lemma chunk_ranges_in_file g mask fetched :
  Forall (in_file_range file) (chunk_ranges (nth g (fp_chunks fp) []) mask fetched).
Proof. apply Forall_forall. intros c Hc. apply chunk_ranges_incl in Hc. eapply chunks_in_file; eauto. Qed.

Lemma data_phase_ok g b sel fetched : pok (data_phase fp g b sel fetched).
Proof.
  unfold data_phase. destruct ((sel =? 0) || (rows_after b sel =? 0)); constructor;
    [apply chunk_ranges_in_file|constructor].
Qed.

Lemma filter_phases_ok g b preds : forall i sel fetched, pok (filter_phases fp g b preds i sel fetched).
Proof.
  induction preds as [|pm preds IH]; intros i sel fetched; cbn [filter_phases]; [apply data_phase_ok|].
  destruct (sel =? 0); constructor; [apply chunk_ranges_in_file|apply IH].
Qed.

Theorem c_plan_in_file : forall r, pok (c_plan fp r).
Proof. intros [g b]. apply filter_phases_ok. Qed.

Theorem c_schedule_independence b sched :
  Forall (valid_action file) sched ->
  let '(m', evs) := run unit budget budget (nat * budget) (c_fr_step fp) (c_plan fp) c_upd file (c_init fp b) sched in
  (In EFinished evs -> rows_of unit evs = sync_rows unit budget budget (nat * budget) (c_fr_step fp) (c_plan fp) c_upd file (seq 0 (length (fp_rows fp))) b)
  /\ ~ In EError evs.
Proof.
  intros Hv.
  pose proof (schedule_independence unit budget budget (nat * budget) (c_fr_step fp) (c_plan fp) c_upd file c_plan_in_file
                (seq 0 (length (fp_rows fp))) b sched Hv) as H.
  unfold c_init. destruct (run _ _ _ _ _ _ _ file _ sched) as [m' evs]. tauto.
Qed.
End Inst.

(* a 40-byte file, two row groups of 3 and 2 rows, two leaf columns, one predicate on leaf 0,
   projection = both leaves, limit 3 *)
Definition ex_file : list N := map N.of_nat (seq 0 40).
Definition ex_fp : fileplan :=
  {| fp_rows := [3; 2];
     fp_chunks := [[(4, 10); (10, 18)]; [(18, 24); (24, 30)]];
     fp_proj := [true; true];
     fp_preds := [[true; false]];
     fp_match := [[2]; [2]] |}.
Definition ex_b : budget := {| b_off := None; b_lim := Some 3 |}.

Example ex_hyp : forall g c, In c (nth g (fp_chunks ex_fp) []) -> in_file_range ex_file c.
Proof.
  intros [|[|g]] c; cbn [nth fp_chunks ex_fp In].
  - intros [<-|[<-|[]]]; vm_compute; split; discriminate.
  - intros [<-|[<-|[]]]; vm_compute; split; discriminate.
  - destruct g; intros [].
Qed.

(* a schedule with an early unrelated range, a superset, a duplicate, a clear, and the range of a later
   phase supplied before the one asked for *)
Definition ex_sched : list action :=
  [ APush [(30, 35)]; ADecode; APush [(0, 12)]; APush [(0, 12)]; ADecode; APush [(10, 18)]; ADecode; ADecode; ADecode;
    AClear; ADecode; APush [(24, 30)]; ADecode; APush [(18, 24)]; ADecode; ADecode; ADecode ].

Example ex_run :
  let '(_, evs) := run unit budget budget (nat * budget) (c_fr_step ex_fp) (c_plan ex_fp) c_upd ex_file (c_init ex_fp ex_b) ex_sched in
  evs = [ EPush [(30, 35)]; ENeed [(4, 10)]; EPush [(0, 12)]; EPush [(0, 12)]; ENeed [(10, 18)]; EPush [(10, 18)];
          EData [tt]; EData [tt]; ENeed [(18, 24)]; EClear; ENeed [(18, 24)]; EPush [(24, 30)]; ENeed [(18, 24)];
          EPush [(18, 24)]; EData [tt]; EFinished; EFinished ]
  /\ sync_rows unit budget budget (nat * budget) (c_fr_step ex_fp) (c_plan ex_fp) c_upd ex_file [0; 1]%nat ex_b = [tt; tt; tt].
Proof. vm_compute. split; reflexivity. Qed.

Example ex_valid : Forall (valid_action ex_file) ex_sched.
Proof. repeat constructor; vm_compute; discriminate. Qed.

Example ex_drive :
  drive unit budget budget (nat * budget) (c_fr_step ex_fp) (c_plan ex_fp) c_upd ex_file 20 (c_init ex_fp ex_b) = ([tt; tt; tt], true)
  /\ potential unit budget budget (nat * budget) (c_fr_step ex_fp) (c_plan ex_fp) c_upd ex_file (c_init ex_fp ex_b) = 12%nat.
Proof. vm_compute. split; reflexivity. Qed.

Example ex_async :
  stream_collect unit budget budget (nat * budget) (c_fr_step ex_fp) (c_plan ex_fp) c_upd ex_file 60 [2; 0; 5]%nat
    {| s_req := QNone; s_dec := c_init ex_fp ex_b |} = ([tt; tt; tt], true).
Proof. vm_compute. reflexivity. Qed.

(* the trace predicate accepts the trace of this run and rejects a stalled decoder *)
Example ex_trace_safe :
  trace_safe 40 [] false
    [ TPush [(30, 35)]; TNeed [(4, 10)]; TPush [(0, 12)]; TPush [(0, 12)]; TNeed [(10, 18)]; TPush [(10, 18)];
      TData 1; TData 1; TNeed [(18, 24)]; TClear; TNeed [(18, 24)]; TPush [(24, 30)]; TNeed [(18, 24)];
      TPush [(18, 24)]; TData 1; TFinished ] = true
  /\ trace_safe 40 [] false [ TNeed [(4, 10)]; TPush [(0, 12)]; TNeed [(4, 10)] ] = false
  /\ trace_safe 40 [] false [ TNeed [(4, 50)] ] = false
  /\ trace_safe 40 [] false [ TPush [(0, 40)]; TNeed [(4, 10)] ] = false.
Proof. vm_compute. repeat split; reflexivity. Qed.
