(* C16 — unique ownership and region content.  [Wr]: an intermediate state of an operation differs
   in content from the state before it only on regions all of whose references are held by the acting
   object; kept by every primitive update except a write, which needs [Uniq].  [Excl]: objects of the
   kinds that write without a check hold the only reference to their regions (stated here, next to
   [Uniq]; that it holds in every reachable state is C16_Excl.v and C16_Exec.v).  [Owned]: the regions an
   object that is to own its memory exclusively may be built over. *)
From Coq Require Import List ZArith Bool Lia.
From AV Require Import Model.C16_Own Proofs.C16_Inv Proofs.C16_Ops.
Import ListNotations.

(* all references to region [id] are held by the object in slot [i] *)
Definition Uniq (s : state) (i id : nat) : Prop :=
  0 < count_occ Nat.eq_dec (acts s i) id /\ cnt s id = count_occ Nat.eq_dec (acts s i) id.

(* objects that own their memory exclusively by type: MutableBuffer (2), Vec (3), PrimitiveBuilder (7) *)
Definition is_excl_kind (k : nat) : bool := (k =? 2) || (k =? 3) || (k =? 7).
Definition Excl (s : state) : Prop :=
  forall i o id, get_slot s i = Some o -> is_excl_kind (okind o) = true -> In id (obj_refs o) -> cnt s id = 1.
Lemma init_excl : Excl init.
Proof. intros j o id H. destruct j; discriminate. Qed.

Lemma uniq_of_le s i id : In id (acts s i) -> cnt s id <= count_occ Nat.eq_dec (acts s i) id -> Uniq s i id.
Proof.
  intros Hin Hc. apply (count_occ_In Nat.eq_dec) in Hin. pose proof (acts_le_cnt s i id). unfold Uniq. lia.
Qed.
Lemma uniq_of_cnt1 s i id : In id (acts s i) -> cnt s id = 1 -> Uniq s i id.
Proof. intros Hin Hc. apply uniq_of_le; [exact Hin|]. apply (count_occ_In Nat.eq_dec) in Hin. lia. Qed.

Lemma uniq_lt s i id : Inv s -> Uniq s i id -> id < length (nodes s).
Proof. intros I [Hpos Hc]. apply (ref_lt s id I). apply in_refs_cnt. lia. Qed.

Lemma cnt_fresh_zero s id : Inv s -> length (nodes s) <= id -> cnt s id = 0.
Proof.
  intros I H. destruct (cnt s id) as [|c] eqn:C; [reflexivity|exfalso].
  assert (Hin : In id (all_refs s)) by (apply in_refs_cnt; lia). pose proof (ref_lt s id I Hin). lia.
Qed.

(* distinct regions, each of them new since [s] or referenced only by the object in slot [i] of [s]:
   what an object that is to own its memory exclusively may be built over *)
Definition Owned (s : state) (i : nat) (s1 : state) (rs : list nat) : Prop :=
  NoDup rs /\ forall r, In r rs -> Uniq s i r \/ Fresh s s1 r.

Lemma owned_mono s i s1 s2 rs : length (nodes s1) <= length (nodes s2) -> Owned s i s1 rs -> Owned s i s2 rs.
Proof. intros L [N H]. split; [exact N|]. intros r Hr. destruct (H r Hr) as [U|[H1 H2]]; [left; exact U|right; unfold Fresh; lia]. Qed.
Lemma owned_one s i s1 r : Uniq s i r \/ Fresh s s1 r -> Owned s i s1 [r].
Proof. intros H. split; [repeat constructor; intros []|]. intros r' [<-|[]]. exact H. Qed.
Lemma owned_uniq s i s1 rs r : Owned s i s1 rs -> In r rs -> r < length (nodes s) -> Uniq s i r.
Proof. intros [_ H] Hr Hlt. destruct (H r Hr) as [U|[Hge _]]; [exact U|lia]. Qed.
Lemma owned_count s i s1 rs id : Inv s -> Owned s i s1 rs -> In id rs ->
  cnt s id = count_occ Nat.eq_dec (acts s i) id /\ count_occ Nat.eq_dec rs id = 1.
Proof.
  intros I [N H] Hin. split; [|apply (NoDup_count_occ' Nat.eq_dec); assumption].
  destruct (H id Hin) as [[_ U]|[Hge _]]; [exact U|].
  pose proof (acts_le_cnt s i id). rewrite (cnt_fresh_zero s _ I Hge) in *. lia.
Qed.

Lemma into_mutable_ok_cnt s h c : into_mutable_ok s h c = true -> c = 1.
Proof. unfold into_mutable_ok. intros H. apply andb_true_iff in H as [H _]. apply andb_true_iff in H as [_ H]. apply Nat.eqb_eq. auto. Qed.
Lemma into_vec_ok_cnt s h e c : into_vec_ok s h e c = true -> c = 1.
Proof. unfold into_vec_ok. intros H. apply andb_true_iff in H as [_ H]. apply Nat.eqb_eq. auto. Qed.

Lemma slot_1_uniq s i k h : slot_1 s i k = Some h -> cnt s (hreg h) = 1 -> Uniq s i (hreg h).
Proof. intros E C. apply uniq_of_cnt1; [rewrite (slot_1_acts _ _ _ _ E); left; reflexivity|exact C]. Qed.

(* of the primitive updates only write_reg changes the content of a region *)
Lemma rb_set_slot i o s id : reg_bytes (set_slot i o s) id = reg_bytes s id. Proof. reflexivity. Qed.
Lemma rb_push_slot o s id : reg_bytes (push_slot o s) id = reg_bytes s id. Proof. reflexivity. Qed.
Lemma rb_add_node n s id : id < length (nodes s) -> reg_bytes (add_node n s) id = reg_bytes s id.
Proof. intros H. unfold reg_bytes, get_reg, add_node. cbn [nodes]. rewrite nth_error_app1 by exact H. reflexivity. Qed.
Lemma rb_upd_other s id' n' id p : id <> id' ->
  reg_bytes (mkS (upd_nth id' n' (nodes s)) (slots s) p) id = reg_bytes s id.
Proof. intros H. unfold reg_bytes, get_reg. cbn [nodes]. rewrite nth_error_upd_nth_ne by auto. reflexivity. Qed.
Lemma rb_set_resv id' v s id : reg_bytes (set_resv id' v s) id = reg_bytes s id.
Proof.
  unfold set_resv. destruct (get_reg s id') as [r|] eqn:E; [|reflexivity].
  destruct (Nat.eq_dec id id') as [->|Hne]; [|apply rb_upd_other; auto].
  unfold reg_bytes at 1, get_reg at 1. cbn [nodes].
  unfold get_reg in E. destruct (nth_error (nodes s) id') as [[r'|e]|] eqn:E2; try discriminate. injection E as ->.
  rewrite nth_error_upd_nth_eq by (apply nth_error_Some; congruence).
  unfold reg_bytes, get_reg. rewrite E2. reflexivity.
Qed.
Lemma rb_write_reg id' b s id : id <> id' -> reg_bytes (write_reg id' b s) id = reg_bytes s id.
Proof.
  intros H. unfold write_reg. destruct (get_reg s id'); [|reflexivity]. unfold set_reg. apply rb_upd_other. auto.
Qed.

Section Writes.
  Variables (s : state) (i : nat).

  Record Wr (s1 : state) : Prop := mkWr {
    w_len : length (nodes s) <= length (nodes s1);
    w_bytes : forall id, id < length (nodes s) -> reg_bytes s1 id = reg_bytes s id \/ Uniq s i id }.

  Lemma wr_refl : Wr s. Proof. constructor; auto. Qed.
  Lemma wr_set_slot j o s1 : Wr s1 -> Wr (set_slot j o s1).
  Proof. intros [L B]. constructor; auto. Qed.
  Lemma wr_push_slot o s1 : Wr s1 -> Wr (push_slot o s1).
  Proof. intros [L B]. constructor; auto. Qed.
  Lemma wr_add_node n s1 : Wr s1 -> Wr (add_node n s1).
  Proof.
    intros [L B]. constructor; [rewrite add_node_len; lia|].
    intros id H. rewrite rb_add_node by lia. auto.
  Qed.
  Lemma wr_set_resv id v s1 : Wr s1 -> Wr (set_resv id v s1).
  Proof. intros [L B]. constructor; [rewrite set_resv_len; auto|]. intros id' H. rewrite rb_set_resv. auto. Qed.
  Lemma wr_write_reg id b s1 : Wr s1 -> (id < length (nodes s) -> Uniq s i id) -> Wr (write_reg id b s1).
  Proof.
    intros [L B] H. constructor; [rewrite write_reg_len; auto|].
    intros id' H'. destruct (Nat.eq_dec id' id) as [->|Hne]; [right; auto|]. rewrite rb_write_reg by auto. auto.
  Qed.
  Lemma wr_fresh_write b s1 : Wr s1 -> length (nodes s) <= next_id s1 -> forall n, Wr (write_reg (next_id s1) b (add_node n s1)).
  Proof. intros W L n. apply wr_write_reg; [apply wr_add_node; auto|]. intros. lia. Qed.
End Writes.

Section NoOp.
  Variable s : state.
  Lemma wr_na0 i : Wr s i (fst (na0 s)). Proof. apply wr_refl. Qed.
  Lemma wr_na1 i : Wr s i (fst (na1 s)). Proof. apply wr_push_slot, wr_refl. Qed.
End NoOp.

Lemma hbytes_ext s s' h : reg_bytes s' (hreg h) = reg_bytes s (hreg h) -> hbytes s' h = hbytes s h.
Proof. unfold hbytes. intros ->. reflexivity. Qed.
Lemma hbits_ext s s' h : reg_bytes s' (hreg h) = reg_bytes s (hreg h) -> hbits s' h = hbits s h.
Proof. unfold hbits. intros H. rewrite (hbytes_ext _ _ _ H). reflexivity. Qed.

Lemma view_ext s s' o : (forall id, In id (obj_refs o) -> reg_bytes s' id = reg_bytes s id) -> view s' o = view s o.
Proof.
  intros H. unfold view. destruct o as [k hs aux]. cbn [okind ohs]. unfold obj_refs in H. cbn [ohs] in H.
  destruct hs as [|h1 [|h2 [|h3 t]]].
  - destruct k as [|[|[|[|[|[|[|[|k]]]]]]]]; reflexivity.
  - assert (E1 : reg_bytes s' (hreg h1) = reg_bytes s (hreg h1)) by (apply H; left; auto).
    rewrite (hbytes_ext _ _ _ E1), (hbits_ext _ _ _ E1). reflexivity.
  - assert (E1 : reg_bytes s' (hreg h1) = reg_bytes s (hreg h1)) by (apply H; left; auto).
    assert (E2 : reg_bytes s' (hreg h2) = reg_bytes s (hreg h2)) by (apply H; right; left; auto).
    rewrite (hbytes_ext _ _ _ E1), (hbits_ext _ _ _ E1), (hbits_ext _ _ _ E2). reflexivity.
  - destruct k as [|[|[|[|[|[|[|[|k]]]]]]]]; reflexivity.
Qed.

