(* C13 — text.  First what both text files stand on (C13_TextDec imports this file for it), up to
   canon_nonws: digit lists and their value (dv, digits_of_spec), digit characters (digitc, chars_of /
   vals_of), trim_id, the sign (sgn, split_sign) and the canonical literal [-] digits [. digits] both
   formatters produce (canon, body).  Then integer text: parser_primitive! (conditional trimming, two atoi
   attempts, checked accumulation) = the specification reader on EVERY string, and the round trip. *)
From Coq Require Import List ZArith Bool Lia.
From AV Require Import Model.C13_Num Model.C13_Text Proofs.C13_Pow.
Import ListNotations.
Local Open Scope Z_scope.

Definition digit (d : Z) : Prop := 0 <= d <= 9.
(* Horner value with a running accumulator *)
Definition dv (a : Z) (ds : list Z) : Z := fold_left (fun acc d => acc * 10 + d) ds a.

Lemma digits_val_dv : forall ds, digits_val ds = dv 0 ds.
Proof. reflexivity. Qed.
Lemma dv_cons : forall a d ds, dv a (d :: ds) = dv (a * 10 + d) ds.
Proof. reflexivity. Qed.
Lemma dv_app : forall a x y, dv a (x ++ y) = dv (dv a x) y.
Proof. intros. unfold dv. apply fold_left_app. Qed.
Lemma dv_ge : forall ds a, 0 <= a -> Forall digit ds -> a <= dv a ds.
Proof.
  induction ds as [|d ds IH]; intros a Ha Hd; [cbn; lia|].
  inversion Hd as [|? ? D1 D2]; subst. rewrite dv_cons. unfold digit in D1.
  specialize (IH (a * 10 + d) ltac:(lia) D2). lia.
Qed.
Lemma dv_linear : forall ds a, dv a ds = a * 10 ^ Z.of_nat (length ds) + dv 0 ds.
Proof.
  induction ds as [|d ds IH]; intros a.
  - cbn. lia.
  - rewrite !dv_cons. rewrite (IH (a * 10 + d)), (IH (0 * 10 + d)).
    cbn [length]. rewrite Nat2Z.inj_succ, Z.pow_succ_r by lia. ring.
Qed.

Lemma dv_zeros : forall k ds, dv 0 (repeat 0 k ++ ds) = dv 0 ds.
Proof. induction k as [|k IH]; intros ds; [reflexivity|]. cbn [repeat app]. rewrite dv_cons. exact (IH ds). Qed.

(* the fuel f is S (log2 n) in digits_of, so n < 2^f; a step divides n by 10, which at least halves it,
   so the bound holds again with one unit of fuel less *)
Lemma digits_fuel_spec : forall f n acc, (0 < f)%nat -> 0 <= n < 2 ^ Z.of_nat f ->
  exists ds, digits_fuel f n acc = ds ++ acc /\ ds <> [] /\ Forall digit ds /\ dv 0 ds = n
             /\ (0 < n -> 0 < hd 0 ds).
Proof.
  induction f as [|f IH]; intros n acc Hf Hn; [lia|].
  cbn [digits_fuel]. destruct (Z.ltb_spec n 10) as [Hs|Hb].
  - exists [n]. split; [reflexivity|]. split; [discriminate|]. split; [constructor; [unfold digit; lia|constructor]|].
    split; [cbn; lia|]. cbn. intros; assumption.
  - assert (Hf' : (0 < f)%nat).
    { destruct f; [|lia]. cbn in Hn. lia. }
    assert (Hn' : 0 <= n / 10 < 2 ^ Z.of_nat f).
    { split; [apply Z.div_pos; lia|]. rewrite Nat2Z.inj_succ, Z.pow_succ_r in Hn by lia.
      apply Z.div_lt_upper_bound; lia. }
    destruct (IH (n / 10) (n mod 10 :: acc) Hf' Hn') as (ds & E & Hne & Hd & Hv & Hh).
    exists (ds ++ [n mod 10]). split; [rewrite E, <- app_assoc; reflexivity|].
    split; [destruct ds; discriminate|].
    split; [apply Forall_app; split; [assumption|constructor; [unfold digit; pose proof (Z.mod_pos_bound n 10); lia|constructor]]|].
    split; [rewrite dv_app, Hv; cbn; pose proof (Z.div_mod n 10); lia|].
    intros _. destruct ds as [|d ds]; [congruence|]. cbn. cbn in Hh. apply Hh.
    apply Z.div_str_pos. lia.
Qed.

Lemma digits_of_spec : forall n, 0 <= n ->
  digits_of n <> [] /\ Forall digit (digits_of n) /\ dv 0 (digits_of n) = n /\ (0 < n -> 0 < hd 0 (digits_of n)).
Proof.
  intros n Hn. unfold digits_of.
  assert (B : 0 <= n < 2 ^ Z.of_nat (S (Z.to_nat (Z.log2 n)))).
  { split; [assumption|]. rewrite Nat2Z.inj_succ, Z2Nat.id by apply Z.log2_nonneg.
    destruct (Z.eq_dec n 0) as [->|Hz]; [cbn; lia|]. apply Z.log2_spec. lia. }
  destruct (digits_fuel_spec (S (Z.to_nat (Z.log2 n))) n [] ltac:(lia) B) as (ds & E & Hne & Hd & Hv & Hh).
  rewrite app_nil_r in E. rewrite E. repeat split; assumption.
Qed.

Lemma digits_len_bound : forall A p, 1 <= p -> 0 <= A < 10 ^ p -> (length (digits_of A) <= Z.to_nat p)%nat.
Proof.
  intros A p Hp HA. destruct (Z.eq_dec A 0) as [->|Hz].
  - change (digits_of 0) with [0]. cbn [length]. lia.
  - destruct (digits_of_spec A ltac:(lia)) as (Hne & Hd & Hv & Hh).
    destruct (digits_of A) as [|d r]; [congruence|].
    pose proof (Forall_inv Hd) as D1. pose proof (Forall_inv_tail Hd) as D2. specialize (Hh ltac:(lia)). cbn in Hh.
    rewrite dv_cons, dv_linear in Hv. pose proof (dv_ge r 0 ltac:(lia) D2) as G.
    assert (Hpow : 10 ^ Z.of_nat (length r) <= A).
    { assert (0 < 10 ^ Z.of_nat (length r)) by (apply Z.pow_pos_nonneg; lia). nia. }
    assert (Z.of_nat (length r) < p).
    { apply (Z.pow_lt_mono_r_iff 10); lia. }
    cbn [length]. lia.
Qed.

Definition digitc (c : Z) : Prop := 48 <= c <= 57.
Definition nonws (c : Z) : Prop := is_ws c = false.

Lemma is_digit_iff : forall c, is_digit c = true <-> digitc c.
Proof. intros c. unfold is_digit, digitc. rewrite andb_true_iff, !Z.leb_le. reflexivity. Qed.

Lemma digitc_props : forall c, digitc c -> nonws c /\ is_digit c = true /\ c <> POINT /\ c <> MINUS /\ c <> PLUS.
Proof.
  intros c H. split; [|split; [apply is_digit_iff; assumption|]]; unfold digitc in H.
  - unfold nonws, is_ws, is_ascii_ws. rewrite !(proj2 (Z.eqb_neq _ _)) by lia. reflexivity.
  - unfold POINT, MINUS, PLUS. lia.
Qed.
Lemma nonws_ascii : forall c, nonws c -> is_ascii_ws c = false.
Proof. intros c H. apply orb_false_iff in H. apply H. Qed.

Lemma is_digit_char : forall d, digit d -> is_digit (d + ZERO) = true /\ d + ZERO - ZERO = d.
Proof. intros d [L U]. split; [apply is_digit_iff; unfold digitc, ZERO|]; lia. Qed.
Lemma chars_digitc : forall ds, Forall digit ds -> Forall digitc (chars_of ds).
Proof.
  intros ds H. unfold chars_of. apply Forall_map. eapply Forall_impl; [|exact H].
  intros d [L U]. unfold digitc, ZERO. lia.
Qed.
Lemma vals_digit : forall cs, Forall digitc cs -> Forall digit (vals_of cs).
Proof.
  intros cs H. unfold vals_of. apply Forall_map. eapply Forall_impl; [|exact H].
  intros c [L U]. unfold digit, ZERO. lia.
Qed.
Lemma vals_chars : forall ds, vals_of (chars_of ds) = ds.
Proof.
  intros ds. unfold vals_of, chars_of. rewrite map_map. rewrite <- (map_id ds) at 2. apply map_ext. intros d. lia.
Qed.
Lemma chars_firstn : forall k ds, firstn k (chars_of ds) = chars_of (firstn k ds).
Proof. intros. unfold chars_of. apply firstn_map. Qed.
Lemma chars_skipn : forall k ds, skipn k (chars_of ds) = chars_of (skipn k ds).
Proof. intros. unfold chars_of. apply skipn_map. Qed.
Lemma chars_app : forall a b, chars_of (a ++ b) = chars_of a ++ chars_of b.
Proof. intros. unfold chars_of. apply map_app. Qed.
Lemma chars_repeat0 : forall k, repeat ZERO k = chars_of (repeat 0 k).
Proof. induction k; [reflexivity|]. cbn [repeat chars_of map]. f_equal. exact IHk. Qed.

Lemma forallb_digits : forall cs, forallb is_digit cs = true <-> Forall digitc cs.
Proof. intros cs. rewrite forallb_forall, Forall_forall. split; intros H c Hc; apply is_digit_iff, H, Hc. Qed.
Lemma digitc_nonws : forall cs, Forall digitc cs -> Forall nonws cs.
Proof. intros cs H. eapply Forall_impl; [|exact H]. intros c Hc. apply (digitc_props c Hc). Qed.

Lemma drop_while_all : forall p l, forallb p l = true -> drop_while p l = [].
Proof. induction l as [|b r IH]; intros H; [reflexivity|]. cbn in *. apply andb_true_iff in H. destruct H as [Hb Hr]. rewrite Hb. auto. Qed.

Lemma trim_id : forall p l, Forall (fun c => p c = false) l -> trim_start p (trim_end p l) = l.
Proof.
  intros p l H.
  assert (E : trim_end p l = l).
  { unfold trim_end. pose proof (Forall_rev H) as Hr. rewrite <- (rev_involutive l) at 2.
    destruct Hr as [|c r Hc _]; cbn [drop_while]; [|rewrite Hc]; reflexivity. }
  rewrite E. unfold trim_start. destruct H as [|c r Hc _]; cbn [drop_while]; [|rewrite Hc]; reflexivity.
Qed.

Definition sgn (neg : bool) (x : Z) : Z := if neg then - x else x.
Lemma sgn_ltb_abs : forall v, sgn (v <? 0) (Z.abs v) = v.
Proof. intros v. unfold sgn. destruct (Z.ltb_spec v 0); lia. Qed.

(* the sign test the integer reader and both decimal readers start with *)
Definition split_sign (t : list Z) : bool * list Z :=
  match t with
  | b :: r => if b =? MINUS then (true, r) else if b =? PLUS then (false, r) else (false, t)
  | [] => (false, [])
  end.

(* the canonical literal  [-] int-digits [ . fraction-digits ] *)
Definition body (ip fp : list Z) : list Z := chars_of ip ++ (match fp with [] => [] | _ => POINT :: chars_of fp end).
Definition canon (neg : bool) (ip fp : list Z) : list Z := (if neg then [MINUS] else []) ++ body ip fp.

Lemma canon_sign : forall neg ip fp, Forall digit ip -> ip <> [] -> split_sign (canon neg ip fp) = (neg, body ip fp).
Proof.
  intros neg ip fp Hip Hne. unfold canon, split_sign. destruct neg; cbn [app]; [rewrite Z.eqb_refl; reflexivity|].
  destruct ip as [|d ip']; [congruence|]. cbn [body chars_of map app].
  pose proof (Forall_inv (chars_digitc _ Hip)) as Hc. cbn [chars_of map] in Hc.
  destruct (digitc_props _ Hc) as (_ & _ & _ & Hm & Hp). rewrite !(proj2 (Z.eqb_neq _ _)) by assumption. reflexivity.
Qed.

Lemma canon_nonws : forall neg ip fp, Forall digit ip -> Forall digit fp -> Forall nonws (canon neg ip fp).
Proof.
  intros neg ip fp Hip Hfp. unfold canon, body. apply Forall_app. split; [|apply Forall_app; split].
  - destruct neg; constructor; [reflexivity|constructor].
  - apply digitc_nonws, chars_digitc, Hip.
  - destruct fp; constructor; [reflexivity|apply digitc_nonws, chars_digitc, Hfp].
Qed.

Lemma last_is_digit_app : forall l b, last_is_digit (l ++ [b]) = is_digit b.
Proof. intros. unfold last_is_digit. rewrite rev_app_distr. reflexivity. Qed.

Lemma digit_not_ws : forall b, is_digit b = true -> is_ascii_ws b = false.
Proof. intros b H. apply nonws_ascii, digitc_props, is_digit_iff, H. Qed.

Lemma trim_end_shape : forall l, trim_end is_ascii_ws l = [] \/ exists l' b, trim_end is_ascii_ws l = l' ++ [b] /\ is_ascii_ws b = false.
Proof.
  intros l. unfold trim_end.
  assert (H : forall m, drop_while is_ascii_ws m = [] \/ exists b r, drop_while is_ascii_ws m = b :: r /\ is_ascii_ws b = false).
  { induction m as [|b r IH]; [left; reflexivity|]. cbn. destruct (is_ascii_ws b) eqn:E; [exact IH|]. right. exists b, r. split; [reflexivity|assumption]. }
  destruct (H (rev l)) as [E|(b & r & E & Hb)].
  - left. rewrite E. reflexivity.
  - right. exists (rev r), b. rewrite E. cbn [rev]. split; [reflexivity|assumption].
Qed.

Lemma raw_is_trim_end : forall s,
  (if last_is_digit s then s else trim_end is_ascii_ws s) = trim_end is_ascii_ws s.
Proof.
  intros s. destruct (last_is_digit s) eqn:E; [|reflexivity].
  unfold last_is_digit in E. unfold trim_end. destruct (rev s) as [|b r] eqn:R; [discriminate|].
  cbn [drop_while]. rewrite (digit_not_ws b E), <- R. symmetry. apply rev_involutive.
Qed.

Lemma trim_start_last : forall l b, is_ascii_ws b = false -> exists l', trim_start is_ascii_ws (l ++ [b]) = l' ++ [b].
Proof.
  intros l b H. unfold trim_start. induction l as [|c r IH].
  - exists []. cbn. rewrite H. reflexivity.
  - cbn [app drop_while]. destruct (is_ascii_ws c); [exact IH|]. exists (c :: r). reflexivity.
Qed.

(* the specification reader without the trimming *)
Definition read_int (bits : Z) (sg : bool) (t : list Z) : option Z :=
  let '(neg, ds) := split_sign t in
  if forallb is_digit ds && negb (match ds with [] => true | _ => false end)
  then num_cast bits sg (if neg then - digits_val (vals_of ds) else digits_val (vals_of ds)) else None.

Lemma parse_int_spec_read : forall bits sg s,
  parse_int_spec bits sg s = read_int bits sg (trim_start is_ascii_ws (trim_end is_ascii_ws s)).
Proof. reflexivity. Qed.

Lemma fmt_int_canon : forall v, fmt_int v = canon (v <? 0) (digits_of (Z.abs v)) [].
Proof. intros v. unfold fmt_int, canon, body. rewrite app_nil_r. reflexivity. Qed.

(* the range contains 0, so a signed magnitude that fits leaves every smaller one fitting *)
Lemma fits_sgn_mono : forall bits sg neg x y, 1 <= bits -> 0 <= x <= y ->
  fits bits sg (sgn neg y) = true -> fits bits sg (sgn neg x) = true.
Proof.
  intros bits sg neg x y Hb Hxy H. apply fits_elim in H. apply fits_intro.
  pose proof (imin_le0 bits sg). pose proof (imax_ge0 bits sg Hb). unfold sgn in *. destruct neg; lia.
Qed.

Definition astep (bits : Z) (sg neg : bool) (acc : option Z) (c : Z) : option Z :=
  obind acc (fun n => num_cast bits sg (if neg then n * 10 - (c - ZERO) else n * 10 + (c - ZERO))).

Lemma atoi_digits_scan : forall bits sg neg cs acc used,
  if forallb is_digit cs
  then atoi_digits bits sg neg cs acc used = (fold_left (astep bits sg neg) cs acc, used + Z.of_nat (length cs))
  else snd (atoi_digits bits sg neg cs acc used) < used + Z.of_nat (length cs).
Proof.
  intros bits sg neg cs. induction cs as [|c r IH]; intros acc used; cbn [forallb atoi_digits].
  - rewrite Z.add_0_r. reflexivity.
  - destruct (is_digit c); cbn [andb]; [|cbn [snd length]; lia].
    specialize (IH (astep bits sg neg acc c) (used + 1)). fold (astep bits sg neg acc c).
    destruct (forallb is_digit r); cbn [fold_left length]; [rewrite IH; f_equal|]; lia.
Qed.

Lemma fold_none : forall bits sg neg cs, fold_left (astep bits sg neg) cs None = None.
Proof. induction cs as [|c r IH]; [reflexivity|]. cbn. exact IH. Qed.

(* the checked fold succeeds exactly when the final value is in range (the partial values are
   monotone), and then yields it *)
Lemma fold_checked : forall bits sg neg cs a, 1 <= bits -> Forall digitc cs -> 0 <= a ->
  fits bits sg (sgn neg a) = true ->
  fold_left (astep bits sg neg) cs (Some (sgn neg a)) = num_cast bits sg (sgn neg (dv a (vals_of cs))).
Proof.
  intros bits sg neg cs. induction cs as [|c r IH]; intros a Hb Hd Ha Hf.
  - cbn. unfold num_cast. rewrite Hf. reflexivity.
  - pose proof (Forall_inv Hd) as D1. pose proof (Forall_inv_tail Hd) as D2. unfold digitc in D1.
    cbn [fold_left vals_of map]. fold (vals_of r). rewrite dv_cons.
    change (astep bits sg neg (Some (sgn neg a)) c)
      with (num_cast bits sg (if neg then sgn neg a * 10 - (c - ZERO) else sgn neg a * 10 + (c - ZERO))).
    assert (Es : (if neg then sgn neg a * 10 - (c - ZERO) else sgn neg a * 10 + (c - ZERO)) = sgn neg (a * 10 + (c - ZERO))).
    { unfold sgn. destruct neg; ring. }
    rewrite Es. unfold num_cast at 1.
    destruct (fits bits sg (sgn neg (a * 10 + (c - ZERO)))) eqn:F.
    + apply IH; try assumption. unfold ZERO. lia.
    + rewrite fold_none. unfold num_cast.
      pose proof (dv_ge (vals_of r) (a * 10 + (c - ZERO)) ltac:(unfold ZERO; lia) (vals_digit r D2)) as G.
      assert (Hxy : 0 <= a * 10 + (c - ZERO) <= dv (a * 10 + (c - ZERO)) (vals_of r)) by (unfold ZERO in *; lia).
      destruct (fits bits sg (sgn neg (dv (a * 10 + (c - ZERO)) (vals_of r)))) eqn:F2; [|reflexivity].
      rewrite (fits_sgn_mono bits sg neg _ _ Hb Hxy F2) in F. discriminate.
Qed.

(* atoi reads the sign like split_sign and starts counting behind it *)
Lemma atoi_split : forall bits sg t,
  atoi bits sg t = atoi_digits bits sg (fst (split_sign t)) (snd (split_sign t)) (Some 0)
                     (Z.of_nat (length t) - Z.of_nat (length (snd (split_sign t)))).
Proof.
  intros bits sg [|b r]; [reflexivity|]. unfold atoi, split_sign.
  destruct (b =? MINUS); [|destruct (b =? PLUS)]; cbn [fst snd]; f_equal; cbn [length]; lia.
Qed.

Lemma split_sign_digits : forall t, last_is_digit t = true -> snd (split_sign t) <> [].
Proof.
  intros [|b [|c r]] H; [discriminate| |].
  - unfold split_sign. cbn in H. destruct (Z.eqb_spec b MINUS) as [->|]; [discriminate|].
    destruct (Z.eqb_spec b PLUS) as [->|]; discriminate.
  - unfold split_sign. destruct (b =? MINUS); [|destruct (b =? PLUS)]; discriminate.
Qed.

Lemma atoi_full_read : forall bits sg t, 1 <= bits -> last_is_digit t = true -> atoi_full bits sg t = read_int bits sg t.
Proof.
  intros bits sg t Hb Hl. unfold atoi_full, read_int. rewrite atoi_split.
  pose proof (split_sign_digits t Hl) as Hne. destruct (split_sign t) as [neg ds]. cbn [fst snd] in *.
  pose proof (atoi_digits_scan bits sg neg ds (Some 0) (Z.of_nat (length t) - Z.of_nat (length ds))) as S.
  destruct (forallb is_digit ds) eqn:Fd.
  - rewrite S. replace (negb _) with true by (destruct ds; [congruence|reflexivity]). cbn [andb].
    replace (Some 0) with (Some (sgn neg 0)) by (destruct neg; reflexivity).
    rewrite fold_checked; [|assumption|apply forallb_digits; assumption|lia|destruct neg; apply fits_zero; assumption].
    change (digits_val (vals_of ds)) with (dv 0 (vals_of ds)). fold (sgn neg (dv 0 (vals_of ds))).
    destruct (num_cast bits sg _); [|reflexivity].
    destruct (Z.eqb_spec (Z.of_nat (length t) - Z.of_nat (length ds) + Z.of_nat (length ds)) (Z.of_nat (length t))); [reflexivity|lia].
  - cbn [andb]. destruct (atoi_digits _ _ _ _ _ _) as [[n|] u]; [|reflexivity]. cbn [snd] in S.
    destruct (Z.eqb_spec u (Z.of_nat (length t))); [lia|reflexivity].
Qed.

(* a string that does not end in a digit is no literal *)
Lemma read_int_last : forall bits sg l b, is_digit b = false -> read_int bits sg (l ++ [b]) = None.
Proof.
  intros bits sg l b Db. unfold read_int, split_sign.
  assert (Nd : forall ds, forallb is_digit (ds ++ [b]) = false).
  { intros ds. rewrite forallb_app. cbn. rewrite Db. apply andb_false_r. }
  destruct l as [|c r]; cbn [app].
  - destruct (b =? MINUS); [reflexivity|]. destruct (b =? PLUS); [reflexivity|]. cbn [forallb]. rewrite Db. reflexivity.
  - destruct (c =? MINUS); [rewrite (Nd r); reflexivity|]. destruct (c =? PLUS); [rewrite (Nd r); reflexivity|].
    change (c :: r ++ [b]) with ((c :: r) ++ [b]). rewrite (Nd (c :: r)). reflexivity.
Qed.

Lemma atoi_full_leading_ws : forall bits sg b r, is_ascii_ws b = true -> atoi_full bits sg (b :: r) = None.
Proof.
  intros bits sg b r H. unfold atoi_full, atoi.
  assert (Nd : is_digit b = false).
  { destruct (is_digit b) eqn:D; [|reflexivity]. rewrite (digit_not_ws b D) in H. discriminate. }
  rewrite !(proj2 (Z.eqb_neq _ _)) by (intros ->; discriminate H). cbn [atoi_digits]. rewrite Nd. cbn [length].
  destruct (Z.eqb_spec 0 (Z.of_nat (S (length r)))); [lia|reflexivity].
Qed.

Theorem parse_int_eq_spec : forall bits sg s, 1 <= bits -> parse_int bits sg s = parse_int_spec bits sg s.
Proof.
  intros bits sg s Hb. rewrite parse_int_spec_read. unfold parse_int. cbv zeta. rewrite raw_is_trim_end.
  set (e := trim_end is_ascii_ws s).
  destruct (trim_end_shape s) as [E|(l' & b & E & Hb')]; fold e in E; rewrite E; [reflexivity|].
  destruct (trim_start_last l' b Hb') as (t' & Et).
  assert (Lt : last_is_digit (trim_start is_ascii_ws (l' ++ [b])) = is_digit b) by (rewrite Et; apply last_is_digit_app).
  rewrite last_is_digit_app. destruct (is_digit b) eqn:Db; cbn [negb]; [|rewrite Et; symmetry; apply read_int_last, Db].
  (* ends with a digit: both attempts reduce to atoi_full of the fully trimmed string *)
  rewrite <- (atoi_full_read bits sg _ Hb Lt).
  destruct (l' ++ [b]) as [|c r] eqn:El; [reflexivity|].
  destruct (is_ascii_ws c) eqn:Wc.
  - rewrite (atoi_full_leading_ws bits sg c r Wc). reflexivity.
  - unfold trim_start. cbn [drop_while]. rewrite Wc. destruct (atoi_full bits sg (c :: r)); reflexivity.
Qed.

Theorem int_text_roundtrip : forall bits sg v, 1 <= bits -> fits bits sg v = true ->
  parse_int bits sg (fmt_int v) = Some v.
Proof.
  intros bits sg v Hb Hv. rewrite parse_int_eq_spec, parse_int_spec_read by assumption.
  destruct (digits_of_spec (Z.abs v) (Z.abs_nonneg v)) as (Hne & Hd & Hval & _).
  rewrite fmt_int_canon. set (ds := digits_of (Z.abs v)) in *.
  rewrite trim_id by (eapply Forall_impl; [exact nonws_ascii|apply canon_nonws; [assumption|constructor]]).
  unfold read_int. rewrite canon_sign by assumption.
  unfold body. rewrite app_nil_r, (proj2 (forallb_digits _) (chars_digitc ds Hd)), vals_chars, digits_val_dv, Hval.
  change (if v <? 0 then - Z.abs v else Z.abs v) with (sgn (v <? 0) (Z.abs v)). rewrite sgn_ltb_abs.
  destruct ds; [congruence|]. unfold num_cast. rewrite Hv. reflexivity.
Qed.
