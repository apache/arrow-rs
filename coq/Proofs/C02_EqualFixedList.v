(* C02 — arrow-data's fixed_list_equal (FixedSizeList, any array offset), compositional: IF the child
   comparison on every range decides equality of the windows of the child's logical column, THEN
   fixed_list_equal (one child range of size*len when the range holds no null, else slot by slot) holds
   exactly when every valid slot denotes the same list. *)
From Coq Require Import List Arith NArith ZArith Lia.
From AV Require Import Model.C09_Layout Model.C02_Logical Model.C02_Equal.
From AV Require Import Proofs.C02_EqualNulls Proofs.C02_EqualList Proofs.C02_EqualStruct.
Import ListNotations.

Section FixedListEq.
  Variables (sz : Z) (nullable : bool) (c : dty).
  Variables (alen aoff : nat) (anulls : option nullbuf) (abufs : list (list N)) (ka : parr) (akids : list parr).
  Variables (b kb : parr) (bkids : list parr).
  Let a := PArr (TFixedList sz nullable c) alen aoff anulls abufs (ka :: akids).
  Let s := Z.to_nat sz.
  Hypothesis Hkb : p_kids b = kb :: bkids.
  Hypothesis child_ok : range_ok ka kb.

  Definition fslice (x kx : parr) (j : nat) : list lval := window (logical kx) ((p_off x + j) * s) s.

  Theorem fixed_list_equal_iff ls rs n :
    (aoff + ls + n) * s <= p_len ka -> (p_off b + rs + n) * s <= p_len kb ->
    (forall i, i < n -> slot_valid a (ls + i) = slot_valid b (rs + i)) ->
    (equal_values a b ls rs n = true
     <-> forall i, i < n -> slot_valid a (ls + i) = true -> fslice a ka (ls + i) = fslice b kb (rs + i)).
  Proof.
    intros Hla Hlb Hv. unfold a at 1. cbn [equal_values]. rewrite Hkb. fold s.
    apply (null_paths_iff Hv).
    - intros _. cbn beta. rewrite (Nat.add_comm ls aoff), (Nat.add_comm rs (p_off b)), (Nat.mul_comm s n).
      rewrite (child_ok ((aoff + ls) * s) ((p_off b + rs) * s) (n * s)) by (rewrite <- Nat.mul_add_distr_r; assumption). unfold window.
      rewrite blocks_eq by (rewrite logical_length; assumption).
      split; intros H i Hi; specialize (H i Hi); unfold fslice, window in *; change (p_off a) with aoff in *;
        [now rewrite !Nat.add_assoc | now rewrite !Nat.add_assoc in H].
    - intros ln rn Ea Eb. apply (slot_loop_iff Hv Ea Eb). intros i Hi _. cbn beta.
      rewrite (Nat.add_comm (ls + i) aoff), (Nat.add_comm (rs + i) (p_off b)).
      rewrite (child_ok ((aoff + (ls + i)) * s) ((p_off b + (rs + i)) * s) s)
        by (rewrite <- Nat.mul_succ_l; eapply mul_le_trans; [|eassumption]; lia).
      reflexivity.
  Qed.
End FixedListEq.
