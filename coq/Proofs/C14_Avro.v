(* C14 — Avro: the streaming varint decoder is independent of how its input is split and computes the ULEB128
   value of the specification (vlq_stream_equals_oneshot: against uleb10), which read_varint's three paths compute
   too, so that it agrees with the one-shot reader (vlq_stream_equals_get_long: against AvroCursor::get_long); the
   BlockDecoder's chunk-level loop is the byte-at-a-time block automaton, which is split independent; the block
   phase of the OCF reader over chunks is the flat loop on the concatenated bytes.  The model's HeaderDecoder
   (header_decode), read_header and ocf_read have no theorem here: the correspondence run alone covers them. *)
From Coq Require Import List ZArith Bool Lia.
From AV Require Import Base.ListX Base.Bits Base.Bytes Base.Leb128 Model.C14_Avro.
Import ListNotations.
Local Open Scope N_scope.

(* a pending decoder has read everything, a value costs at least one byte *)
Lemma vlq_long_rest : forall buf st st' rest r, vlq_long st buf = (st', rest, r) ->
  match r with VNone => rest = [] | VSome _ => (length rest < length buf)%nat | VErr => True end.
Proof.
  induction buf as [|b t IH]; intros st st' rest r H; cbn [vlq_long] in H.
  - now inversion H.
  - destruct ((v_shift st =? 63) && (2 <=? b)); [now inversion H|].
    destruct (N.land b 128 =? 0); [inversion H; subst; cbn [length]; lia|].
    apply IH in H. destruct r; cbn [length]; auto.
Qed.

Theorem vlq_long_app : forall a st b,
  vlq_long st (a ++ b) =
  match vlq_long st a with
  | (st', _, VNone) => vlq_long st' b
  | (st', rest, r) => (st', rest ++ b, r)
  end.
Proof.
  induction a as [|x a IH]; intros st b; cbn [app vlq_long]; [reflexivity|].
  destruct ((v_shift st =? 63) && (2 <=? x)); [reflexivity|].
  destruct (N.land x 128 =? 0); [reflexivity|]. apply IH.
Qed.

Lemma zigzag_spec val : zigzag val = zz_dec (Z.of_N val).
Proof. unfold zigzag, zz_dec. now rewrite zz_lxor, zz_arith. Qed.

Definition vres_of (r : vlq * list N * vres) : option (Z * list N) :=
  match r with (_, rest, VSome z) => Some (z, rest) | _ => None end.

(* the specification is the reader of Base/Leb128 under the limit; ten groups of fuel are never used up *)
Lemma uleb_run : forall bs k a, leb_inv true k a ->
  uleb (10 - k) bs (leb_shift k) a = value_rest (leb_run true bs k a).
Proof.
  apply (leb_run_reads_any true (fun o x => x = value_rest o) (fun k a bs => uleb (10 - k) bs (leb_shift k) a)).
  - (* the input ends *)
    intros k a _. destruct (10 - k)%nat; reflexivity.
  - (* one byte *)
    intros k a b r [_ Hk]. specialize (Hk eq_refl). replace (10 - k)%nat with (S (10 - S k)) by lia.
    cbn [uleb]. unfold over_limit. cbn [andb]. rewrite leb_shift_63, leb_shift_S.
    destruct (_ && _); [reflexivity|]. cbv zeta. destruct (b <? 128); reflexivity.
Qed.

Lemma uleb10_run buf : uleb10 buf = value_rest (leb_run true buf 0 0).
Proof. exact (uleb_run buf 0 0 (leb_inv_0 true)). Qed.

(* what VLQDecoder::long returns for an outcome: the decoder it leaves, the rest it hands back, the result *)
Definition long_result (o : leb_outcome) : vlq * list N * vres :=
  match o with
  | More k a => (MkVlq a (leb_shift k), [], VNone)
  | Bad r => (vlq0, r, VErr)
  | Val v _ r => (vlq0, r, VSome (zigzag v))
  end.

(* it tests bit 7 of the whole byte, so the bytes it looks at have to be bytes *)
Theorem vlq_long_run : forall bs k a, leb_inv true k a -> head_wf bs ->
  vlq_long (MkVlq a (leb_shift k)) bs = long_result (leb_run true bs k a).
Proof.
  apply (leb_run_reads true (fun _ => head_wf) (fun o x => x = long_result o)
           (fun k a bs => vlq_long (MkVlq a (leb_shift k)) bs) (fun _ => head_wf_next)).
  - (* the input ends *)
    reflexivity.
  - (* one byte *)
    intros k a b r [Ha _] Hb. apply head_wf_hd in Hb. cbn [vlq_long v_shift v_acc]. unfold over_limit. cbn [andb].
    rewrite leb_shift_63, leb_shift_S, land_127, (lor_shift_add a _ _ Ha), (land_128_zero b Hb).
    destruct (_ && _); [reflexivity|]. destruct (b <? 128); reflexivity.
Qed.

Lemma vlq_long0_run buf : wf_bytes buf -> vlq_long vlq0 buf = long_result (leb_run true buf 0 0).
Proof. intros Hwf. exact (vlq_long_run buf 0 0 (leb_inv_0 true) (head_wf_all buf Hwf)). Qed.

Theorem vlq_stream_equals_oneshot : forall buf, wf_bytes buf ->
  vres_of (vlq_long vlq0 buf) =
  match uleb10 buf with Some (v, rest) => Some (zigzag v, rest) | None => None end.
Proof.
  intros buf Hwf. rewrite uleb10_run, (vlq_long0_run buf Hwf). destruct (leb_run true buf 0 0); reflexivity.
Qed.

(* vlq::read_varint is transcribed three times, here with its count in nat (in C08_Avro in N, in C17_Avro handing
   back the rest); nothing of the three is convertible, so Proofs/C08_Avro.v (slow_run, array_run, read_varint_run)
   and Proofs/C17_Varint.v repeat rv_slow_run, rv_array_run and read_varint_run below for their transcriptions. *)

(* `<<` on u64 drops nothing as long as the group fits below bit 64 *)
Lemma group_fits x j s : x < 2 ^ j -> s + j <= 64 -> (N.shiftl x s) mod U64 = N.shiftl x s.
Proof. intros Hx Hs. rewrite N.shiftl_mul_pow2. apply N.mod_small. exact (shift_fits x j s 64 Hx Hs). Qed.

(* The slow path from group k on, with the 10 - k bytes it may still inspect.  Its test for the tenth byte sits in
   the last-byte branch; a continuation byte in tenth place runs out of bytes to inspect instead. *)
Lemma rv_slow_run : forall bs k a, leb_inv true k a ->
  rv_slow_loop k (10 - k) bs a = value_count (leb_run true bs k a).
Proof.
  apply (leb_run_reads_any true (fun o x => x = value_count o) (fun k a bs => rv_slow_loop k (10 - k) bs a)).
  - (* the input ends *)
    intros k a _. destruct (10 - k)%nat; reflexivity.
  - (* one byte *)
    intros k a b r [Ha Hk]. specialize (Hk eq_refl). replace (10 - k)%nat with (S (10 - S k)) by lia.
    cbn [rv_slow_loop]. cbv zeta. rewrite (N.mul_comm (N.of_nat k)), leb_127, land_127. fold (leb_shift k).
    unfold over_limit. cbn [andb]. rewrite N.leb_antisym. destruct (Nat.eqb_spec k 9) as [->|H9]; cbn [negb orb andb].
    + (* the tenth group holds one bit *)
      destruct (N.ltb_spec b 2) as [H2|H2]; cbn [negb]; [|destruct (b <? 128); reflexivity].
      rewrite (proj2 (N.ltb_lt b 128)), (group_fits _ 1), lor_shift_add
        by (rewrite ?N.mod_small by lia; (exact Ha || reflexivity || lia)).
      reflexivity.
    + rewrite (group_fits _ 7), lor_shift_add by (try apply septet_lt; try exact Ha; unfold leb_shift; lia).
      destruct (b <? 128); reflexivity.
Qed.

(* read_varint_array from group k on: 9 - k bytes in the loop, then the tenth *)
Definition array_read (k : nat) (a : N) (buf : list N) : option (N * nat) :=
  match rv_array_loop k (9 - k) buf a with
  | inl r => r
  | inr acc => let b := nth (9 - k) buf 0 in if b <? 2 then Some (acc + (N.shiftl b 63) mod U64, 10%nat) else None
  end.

Lemma rv_array_run : forall bs k a, leb_inv true k a -> ten_present k bs ->
  array_read k a bs = value_count (leb_run true bs k a).
Proof.
  apply (leb_run_reads true ten_present (fun o x => x = value_count o) array_read ten_present_next).
  - (* the input ends: not with ten bytes in hand *)
    intros k a [_ Hk] [_ Hl]. specialize (Hk eq_refl). cbn [length] in Hl. lia.
  - (* one byte *)
    intros k a b r [Ha Hk] [Hb _]. apply head_wf_hd in Hb. specialize (Hk eq_refl). unfold array_read, over_limit.
    cbn [andb]. destruct (Nat.eqb_spec k 9) as [->|H9]; cbn [andb].
    + (* the tenth byte, after the loop: only 0 and 1 are accepted *)
      cbn [Nat.sub rv_array_loop nth]. cbv zeta. rewrite N.leb_antisym.
      destruct (N.ltb_spec b 2) as [H2|H2]; cbn [negb]; [|reflexivity].
      rewrite (proj2 (N.ltb_lt b 128)), (group_fits _ 1), N.shiftl_mul_pow2, N.mod_small
        by (assumption || reflexivity || lia).
      reflexivity.
    + replace (9 - k)%nat with (S (9 - S k)) by lia. cbn [rv_array_loop nth]. cbv zeta.
      rewrite (N.shiftl_mul_pow2 b), (N.shiftl_mul_pow2 128). fold (leb_shift k).
      destruct (N.ltb_spec b 128) as [Hlt|Hge]; [now rewrite N.mod_small|]. now rewrite cont_sub.
Qed.

Theorem read_varint_run buf : wf_bytes buf -> read_varint buf = value_count (leb_run true buf 0 0).
Proof.
  intros Hwf. destruct buf as [|b r]; [reflexivity|]. unfold read_varint. destruct (N.ltb_spec b 128) as [Hlt|Hge].
  - (* one byte *)
    cbn [leb_run over_limit Nat.eqb andb]. cbv zeta. now rewrite (proj2 (N.ltb_lt b 128) Hlt), N.mod_small, N.mul_1_r.
  - destruct (Nat.leb_spec 10 (length (b :: r))) as [H10|H10].
    + (* ten bytes in hand: the array path on the first ten; read_varint_array is array_read 0 0 by definition *)
      rewrite <- (leb_run_firstn (b :: r) 0 0 (Nat.le_0_l 9) H10).
      apply (rv_array_run _ 0 0 (leb_inv_0 true)). split.
      * apply head_wf_all, Forall_firstn, Hwf.
      * rewrite firstn_length. apply Nat.min_case; [apply Nat.le_refl|exact H10].
    + exact (rv_slow_run (b :: r) 0 0 (leb_inv_0 true)).
Qed.

Theorem read_varint_is_uleb : forall buf, wf_bytes buf ->
  read_varint buf =
  match uleb10 buf with Some (v, rest) => Some (v, (length buf - length rest)%nat) | None => None end.
Proof.
  intros buf Hwf. rewrite (read_varint_run buf Hwf), uleb10_run.
  destruct (leb_run true buf 0 0) as [| |v k r] eqn:E; try reflexivity. now destruct (leb_run_count _ _ _ _ _ _ _ E) as [-> _].
Qed.

Theorem vlq_stream_equals_get_long : forall buf, wf_bytes buf ->
  vres_of (vlq_long vlq0 buf) = get_long buf.
Proof.
  intros buf Hwf. unfold get_long. rewrite (read_varint_run buf Hwf), (vlq_long0_run buf Hwf).
  destruct (leb_run true buf 0 0) as [| |v k r] eqn:E; try reflexivity. apply leb_run_val in E as [E ->].
  cbn [long_result vres_of value_count Nat.add]. rewrite E at 2. now rewrite skipn_app, skipn_all, Nat.sub_diag.
Qed.

(* same Ok/Err, and on Ok the same state and rest (after an Err the two differ in the state they leave) *)
Definition bres_eq (r1 r2 : bdec * list N * bool) : Prop :=
  snd r1 = snd r2 /\ (snd r1 = true -> r1 = r2).
Lemma bres_eq_refl r : bres_eq r r.
Proof. split; auto. Qed.
Lemma bres_eq_trans a b c : bres_eq a b -> bres_eq b c -> bres_eq a c.
Proof.
  intros [H1 H2] [H3 H4]. split; [congruence|]. intros H. rewrite H2 by exact H. apply H4. congruence.
Qed.
Lemma bres_eq_sym a b : bres_eq a b -> bres_eq b a.
Proof. intros [H1 H2]. split; [congruence|]. intros H. symmetry. apply H2. congruence. Qed.

(* Sync with nothing left to copy is the one state in which decoder and automaton part: the decoder copies
   min(0, |buf|) = 0 bytes and finishes, the automaton consumes a byte first.  Data with 0 left is absorbed by beps. *)
Definition bwf (d : bdec) : Prop :=
  match bd_state d with BSync => 0 < bd_rem d | _ => True end.

(* a state that reads a varint (Count, Size): [stay v] with the varint decoder in state v, [next v c]
   once the value c has been read *)
Section Long.
Variables (stay : vlq -> bdec) (next : vlq -> Z -> bdec).
Hypothesis step_long : forall v b r,
  brun1 (stay v) (b :: r) =
  match vlq_long v [b] with
  | (v', [], VSome c) => if (c <? 0)%Z then (stay v, b :: r, false) else brun1 (next v' c) r
  | (v', [], VNone) => brun1 (stay v') r
  | _ => (stay v, b :: r, false)
  end.

Hypothesis wf_next : forall v c, bwf (next v c).

(* The arm of the decoder's loop for such a state; [call] stands for its recursive call.  [apply (long_arm stay next)]
   asks, in this order, for step_long, wf_next, then for the two facts about call below. *)
Lemma long_arm (call : bdec -> list N -> bdec * list N * bool) : forall buf v,
  (forall d, call d [] = (d, [], true)) ->
  (forall d q, bwf d -> (length q < length buf)%nat -> bres_eq (call d q) (brun1 d q)) ->
  bres_eq
    (match vlq_long v buf with
     | (v', rest, VSome c) => if (c <? 0)%Z then (stay v', rest, false) else call (next v' c) rest
     | (v', rest, VNone) => call (stay v') rest
     | (v', rest, VErr) => (stay v', rest, false)
     end)
    (brun1 (stay v) buf).
Proof.
  induction buf as [|b r IH]; intros v Hnil Hcall; [cbn [vlq_long]; rewrite Hnil; apply bres_eq_refl|].
  (* the decoder's whole-buffer read, cut after its first byte, is what the automaton does with that byte *)
  rewrite step_long. change (b :: r) with ([b] ++ r). rewrite vlq_long_app.
  pose proof (vlq_long_rest [b] v) as Hr.
  destruct (vlq_long v [b]) as [[v' r1] [|c|]]; specialize (Hr _ _ _ eq_refl); cbv iota in Hr.
  - subst r1. apply IH; [exact Hnil|]. intros d q W Hq. apply Hcall; [exact W|apply Nat.lt_lt_succ_r, Hq].
  - destruct r1; [|cbn [length] in Hr; lia]. cbn [app].
    destruct (_ <? 0)%Z; [split; [reflexivity|discriminate]|]. apply Hcall; [apply wf_next|apply Nat.lt_succ_diag_r].
  - destruct r1; (split; [reflexivity|discriminate]).
Qed.
End Long.

Lemma step_count count data sync rem v b r :
  brun1 (MkBdec BCount count data sync v rem) (b :: r) =
  match vlq_long v [b] with
  | (v', [], VSome c) => if (c <? 0)%Z then (MkBdec BCount count data sync v rem, b :: r, false)
                         else brun1 (MkBdec BSize (Z.to_N c) data sync v' rem) r
  | (v', [], VNone) => brun1 (MkBdec BCount count data sync v' rem) r
  | _ => (MkBdec BCount count data sync v rem, b :: r, false)
  end.
Proof.
  cbn [brun1]. unfold beps, bconsume. cbn [bd_state bd_vlq bd_count bd_data bd_sync bd_rem].
  (* nothing left and no value yet | nothing left and a value, whose sign decides | every other outcome is an error *)
  destruct (vlq_long v [b]) as [[v' [|]] [|z|]]; [reflexivity|destruct (z <? 0)%Z; reflexivity|reflexivity ..].
Qed.
Lemma step_size count data sync rem v b r :
  brun1 (MkBdec BSize count data sync v rem) (b :: r) =
  match vlq_long v [b] with
  | (v', [], VSome c) => if (c <? 0)%Z then (MkBdec BSize count data sync v rem, b :: r, false)
                         else brun1 (MkBdec BData count data sync v' (Z.to_N c)) r
  | (v', [], VNone) => brun1 (MkBdec BSize count data sync v' rem) r
  | _ => (MkBdec BSize count data sync v rem, b :: r, false)
  end.
Proof.
  cbn [brun1]. unfold beps, bconsume. cbn [bd_state bd_vlq bd_count bd_data bd_sync bd_rem].
  (* nothing left and no value yet | nothing left and a value, whose sign decides | every other outcome is an error *)
  destruct (vlq_long v [b]) as [[v' [|]] [|z|]]; [reflexivity|destruct (z <? 0)%Z; reflexivity|reflexivity ..].
Qed.

Lemma take_n_bounds rem buf : 0 < rem -> buf <> [] ->
  (0 < take_n rem buf <= length buf)%nat /\ N.of_nat (take_n rem buf) <= rem.
Proof.
  intros Hr Hb. unfold take_n. destruct buf; [congruence|]. cbn [length].
  destruct (N.ltb_spec rem (N.of_nat (S (length buf)))); lia.
Qed.

(* a state that copies rem more bytes (Data, Sync): [mk acc rem] having copied acc, [fin acc] when done *)
Section Copy.
Variables (mk : list N -> N -> bdec) (fin : list N -> bdec).
Hypothesis step_copy : forall acc rem b r, 0 < rem ->
  brun1 (mk acc rem) (b :: r) = brun1 (if rem - 1 =? 0 then fin (acc ++ [b]) else mk (acc ++ [b]) (rem - 1)) r.

Lemma brun1_copy : forall p acc rem q, p <> [] -> N.of_nat (length p) <= rem ->
  brun1 (mk acc rem) (p ++ q) =
  brun1 (if rem - N.of_nat (length p) =? 0 then fin (acc ++ p) else mk (acc ++ p) (rem - N.of_nat (length p))) q.
Proof.
  induction p as [|b p IH]; intros acc rem q Hne Hl; [congruence|].
  cbn [app]. rewrite step_copy by (cbn [length] in Hl; lia).
  destruct p as [|b2 p]; [reflexivity|].
  destruct (N.eqb_spec (rem - 1) 0); [cbn [length] in Hl; lia|].
  rewrite IH by (discriminate || cbn [length] in *; lia). rewrite <- app_assoc.
  replace (rem - 1 - N.of_nat (length (b2 :: p))) with (rem - N.of_nat (length (b :: b2 :: p))) by (cbn [length]; lia).
  reflexivity.
Qed.

Hypothesis wf_fin : forall acc, bwf (fin acc).
Hypothesis wf_mk : forall acc rem, 0 < rem -> bwf (mk acc rem).

(* The arm of the decoder's loop for such a state: it copies k = min(rem, |buf|) bytes at once.  [apply (copy_arm mk fin)]
   asks, in this order, for step_copy, wf_fin, wf_mk, then for the premises below. *)
Lemma copy_arm (call : bdec -> list N -> bdec * list N * bool) acc rem buf : 0 < rem -> buf <> [] ->
  (forall d q, bwf d -> (length q < length buf)%nat -> bres_eq (call d q) (brun1 d q)) ->
  let k := take_n rem buf in
  bres_eq (if rem - N.of_nat k =? 0 then call (fin (acc ++ firstn k buf)) (skipn k buf)
           else call (mk (acc ++ firstn k buf) (rem - N.of_nat k)) (skipn k buf))
          (brun1 (mk acc rem) buf).
Proof.
  intros Hr Hb Hcall k. subst k. destruct (take_n_bounds rem buf Hr Hb) as [Hk Hle].
  destruct (cut_at (take_n rem buf) buf Hk) as (p & q & -> & Lp & Lq & Ef & Es).
  rewrite Ef, Es. rewrite <- Lp in Hk, Hle |- *.
  rewrite brun1_copy; [|intros ->; cbn [length] in Hk; lia|exact Hle].
  destruct (N.eqb_spec (rem - N.of_nat (length p)) 0) as [E|E]; (apply Hcall; [|exact Lq]); [apply wf_fin|apply wf_mk; lia].
Qed.
End Copy.

Lemma step_data count sync v acc rem b r : 0 < rem ->
  brun1 (MkBdec BData count acc sync v rem) (b :: r) =
  brun1 (if rem - 1 =? 0 then MkBdec BSync count (acc ++ [b]) sync v 16 else MkBdec BData count (acc ++ [b]) sync v (rem - 1)) r.
Proof.
  intros Hr. cbn [brun1]. unfold beps. cbn [bd_state bd_rem].
  destruct (N.eqb_spec rem 0); [lia|]. unfold bconsume. cbn [bd_state bd_vlq bd_count bd_data bd_sync bd_rem].
  destruct (rem - 1 =? 0); reflexivity.
Qed.
Lemma step_sync count data v acc rem b r :
  brun1 (MkBdec BSync count data acc v rem) (b :: r) =
  brun1 (if rem - 1 =? 0 then MkBdec BFinished count data (acc ++ [b]) v 0 else MkBdec BSync count data (acc ++ [b]) v (rem - 1)) r.
Proof.
  cbn [brun1]. unfold beps, bconsume. cbn [bd_state bd_vlq bd_count bd_data bd_sync bd_rem].
  destruct (rem - 1 =? 0); reflexivity.
Qed.

Lemma block_decode_nil fuel d : block_decode fuel d [] = (d, [], true).
Proof. destruct fuel; reflexivity. Qed.

(* An empty payload costs one loop iteration that copies no byte; every other iteration consumes one at least, and each
   byte consumed can be followed by one such iteration: hence the measure 2 * |buf| + bslack, below block_fuel's + 3. *)
Definition bslack (d : bdec) : nat :=
  match bd_state d with BData => if bd_rem d =? 0 then 2%nat else 1%nat | _ => 1%nat end.
Lemma bslack_bounds d : (1 <= bslack d <= 2)%nat.
Proof. unfold bslack. destruct (bd_state d); try lia. destruct (bd_rem d =? 0); lia. Qed.

Theorem block_decode_is_brun1 : forall fuel d buf, bwf d -> (2 * length buf + bslack d <= fuel)%nat ->
  bres_eq (block_decode fuel d buf) (brun1 d buf).
Proof.
  induction fuel as [|fuel IH]; intros d buf Hwf Hf; [pose proof (bslack_bounds d); lia|].
  destruct buf as [|b0 buf0]; [apply bres_eq_refl|].
  cbn [block_decode]. remember (b0 :: buf0) as buf eqn:Eb.
  assert (Hne : buf <> []) by (rewrite Eb; discriminate).
  assert (Loop : forall d1 q, bwf d1 -> (length q < length buf)%nat -> bres_eq (block_decode fuel d1 q) (brun1 d1 q)).
  { intros d1 q W Hq. apply IH; [exact W|]. pose proof (bslack_bounds d1). pose proof (bslack_bounds d). lia. }
  destruct d as [st count data sync v rem]. unfold bwf in Hwf. cbn [bd_state bd_rem bd_count bd_data bd_sync bd_vlq] in *.
  destruct st.
  - (* Count *)
    apply (long_arm (fun v' => MkBdec BCount count data sync v' rem) (fun v' c => MkBdec BSize (Z.to_N c) data sync v' rem)).
    + (* step_long *) apply step_count.
    + (* wf_next *) intros; exact I.
    + (* the call on [] *) apply block_decode_nil.
    + (* the call on less *) exact Loop.
  - (* Size *)
    apply (long_arm (fun v' => MkBdec BSize count data sync v' rem) (fun v' c => MkBdec BData count data sync v' (Z.to_N c))).
    + (* step_long *) apply step_size.
    + (* wf_next *) intros; exact I.
    + (* the call on [] *) apply block_decode_nil.
    + (* the call on less *) exact Loop.
  - (* Data *)
    destruct (N.eq_dec rem 0) as [->|NZ].
    + (* an empty payload: on to the sync marker without copying *)
      replace (take_n 0 buf) with 0%nat by (rewrite Eb; reflexivity). cbn [firstn skipn N.of_nat N.sub N.eqb]. rewrite app_nil_r.
      replace (brun1 (MkBdec BData count data sync v 0) buf) with (brun1 (MkBdec BSync count data sync v 16) buf)
        by (rewrite Eb; reflexivity).
      apply IH; [unfold bwf; cbn; lia|]. unfold bslack in *; cbn [bd_state bd_rem N.eqb] in *. lia.
    + apply (copy_arm (fun a r => MkBdec BData count a sync v r) (fun a => MkBdec BSync count a sync v 16)).
      * (* step_copy *) intros; now apply step_data.
      * (* wf_fin: 16 bytes of sync marker to come *) intros; unfold bwf; cbn; lia.
      * (* wf_mk *) intros; exact I.
      * (* bytes remain *) lia.
      * exact Hne.
      * (* the call on less *) exact Loop.
  - (* Sync *)
    apply (copy_arm (fun a r => MkBdec BSync count data a v r) (fun a => MkBdec BFinished count data a v 0)).
    + (* step_copy *) intros; apply step_sync.
    + (* wf_fin *) intros; exact I.
    + (* wf_mk *) intros; assumption.
    + (* bytes remain *) exact Hwf.
    + exact Hne.
    + (* the call on less *) exact Loop.
  - (* Finished *)
    rewrite Eb. apply bres_eq_refl.
Qed.

(* with the fuel the model's callers pass *)
Lemma block_decode_is_brun1' : forall d buf, bwf d ->
  bres_eq (block_decode (block_fuel buf) d buf) (brun1 d buf).
Proof.
  intros d buf Hw. apply block_decode_is_brun1; [exact Hw|]. unfold block_fuel. pose proof (bslack_bounds d). lia.
Qed.

Lemma beps_idem d : beps (beps d) = beps d.
Proof.
  unfold beps. destruct d as [st count data sync v rem]. destruct st; cbn [bd_state bd_rem]; try reflexivity.
  destruct (N.eqb_spec rem 0); cbn [bd_state bd_rem]; [reflexivity|]. destruct (N.eqb_spec rem 0); [contradiction|reflexivity].
Qed.

Lemma bstate_eq_dec (a b : bstate) : {a = b} + {a <> b}.
Proof. decide equality. Qed.

Lemma brun1_nil d : brun1 d [] = (d, [], true).
Proof. reflexivity. Qed.

Lemma brun1_finished d bs : bd_state d = BFinished -> brun1 d bs = (d, bs, true).
Proof.
  intros H. destruct bs as [|b r]; [reflexivity|]. cbn [brun1].
  assert (E : beps d = d) by (unfold beps; rewrite H; reflexivity). rewrite E, H. reflexivity.
Qed.

(* one byte: the automaton stops in front of it once the block is complete, else consumes it or fails *)
Lemma brun1_stop d b r : bd_state (beps d) = BFinished -> brun1 d (b :: r) = (beps d, b :: r, true).
Proof. intros E. cbn [brun1]. now rewrite E. Qed.
Lemma brun1_cons d b r : bd_state (beps d) <> BFinished ->
  brun1 d (b :: r) = match bconsume (beps d) b with Some d2 => brun1 d2 r | None => (beps d, b :: r, false) end.
Proof. intros E. cbn [brun1]. destruct (bd_state (beps d)); congruence || reflexivity. Qed.

Theorem brun1_app : forall a d b,
  brun1 d (a ++ b) =
  match brun1 d a with
  | (d1, [], true) => brun1 d1 b
  | (d1, rest, ok) => (d1, rest ++ b, ok)
  end.
Proof.
  induction a as [|x a IH]; intros d b; [reflexivity|]. cbn [app].
  destruct (bstate_eq_dec (bd_state (beps d)) BFinished) as [E|E].
  - now rewrite !brun1_stop.
  - rewrite !brun1_cons by exact E. destruct (bconsume (beps d) x) as [d2|]; [apply IH|reflexivity].
Qed.

Lemma bwf_beps d : bwf d -> bwf (beps d).
Proof.
  unfold bwf, beps. destruct d as [st count data sync v rem]. destruct st; cbn [bd_state bd_rem]; auto.
  destruct (N.eqb_spec rem 0); cbn [bd_state bd_rem]; [lia|auto].
Qed.
Lemma bwf_bconsume d b d' : bwf d -> bconsume d b = Some d' -> bwf d'.
Proof.
  unfold bwf, bconsume. destruct d as [st count data sync v rem]. destruct st; cbn [bd_state bd_rem bd_vlq bd_count bd_data bd_sync]; intros Hw H.
  - (* Count *) destruct (vlq_long v [b]) as [[v' [|]] [|z|]]; try discriminate; [|destruct (z <? 0)%Z; [discriminate|]];
      inversion H; subst; exact I.
  - (* Size *) destruct (vlq_long v [b]) as [[v' [|]] [|z|]]; try discriminate; [|destruct (z <? 0)%Z; [discriminate|]];
      inversion H; subst; exact I.
  - (* Data *) destruct (N.eqb_spec (rem - 1) 0); inversion H; subst; cbn; [lia|exact I].
  - (* Sync *) destruct (N.eqb_spec (rem - 1) 0); inversion H; subst; cbn; [exact I|lia].
  - (* Finished *) discriminate.
Qed.

Lemma beps_not_finished d : bd_state d <> BFinished -> bd_state (beps d) <> BFinished.
Proof.
  unfold beps. destruct d as [st count data sync v rem]. destruct st; cbn [bd_state bd_rem]; intros H; try exact H.
  destruct (rem =? 0); cbn [bd_state]; discriminate.
Qed.

(* an Ok run keeps bwf, leaves a suffix, leaves a non-empty one only in front of a complete block (what the OCF loop
   rests on), and consumes something unless it started complete or on nothing *)
Lemma brun1_ok : forall bs d d1 l1, bwf d -> brun1 d bs = (d1, l1, true) ->
  bwf d1 /\ (length l1 <= length bs)%nat /\ (l1 <> [] -> bd_state d1 = BFinished) /\
  (bd_state d <> BFinished -> bs <> [] -> length l1 < length bs)%nat.
Proof.
  induction bs as [|b r IH]; intros d d1 l1 Hw H.
  - inversion H; subst. repeat split; auto; congruence.
  - pose proof (bwf_beps d Hw) as Hw1.
    destruct (bstate_eq_dec (bd_state (beps d)) BFinished) as [E|E].
    + rewrite brun1_stop in H by exact E. inversion H; subst. repeat split; auto.
      intros Hs. now apply beps_not_finished in Hs.
    + rewrite brun1_cons in H by exact E. destruct (bconsume (beps d) b) as [d2|] eqn:Ec; [|discriminate].
      destruct (IH d2 d1 l1 (bwf_bconsume _ _ _ Hw1 Ec) H) as (W & L & F & _). cbn [length].
      repeat split; auto; lia.
Qed.

Theorem block_chunk_independent : forall d a b, bwf d ->
  bres_eq (block_decode (block_fuel (a ++ b)) d (a ++ b))
          (match block_decode (block_fuel a) d a with
           | (d1, [], true) => block_decode (block_fuel b) d1 b
           | (d1, rest, ok) => (d1, rest ++ b, ok)
           end).
Proof.
  intros d a b Hw. eapply bres_eq_trans; [apply block_decode_is_brun1', Hw|]. rewrite brun1_app.
  destruct (block_decode_is_brun1' d a Hw) as [Hok Heq].
  destruct (block_decode (block_fuel a) d a) as [[d1 r1] ok]. destruct (brun1 d a) as [[d2 r2] ok2] eqn:Er.
  cbn [snd] in Hok, Heq. subst ok2. destruct ok.
  - specialize (Heq eq_refl). inversion Heq; subst d2 r2. destruct r1; [|apply bres_eq_refl].
    apply bres_eq_sym, block_decode_is_brun1'. now apply (brun1_ok a d d1 []).
  - destruct r1, r2; split; try reflexivity; discriminate.
Qed.

Lemma fill_buf_spec : forall chunks buf rest, fill_buf chunks = (buf, rest) ->
  concat chunks = buf ++ concat rest /\ (buf = [] -> rest = []).
Proof.
  induction chunks as [|c cs IH]; intros buf rest H; cbn [fill_buf] in H.
  - inversion H; subst. split; [reflexivity|reflexivity].
  - destruct c as [|x c].
    + apply IH in H. cbn [concat app]. exact H.
    + inversion H; subst. split; [reflexivity|discriminate].
Qed.

Lemma block_flush_finished d : bd_state d = BFinished ->
  block_flush d = (Some (bd_count d, bd_data d, bd_sync d), MkBdec BCount 0 [] [] (bd_vlq d) (bd_rem d)).
Proof. intros H. unfold block_flush. rewrite H. reflexivity. Qed.
Lemma block_flush_other d : bd_state d <> BFinished -> block_flush d = (None, d).
Proof. intros H. unfold block_flush. destruct (bd_state d); try reflexivity. congruence. Qed.

(* what the flat loop does with the outcome of one run of the automaton *)
Definition blocks1_body (f : nat) (sync : list N) (vals : list Z) (r : bdec * list N * bool) : list Z * Z :=
  let '(d', lft, ok) := r in
  if negb ok then ([], 2%Z)
  else match block_flush d' with
       | (Some (count, data, bsync), d'') =>
           if negb (list_eqb bsync sync) then ([], 2%Z)
           else match data with
                | [] => blocks1 f sync d'' lft vals
                | _ :: _ => match get_longs (N.to_nat count) data with
                            | None => ([], 2%Z)
                            | Some (zs, []) => blocks1 f sync d'' lft (vals ++ zs)
                            | Some (_, _ :: _) => ([], 3%Z)
                            end
                end
       | (None, _) => (vals, 0%Z)
       end.
Lemma blocks1_unfold f sync d bytes vals : bd_state d <> BFinished ->
  blocks1 (S f) sync d bytes vals = blocks1_body f sync vals (brun1 d bytes).
Proof. intros H. destruct bytes; [|reflexivity]. cbn. now rewrite block_flush_other. Qed.

(* n bounds the bytes still to read; the reader's and the flat loop's fuels are independent, so that two
   chunkings read with different fuels can both be compared with the same flat run *)
Theorem read_blocks_flat : forall n chunks f1 f2 sync d trace vals,
  bwf d -> bd_state d <> BFinished ->
  (length (concat chunks) < n)%nat -> (n <= f1)%nat -> (n <= f2)%nat ->
  (let '(_, v, st) := read_blocks f1 sync d chunks trace vals in (v, st))
  = blocks1 f2 sync d (concat chunks) vals.
Proof.
  induction n as [|n IH]; intros chunks f1 f2 sync d trace vals Hw Hs Hn H1 H2; [lia|].
  destruct f1 as [|f1]; [lia|]. destruct f2 as [|f2]; [lia|]. apply le_S_n in H1, H2. cbn [read_blocks].
  destruct (fill_buf chunks) as [buf rest] eqn:Ef. apply fill_buf_spec in Ef. destruct Ef as [Ec Er].
  rewrite Ec in *. destruct buf as [|b0 buf0]; [rewrite (Er eq_refl); reflexivity|].
  remember (b0 :: buf0) as buf eqn:Eb. assert (Hbne : buf <> []) by (rewrite Eb; discriminate).
  rewrite app_length in Hn. rewrite blocks1_unfold, brun1_app by exact Hs.
  pose proof (block_decode_is_brun1' d buf Hw) as [Hok Heq].
  destruct (block_decode (block_fuel buf) d buf) as [[d' lft] ok].
  destruct (brun1 d buf) as [[d1 l1] ok1] eqn:Eb1. cbn [snd] in Hok, Heq. subst ok1.
  destruct ok; cbn [negb]; [|destruct l1; reflexivity].
  specialize (Heq eq_refl). injection Heq as -> ->.
  destruct (brun1_ok buf d d1 l1 Hw Eb1) as (Hw1 & _ & Hfin & Hprog). specialize (Hprog Hs Hbne).
  (* after the call the reader holds l1 :: rest, the flat loop l1 ++ concat rest *)
  assert (Next : forall g d0 tr vs, (n <= g)%nat -> bwf d0 -> bd_state d0 <> BFinished ->
            (let '(_, v, st) := read_blocks f1 sync d0 (l1 :: rest) tr vs in (v, st))
            = blocks1 g sync d0 (l1 ++ concat rest) vs).
  { intros g d0 tr vs Hg W0 S0. apply (IH (l1 :: rest)); [exact W0|exact S0| |exact H1|exact Hg].
    cbn [concat]. rewrite app_length. lia. }
  destruct (bstate_eq_dec (bd_state d1) BFinished) as [Hf|Hnf].
  - (* a complete block; the automaton stops in front of whatever follows *)
    replace (match l1 with [] => brun1 d1 (concat rest) | _ :: _ => (d1, l1 ++ concat rest, true) end)
      with (d1, l1 ++ concat rest, true) by (destruct l1; [symmetry; apply brun1_finished, Hf|reflexivity]).
    cbn [blocks1_body negb]. rewrite (block_flush_finished d1 Hf).
    destruct (list_eqb (bd_sync d1) sync); cbn [negb]; [|reflexivity].
    destruct (bd_data d1) as [|x xs]; [apply Next; [exact H2|exact I|discriminate]|].
    destruct (get_longs (N.to_nat (bd_count d1)) (x :: xs)) as [[zs [|z zr]]|]; try reflexivity.
    apply Next; [exact H2|exact I|discriminate].
  - (* the chunk ended inside a block: nothing is left of it, and the flat loop reads on *)
    assert (l1 = []) as -> by (destruct l1; [reflexivity|now destruct Hnf; apply Hfin]).
    rewrite (block_flush_other d1 Hnf), <- (blocks1_unfold f2) by exact Hnf.
    apply (Next (S f2) d1); [apply Nat.le_le_succ_r, H2|exact Hw1|exact Hnf].
Qed.

(* without the bound n, which only the induction needs *)
Lemma read_blocks_flat' : forall chunks f1 f2 sync d trace vals,
  bwf d -> bd_state d <> BFinished ->
  (length (concat chunks) < f1)%nat -> (length (concat chunks) < f2)%nat ->
  (let '(_, v, st) := read_blocks f1 sync d chunks trace vals in (v, st))
  = blocks1 f2 sync d (concat chunks) vals.
Proof.
  intros chunks f1 f2 sync d trace vals Hw Hs H1 H2.
  apply (read_blocks_flat (S (length (concat chunks)))); try assumption. apply Nat.lt_succ_diag_r.
Qed.

Lemma read_blocks_chunk_independent : forall c1 c2 f1 f2 sync d t1 t2 vals,
  bwf d -> bd_state d <> BFinished -> concat c1 = concat c2 ->
  (length (concat c1) < f1)%nat -> (length (concat c2) < f2)%nat ->
  (let '(_, v, st) := read_blocks f1 sync d c1 t1 vals in (v, st))
  = (let '(_, v, st) := read_blocks f2 sync d c2 t2 vals in (v, st)).
Proof.
  intros c1 c2 f1 f2 sync d t1 t2 vals Hw Hs E H1 H2.
  rewrite (read_blocks_flat' c1 f1 f1 sync d t1 vals Hw Hs H1 H1).
  rewrite (read_blocks_flat' c2 f2 f1 sync d t2 vals Hw Hs H2 ltac:(rewrite <- E; exact H1)).
  now rewrite E.
Qed.

Example vlq_nonvacuous :
  vlq_long vlq0 [216; 4; 9] = (vlq0, [9], VSome 300%Z) /\
  vlq_long vlq0 [216] = (MkVlq 88 7, [], VNone) /\
  vlq_long (MkVlq 88 7) [4; 9] = (vlq0, [9], VSome 300%Z) /\
  read_varint [216; 4; 9] = Some (600, 2%nat) /\
  wf_bytes [216; 4; 9].
Proof. repeat split; [vm_compute; reflexivity ..|repeat constructor]. Qed.

Example block_nonvacuous :
  let sync := [1;2;3;4;5;6;7;8;9;10;11;12;13;14;15;16] in
  block_decode (block_fuel ([2; 2; 170] ++ sync ++ [77])) bdec0 ([2; 2; 170] ++ sync ++ [77])
  = (MkBdec BFinished 1 [170] sync vlq0 0, [77], true) /\ bwf bdec0 /\ bd_state bdec0 <> BFinished.
Proof. cbv zeta. split; [vm_compute; reflexivity|split; [exact I|discriminate]]. Qed.
