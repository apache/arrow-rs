(* C19: BitChunks — the 64-bit chunks (BitChunkIterator) and the remainder word (remainder_bits)
   hold exactly the bits of the range they address. *)
From Coq Require Import List Arith NArith Lia Bool.
From AV Require Import Base.ListX Base.Bits Base.Bytes Model.C19_Bits.
Import ListNotations.
Local Open Scope N_scope.

Lemma N_leb_of_nat a b : (N.of_nat a <=? N.of_nat b) = (a <=? b)%nat.
Proof. apply eq_true_iff_eq. rewrite N.leb_le, Nat.leb_le. lia. Qed.

Lemma N_ltb_of_nat a b : (N.of_nat a <? N.of_nat b) = (a <? b)%nat.
Proof. apply eq_true_iff_eq. rewrite N.ltb_lt, Nat.ltb_lt. lia. Qed.

Lemma testbit_land_low x k j : N.testbit (N.land x (2^k - 1)) j = (j <? k) && N.testbit x j.
Proof.
  rewrite N.land_spec, ones_pred, andb_comm.
  destruct (N.ltb_spec j k); [now rewrite N.ones_spec_low|now rewrite N.ones_spec_high].
Qed.

Lemma wf_skipn bs k : wf_bytes bs -> wf_bytes (skipn k bs).
Proof. apply Forall_skipn. Qed.

Lemma bit_at_byte bs k r : (r < 8)%nat -> bit_at bs (8 * k + r) = N.testbit (nth k bs 0) (N.of_nat r).
Proof.
  intros Hr. unfold bit_at. replace (8 * k + r)%nat with (r + k * 8)%nat by lia.
  now rewrite Nat.div_add, Nat.mod_add, Nat.div_small, Nat.mod_small by lia.
Qed.

Lemma ceil8_bounds n : (n <= 8 * ((n + 7) / 8) < n + 8)%nat.
Proof.
  pose proof (Nat.div_mod (n + 7) 8 ltac:(discriminate)).
  pose proof (Nat.mod_upper_bound (n + 7) 8 ltac:(discriminate)). lia.
Qed.

Lemma div8_lt_ceil i n : (i < n)%nat -> (i / 8 < (n + 7) / 8)%nat.
Proof. intros H. pose proof (ceil8_bounds n). apply Nat.div_lt_upper_bound; lia. Qed.

(* fewer than 8 bytes are zero-extended: [bit_at] reads false past the end *)
Lemma read_u64_slice_testbit bs i : wf_bytes bs -> (i < 64)%nat ->
  N.testbit (read_u64_slice bs) (N.of_nat i) = bit_at bs i.
Proof.
  intros Hwf Hi. unfold read_u64_slice. rewrite le_val_testbit by apply Forall_firstn, Hwf.
  apply bit_at_firstn, Nat.div_lt_upper_bound; lia.
Qed.

Lemma read_u64_testbit bs o i : wf_bytes bs -> (i < 64)%nat ->
  N.testbit (read_u64 bs o) (N.of_nat i) = bit_at bs (8 * o + i).
Proof.
  intros Hwf Hi. rewrite <- bit_at_skipn. apply (read_u64_slice_testbit (skipn o bs)); [apply wf_skipn, Hwf|exact Hi].
Qed.

Lemma combine_spec cur next off i : cur < 2^64 -> off <= 64 -> i < 64 ->
  N.testbit (combine cur next off) i = N.testbit (cur + 2^64 * next) (i + off).
Proof.
  intros Hc Ho Hi. unfold combine.
  rewrite testbit_add_shift by assumption.
  destruct (N.eqb_spec off 0) as [->|Hoff].
  - rewrite N.add_0_r. destruct (N.ltb_spec i 64); [reflexivity|lia].
  - change (2^64 - 1) with (N.ones 64).
    rewrite N.lor_spec, N.shiftr_spec', N.land_spec, N.ones_spec_low by lia.
    rewrite andb_true_r.
    destruct (N.ltb_spec (i + off) 64) as [Hlt|Hge].
    + rewrite N.shiftl_spec_low by lia. apply orb_false_r.
    + rewrite N.shiftl_spec_high' by lia.
      rewrite (testbit_high cur 64) by (assumption || lia).
      cbn [orb]. f_equal. lia.
Qed.

(* no bound on the buffer is needed: past its end the model reads zero bytes and [bit_at] reads false *)
Lemma chunk_testbit bs bit_off n j : wf_bytes bs -> bit_off < 8 -> (j < 64)%nat ->
  N.testbit (chunk bs bit_off n) (N.of_nat j) = bit_at bs (64 * n + N.to_nat bit_off + j).
Proof.
  intros Hwf Ho Hj. unfold chunk.
  rewrite combine_spec by (apply read_u64_bound, Hwf || lia).
  rewrite testbit_add_shift by apply read_u64_bound, Hwf.
  replace (N.of_nat j + bit_off) with (N.of_nat (j + N.to_nat bit_off)) by lia.
  destruct (N.ltb_spec (N.of_nat (j + N.to_nat bit_off)) 64) as [Hlt|Hge].
  - rewrite read_u64_testbit by (exact Hwf || lia). f_equal. lia.
  - (* the bit lies in the ninth byte *)
    replace (N.of_nat (j + N.to_nat bit_off) - 64) with (N.of_nat (j + N.to_nat bit_off - 64)) by lia.
    rewrite <- bit_at_byte by lia. f_equal. lia.
Qed.

(* the last hypothesis is the in-bounds condition of the extra byte BitChunkIterator::next reads; the model, which reads
   zero bytes past the end, does not need it *)
Theorem chunk_spec bs bit_off n j : wf_bytes bs -> bit_off < 8 -> (j < 64)%nat ->
  (8 * n + 8 + (if (bit_off =? 0)%N then 0 else 1) <= length bs)%nat ->
  N.testbit (chunk bs bit_off n) (N.of_nat j) = bit_at bs (64 * n + N.to_nat bit_off + j).
Proof. intros Hwf Ho Hj _. now apply chunk_testbit. Qed.

Theorem bitchunks_iter_spec bs off len n j :
  wf_bytes bs -> (n < len / 64)%nat -> (j < 64)%nat ->
  N.testbit (nth n (bitchunks_iter (bitchunks_new bs off len)) 0) (N.of_nat j)
  = nth (64 * n + j) (bits_range bs off len) false.
Proof.
  intros Hwf Hn Hj.
  pose proof (Nat.div_mod off 8 ltac:(discriminate)) as Eo.
  pose proof (Nat.mod_upper_bound off 8 ltac:(discriminate)) as Hm.
  pose proof (Nat.div_mod len 64 ltac:(discriminate)) as El.
  unfold bitchunks_iter, bitchunks_new; cbn [bc_buf bc_bit_off bc_chunk_len].
  rewrite nth_map_seq by exact Hn. cbn [Nat.add].
  set (o := (off mod 8)%nat) in *. set (c := (len / 64)%nat) in *. clearbody o c.
  rewrite chunk_testbit, bits_range_nth, bit_at_skipn by (apply wf_skipn, Hwf || lia).
  f_equal. lia.
Qed.

Corollary bitchunks_count bs off len :
  length (bitchunks_iter (bitchunks_new bs off len)) = (len / 64)%nat.
Proof. unfold bitchunks_iter, bitchunks_new; cbn. now rewrite map_length, seq_length. Qed.

Lemma fold_lor_testbit (f : nat -> N) l : forall init j,
  N.testbit (fold_left (fun acc i => N.lor acc (f i)) l init) j =
  N.testbit init j || existsb (fun i => N.testbit (f i) j) l.
Proof.
  induction l as [|i l IH]; intros init j; cbn [fold_left existsb].
  - now rewrite orb_false_r.
  - now rewrite IH, N.lor_spec, orb_assoc.
Qed.

Lemma existsb_seq_unique (g : nat -> bool) a n q :
  (forall i, (a <= i < a + n)%nat -> g i = true -> i = q) ->
  existsb g (seq a n) = (a <=? q)%nat && (q <? a + n)%nat && g q.
Proof.
  intros Hu. apply eq_true_iff_eq. rewrite existsb_exists, !andb_true_iff, Nat.leb_le, Nat.ltb_lt. split.
  - intros (i & Hi & Hg). apply in_seq in Hi. rewrite <- (Hu i Hi Hg). auto.
  - intros [Hq Hg]. exists q. split; [apply in_seq; lia|exact Hg].
Qed.

Lemma u64_shl_testbit x k j : j < 64 -> N.testbit (u64_shl x k) j = (k <=? j) && N.testbit x (j - k).
Proof.
  intros Hj. unfold u64_shl, mask64. rewrite N.land_spec, N.ones_spec_low, andb_true_r by exact Hj.
  destruct (N.leb_spec k j); [now rewrite N.shiftl_spec_high'|now rewrite N.shiftl_spec_low].
Qed.

(* byte i, shifted to bit 8 i - off of the accumulator, can only set bits 8 i - off .. 8 i - off + 7 *)
Lemma shifted_byte_range b k j : b < 2^8 -> j < 64 -> N.testbit (u64_shl b k) j = true -> k <= j < k + 8.
Proof.
  intros Hb Hj. rewrite u64_shl_testbit by exact Hj.
  destruct (N.leb_spec k j) as [Hk|]; [|discriminate]. cbn [andb]. intros Ht. split; [exact Hk|].
  destruct (N.lt_ge_cases (j - k) 8) as [|Hbig]; [lia|].
  now rewrite (testbit_high b 8) in Ht.
Qed.

(* bit j of the unmasked accumulator is bit off + j of the bytes from [base] on: with  off + j = 8 q + r
   it is bit r of byte q, the only byte that is shifted onto position j *)
Lemma remainder_acc_testbit buf base off n j :
  wf_bytes buf -> (off < 8)%nat -> (j < 64)%nat -> (off + j < 8 * n)%nat ->
  N.testbit (fold_left (fun acc i => N.lor acc (u64_shl (nth (base + i) buf 0) (N.of_nat (i * 8) - N.of_nat off)))
               (seq 1 (n - 1)) (N.shiftr (nth base buf 0) (N.of_nat off))) (N.of_nat j)
  = bit_at buf (8 * base + (off + j)).
Proof.
  intros Hwf Ho Hj Hn.
  pose proof (Nat.div_mod (off + j) 8 ltac:(discriminate)) as E.
  pose proof (Nat.mod_upper_bound (off + j) 8 ltac:(discriminate)) as Hr.
  set (q := ((off + j) / 8)%nat) in *. set (r := ((off + j) mod 8)%nat) in *. clearbody q r.
  replace (8 * base + (off + j))%nat with (8 * (base + q) + r)%nat by lia. rewrite bit_at_byte by exact Hr.
  rewrite fold_lor_testbit, N.shiftr_spec' by lia. rewrite (existsb_seq_unique _ 1 (n - 1) q).
  - destruct q as [|q'].
    + rewrite orb_false_r, Nat.add_0_r. f_equal. lia.
    + rewrite (testbit_high _ 8) by (apply nth_bound, Hwf || lia).
      replace (S q' <? 1 + (n - 1))%nat with true by (symmetry; apply Nat.ltb_lt; lia).
      rewrite u64_shl_testbit by lia.
      replace (N.of_nat (S q' * 8) - N.of_nat off <=? N.of_nat j) with true by (symmetry; apply N.leb_le; lia).
      cbn [Nat.leb andb orb]. f_equal. lia.
  - intros i Hi Ht. apply shifted_byte_range in Ht; [lia|apply nth_bound, Hwf|lia].
Qed.

Theorem remainder_bits_spec bs off len j :
  wf_bytes bs ->
  N.testbit (remainder_bits (bitchunks_new bs off len)) (N.of_nat j)
  = if (j <? len mod 64)%nat then nth (64 * (len / 64) + j) (bits_range bs off len) false else false.
Proof.
  intros Hwf.
  pose proof (Nat.div_mod off 8 ltac:(discriminate)) as Eo.
  pose proof (Nat.mod_upper_bound off 8 ltac:(discriminate)) as Hm.
  pose proof (Nat.div_mod len 64 ltac:(discriminate)) as El.
  pose proof (Nat.mod_upper_bound len 64 ltac:(discriminate)) as Hr.
  unfold remainder_bits, bitchunks_new; cbn [bc_buf bc_bit_off bc_chunk_len bc_rem_len].
  (* quotients and remainders as variables: lia only needs the four facts above *)
  set (o := (off mod 8)%nat) in *. set (r := (len mod 64)%nat) in *. clearbody o r.
  destruct (Nat.eqb_spec r 0) as [E0|_]; [now rewrite N.bits_0, E0|].
  rewrite testbit_land_low, N_ltb_of_nat. destruct (Nat.ltb_spec j r) as [Hj|_]; [|reflexivity].
  cbn [andb]. rewrite Nat2N.id.   (* the model carries the bit offset as N and converts it back *)
  pose proof (ceil8_bounds (r + o)) as Hc.
  rewrite remainder_acc_testbit; [|apply wf_skipn, Hwf|exact Hm|exact (Nat.lt_trans _ _ _ Hj Hr)|lia].
  rewrite bit_at_skipn, bits_range_nth by lia. f_equal. lia.
Qed.
