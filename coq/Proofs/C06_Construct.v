(* C06 — the denotation of selector lists, with the few general lemmas on repeat, count_true,
   option_map and seq that the C06 files need beyond Base.ListX; then what each constructor of
   RowSelection denotes, and that none builds an empty run. *)
From Coq Require Import List Arith Lia Bool.
From AV Require Import Base.ListX Model.C06_RowSel.
Import ListNotations.

Lemma dens_app a b : dens (a ++ b) = dens a ++ dens b.
Proof. unfold dens. apply flat_map_app. Qed.

Lemma dens_cons sk n l : dens ((sk, n) :: l) = repeat (negb sk) n ++ dens l.
Proof. reflexivity. Qed.

Lemma dens_nil : dens [] = [].
Proof. reflexivity. Qed.

Lemma dens_one sk n : dens [(sk, n)] = repeat (negb sk) n.
Proof. apply app_nil_r. Qed.

Lemma dens_zero sk l : dens ((sk, 0) :: l) = dens l.
Proof. reflexivity. Qed.

Lemma dens_snoc l sk n : dens (l ++ [(sk, n)]) = dens l ++ repeat (negb sk) n.
Proof. now rewrite dens_app, dens_one. Qed.

Lemma nth_repeat_app {A} (x d : A) c rest j :
  nth j (repeat x c ++ rest) d = if j <? c then x else nth (j - c) rest d.
Proof.
  destruct (Nat.ltb_spec j c) as [Hlt|Hge].
  - rewrite app_nth1 by (rewrite repeat_length; exact Hlt).
    rewrite (nth_indep _ d x) by (rewrite repeat_length; exact Hlt). apply nth_repeat.
  - rewrite app_nth2 by (rewrite repeat_length; exact Hge). now rewrite repeat_length.
Qed.

Lemma dens_split_head sk n p l : p <= n ->
  dens ((sk, n) :: l) = repeat (negb sk) p ++ dens ((sk, n - p) :: l).
Proof. intros H. rewrite !dens_cons, app_assoc, <- repeat_app. do 2 f_equal. lia. Qed.

Lemma count_true_app a b : count_true (a ++ b) = count_true a + count_true b.
Proof. induction a as [|x a IH]; cbn [count_true app]; [|destruct x]; lia. Qed.

Lemma count_true_repeat b n : count_true (repeat b n) = if b then n else 0.
Proof. induction n as [|n IH]; cbn [count_true repeat]; destruct b; lia. Qed.

Lemma count_true_le l : count_true l <= length l.
Proof. induction l as [|b l IH]; cbn [count_true length]; [|destruct b]; lia. Qed.

Lemma sum_counts_cons sk n l : sum_counts ((sk, n) :: l) = n + sum_counts l.
Proof. reflexivity. Qed.

Lemma dens_length l : length (dens l) = sum_counts l.
Proof.
  induction l as [|[sk n] l IH]; [reflexivity|].
  rewrite dens_cons, app_length, repeat_length, sum_counts_cons, IH. reflexivity.
Qed.

Lemma existsb_repeat (b : bool) n : existsb (fun x => x) (repeat b n) = b && negb (n =? 0).
Proof. induction n as [|n IH]; cbn [repeat existsb]; [now rewrite andb_false_r|]. destruct b; [reflexivity|]. rewrite IH. reflexivity. Qed.

Lemma option_map_some {A B} (f : A -> B) o y : option_map f o = Some y -> exists x, o = Some x /\ y = f x.
Proof. destruct o as [x|]; [|discriminate]. intros [= <-]. eauto. Qed.

Lemma option_map_not_none {A B} (f : A -> B) o : o <> None -> option_map f o <> None.
Proof. destruct o; [discriminate|intros H; contradiction]. Qed.

(* the invariants RowSelection documents for a selector vector; every constructor below gives [nonzero] *)
Definition nonzero (l : list sel) : Prop := Forall (fun s : sel => snd s <> 0) l.
Fixpoint alternating (l : list sel) : Prop :=
  match l with
  | (s1, _) :: (((s2, _) :: _) as r) => s1 <> s2 /\ alternating r
  | _ => True
  end.
Definition normal (l : list sel) : Prop := nonzero l /\ alternating l.

Lemma norm_go_dens l : forall cur, dens (norm_go cur l) = den1 cur ++ dens l.
Proof.
  induction l as [|[sk n] l IH]; intros [csk cn]; cbn [norm_go fst snd].
  - rewrite dens_cons, dens_nil. reflexivity.
  - destruct (Nat.eqb_spec n 0) as [->|Hn]; [rewrite IH, dens_zero; reflexivity|].
    destruct (Bool.eqb_spec csk sk) as [->|Hs].
    + rewrite IH, dens_cons. unfold den1. cbn [fst snd]. rewrite repeat_app, app_assoc. reflexivity.
    + rewrite dens_cons, IH. reflexivity.
Qed.

Theorem from_iter_dens l : dens (from_iter l) = dens l.
Proof.
  induction l as [|[sk n] l IH]; [reflexivity|]. cbn [from_iter].
  destruct (Nat.eqb_spec n 0) as [->|Hn]; [rewrite IH, dens_zero; reflexivity|].
  rewrite norm_go_dens, dens_cons. reflexivity.
Qed.

Lemma norm_go_normal l : forall csk cn, cn <> 0 ->
  normal (norm_go (csk, cn) l) /\ exists n r, norm_go (csk, cn) l = (csk, n) :: r.
Proof.
  induction l as [|[sk n] l IH]; intros csk cn Hc; cbn [norm_go fst snd].
  - split; [split; [constructor; [exact Hc|constructor]|exact I]|eauto].
  - destruct (Nat.eqb_spec n 0) as [->|Hn]; [apply IH, Hc|].
    destruct (Bool.eqb_spec csk sk) as [->|Hs]; [apply IH; lia|].
    destruct (IH sk n Hn) as [[Hnz Halt] (n' & r & Hr)].
    split; [|eauto]. rewrite Hr in *. split; [constructor; [exact Hc|exact Hnz]|].
    cbn [alternating]. split; [exact Hs|exact Halt].
Qed.

Theorem from_iter_normal l : normal (from_iter l).
Proof.
  induction l as [|[sk n] l IH]; [split; [constructor|exact I]|]. cbn [from_iter].
  destruct (Nat.eqb_spec n 0) as [->|Hn]; [exact IH|]. apply norm_go_normal, Hn.
Qed.

(* increasing, non-empty ranges inside [lo, hi]: the shape of what set_slices returns *)
Fixpoint chain (lo hi : nat) (rs : list (nat * nat)) : Prop :=
  match rs with
  | [] => lo <= hi
  | (s, e) :: r => lo <= s /\ s < e /\ chain e hi r
  end.

Lemma chain_lower lo lo' hi rs : lo' <= lo -> chain lo hi rs -> chain lo' hi rs.
Proof.
  intros Hl H. destruct rs as [|[s e] rs]; cbn [chain] in *; [lia|].
  destruct H as (H1 & H2). split; [lia|exact H2].
Qed.

Lemma chain_app a : forall lo mid hi b, chain lo mid a -> chain mid hi b -> chain lo hi (a ++ b).
Proof.
  induction a as [|[s e] a IH]; intros lo mid hi b Ha Hb; cbn [chain app] in *.
  - now apply (chain_lower mid).
  - destruct Ha as (H1 & H2 & H3). repeat split; [exact H1|exact H2|]. now apply (IH e mid).
Qed.

(* slices_go at bit [pos]: [cur] = Some s while it is inside a run of set bits that began at s, so
   the bits from [run_start pos cur] on are not yet covered by a slice; such a run began before pos *)
Definition run_start (pos : nat) (cur : option nat) : nat :=
  match cur with Some s => s | None => pos end.

Definition run_open (pos : nat) (cur : option nat) : Prop :=
  match cur with Some s => s < pos | None => True end.

Lemma run_start_keep pos cur :
  match cur with Some s => Some s | None => Some pos end = Some (run_start pos cur).
Proof. now destruct cur. Qed.

Lemma slices_chain l : forall pos cur, run_open pos cur ->
  chain (run_start pos cur) (pos + length l) (slices_go l pos cur).
Proof.
  induction l as [|b l IH]; intros pos cur Hcur; cbn [slices_go length].
  - rewrite Nat.add_0_r. destruct cur as [s|]; cbn [run_start run_open chain] in *; lia.
  - rewrite Nat.add_succ_r. change (S (pos + length l)) with (S pos + length l).
    destruct b.
    + rewrite run_start_keep. apply (IH (S pos) (Some (run_start pos cur))).
      destruct cur as [s|]; cbn [run_start run_open] in *; lia.
    + assert (Hr : chain pos (S pos + length l) (slices_go l (S pos) None)).
      { apply (chain_lower (S pos)); [lia|]. exact (IH (S pos) None I). }
      destruct cur as [s|]; cbn [run_start chain]; [|exact Hr].
      repeat split; [lia|exact Hcur|exact Hr].
Qed.

Lemma dens_gap last_end s :
  dens (if last_end <? s then [(true, s - last_end)] else []) = repeat false (s - last_end).
Proof.
  destruct (Nat.ltb_spec last_end s) as [Hl|Hl].
  - apply dens_one.
  - replace (s - last_end) with 0 by lia. reflexivity.
Qed.

Lemma dens_pad last_end total :
  dens (if last_end =? total then [] else [(true, total - last_end)]) = repeat false (total - last_end).
Proof.
  destruct (Nat.eqb_spec last_end total) as [->|Hne].
  - rewrite Nat.sub_diag. reflexivity.
  - apply dens_one.
Qed.

(* [last_end]: the row up to which selectors have been emitted; the bits from there on are the gap
   to the open run, the open run, and what is left of the bitmap *)
Lemma m2s_slices_dens l : forall pos cur last_end,
  run_open pos cur -> last_end <= run_start pos cur ->
  dens (m2s_go (slices_go l pos cur) last_end (pos + length l))
  = repeat false (run_start pos cur - last_end) ++ repeat true (pos - run_start pos cur) ++ l.
Proof.
  induction l as [|b l IH]; intros pos cur last_end Hcur Hle; cbn [slices_go length].
  - rewrite Nat.add_0_r, app_nil_r. destruct cur as [s|]; cbn [run_start m2s_go] in *.
    + rewrite Nat.eqb_refl, dens_app, dens_gap, dens_one. reflexivity.
    + rewrite dens_pad, Nat.sub_diag. cbn [repeat]. now rewrite app_nil_r.
  - rewrite Nat.add_succ_r. change (S (pos + length l)) with (S pos + length l).
    assert (Hs : run_start pos cur <= pos).
    { destruct cur as [s|]; cbn [run_start run_open] in *; lia. }
    destruct b.
    + rewrite run_start_keep, (IH (S pos) (Some (run_start pos cur)) last_end (le_n_S _ _ Hs) Hle).
      cbn [run_start].
      rewrite (Nat.sub_succ_l _ _ Hs). cbn [repeat]. now rewrite repeat_cons, <- !app_assoc.
    + destruct cur as [s|]; cbn [run_start m2s_go] in *.
      * rewrite dens_app, dens_gap, dens_cons, (IH (S pos) None pos I) by (cbn [run_start]; lia).
        cbn [run_start]. now rewrite Nat.sub_succ_l, !Nat.sub_diag by reflexivity.
      * rewrite (IH (S pos) None last_end I) by (cbn [run_start]; lia).
        cbn [run_start]. rewrite !Nat.sub_diag, (Nat.sub_succ_l _ _ Hle). cbn [repeat].
        now rewrite repeat_cons, <- app_assoc.
Qed.

Lemma m2s_set_slices_dens l pos : dens (m2s_go (slices_go l pos None) pos (pos + length l)) = l.
Proof.
  rewrite (m2s_slices_dens l pos None pos I (Nat.le_refl pos)).
  cbn [run_start]. now rewrite Nat.sub_diag.
Qed.

Theorem mask_to_selectors_dens m : dens (mask_to_selectors m) = m.
Proof.
  unfold mask_to_selectors, set_slices.
  destruct (Nat.eqb_spec (length m) 0) as [H0|H0].
  - destruct m; [reflexivity|discriminate].
  - apply (m2s_set_slices_dens m 0).
Qed.

Lemma dens_selectors_of s : dens (selectors_of s) = den s.
Proof. destruct s as [l|m]; [reflexivity|apply mask_to_selectors_dens]. Qed.

Lemma m2s_go_nonzero rs : forall lo hi, chain lo hi rs -> nonzero (m2s_go rs lo hi).
Proof.
  induction rs as [|[s e] rs IH]; intros lo hi H; cbn [m2s_go chain] in *.
  - destruct (Nat.eqb_spec lo hi); constructor; [cbn [snd]; lia|constructor].
  - destruct H as (H1 & H2 & H3). apply Forall_app. split.
    + destruct (Nat.ltb_spec lo s); constructor; [cbn [snd]; lia|constructor].
    + constructor; [cbn [snd]; lia|now apply IH].
Qed.

Lemma mask_to_selectors_nonzero m : nonzero (mask_to_selectors m).
Proof.
  unfold mask_to_selectors, set_slices. destruct (length m =? 0); [constructor|].
  exact (m2s_go_nonzero _ _ _ (slices_chain m 0 None I)).
Qed.

(* the test that the model's in_ranges applies to each range, written there as an anonymous
   function: in_ranges rs i and existsb (fun r => range_mem r i) rs are convertible, which is all
   that in_ranges_snoc uses *)
Definition range_mem (r : nat * nat) (i : nat) : bool := (fst r <=? i) && (i <? snd r).

Lemma range_mem_in s e i : s <= i < e -> range_mem (s, e) i = true.
Proof. intros H. unfold range_mem. cbn [fst snd]. apply andb_true_intro. split; [apply Nat.leb_le|apply Nat.ltb_lt]; lia. Qed.

Lemma range_mem_out s e i : i < s \/ e <= i -> range_mem (s, e) i = false.
Proof.
  intros H. unfold range_mem. cbn [fst snd]. apply andb_false_iff.
  destruct H; [left; apply Nat.leb_gt|right; apply Nat.ltb_ge]; lia.
Qed.

Lemma in_ranges_snoc p r i : in_ranges (p ++ [r]) i = in_ranges p i || range_mem r i.
Proof. unfold in_ranges. rewrite existsb_app. cbn [existsb]. now rewrite orb_false_r. Qed.

Lemma map_seq_ext (f g : nat -> bool) a n :
  (forall i, a <= i < a + n -> f i = g i) -> map f (seq a n) = map g (seq a n).
Proof.
  intros H. apply map_ext_in. intros i Hi. apply in_seq in Hi. apply H. lia.
Qed.

Lemma map_seq_const (f : nat -> bool) c a n :
  (forall i, a <= i < a + n -> f i = c) -> map f (seq a n) = repeat c n.
Proof. intros H. rewrite (repeat_map_seq c n a). now apply map_seq_ext. Qed.

(* fcr_go's arm for s = last_end adds the new rows to the last selector whatever its kind: right only
   because the last selector pushed is always a select *)
Definition head_select (racc : list sel) : Prop :=
  match racc with [] => True | (sk, _) :: _ => sk = false end.

Lemma fcr_step s e rest last_end racc :
  last_end <= s -> s < e -> head_select racc ->
  exists racc1, fcr_go ((s, e) :: rest) last_end racc = fcr_go rest e racc1
    /\ dens (rev racc1) = dens (rev racc) ++ repeat false (s - last_end) ++ repeat true (e - s)
    /\ head_select racc1 /\ (nonzero racc -> nonzero racc1).
Proof.
  intros Hle Hse Hhs. cbn [fcr_go].
  destruct (Nat.ltb_spec e s) as [Hes|Hes]; [lia|].
  destruct (Nat.eqb_spec (e - s) 0) as [Hlen|Hlen]; [lia|].
  destruct (Nat.compare_spec s last_end) as [Heq|Hlt|Hgt]; [|lia|].
  - subst s. rewrite Nat.sub_diag. cbn [repeat app].
    destruct racc as [|[sk n] racc0].
    + exists [(false, e - last_end)]. repeat split; [|now repeat constructor].
      cbn [rev app]. now rewrite dens_one.
    + cbn [head_select] in Hhs. subst sk. exists ((false, n + (e - last_end)) :: racc0).
      repeat split.
      * cbn [rev]. rewrite !dens_snoc. cbn [negb]. rewrite repeat_app, app_assoc. reflexivity.
      * intros H. inversion H; subst. constructor; [cbn [snd] in *; lia|assumption].
  - exists ((false, e - s) :: (true, s - last_end) :: racc). repeat split.
    + cbn [rev]. rewrite !dens_snoc. cbn [negb]. rewrite <- app_assoc. reflexivity.
    + intros H. constructor; [exact Hlen|]. constructor; [cbn [snd]; lia|exact H].
Qed.

(* the selectors so far denote rows 0 .. last_end as the ranges seen select them, and none of those
   ranges reaches beyond last_end *)
Definition fcr_inv (processed : list (nat * nat)) (last_end : nat) (racc : list sel) : Prop :=
  dens (rev racc) = map (in_ranges processed) (seq 0 last_end)
  /\ (forall i, last_end <= i -> in_ranges processed i = false)
  /\ head_select racc /\ nonzero racc.

Lemma fcr_go_inv rs : forall processed last_end racc racc' le',
  fcr_inv processed last_end racc ->
  fcr_go rs last_end racc = Some (racc', le') ->
  fcr_inv (processed ++ rs) le' racc'.
Proof.
  induction rs as [|[s e] rs IH]; intros processed last_end racc racc' le' Hinv H.
  - cbn [fcr_go] in H. inversion H; subst. now rewrite app_nil_r.
  - replace (processed ++ (s, e) :: rs) with ((processed ++ [(s, e)]) ++ rs) by now rewrite <- app_assoc.
    destruct Hinv as (Hd & Hout & Hhs & Hnz).
    (* no panic: the range is well formed and, unless empty, not before the previous end *)
    pose proof H as H0. cbn [fcr_go] in H0.
    destruct (Nat.ltb_spec e s) as [Hes|Hes]; [discriminate|].
    destruct (Nat.eqb_spec (e - s) 0) as [Hlen|Hlen].
    { eapply IH; [|exact H0]. repeat split; try assumption.
      - rewrite Hd. apply map_seq_ext. intros i Hi. rewrite in_ranges_snoc, range_mem_out by lia. now rewrite orb_false_r.
      - intros i Hi. rewrite in_ranges_snoc, Hout, range_mem_out by lia. reflexivity. }
    assert (Hle : last_end <= s).
    { destruct (Nat.compare_spec s last_end); [lia|discriminate|lia]. }
    clear H0. destruct (fcr_step s e rs last_end racc) as (racc1 & Hf & Hd1 & Hh1 & Hnz1); [lia|lia|exact Hhs|].
    rewrite Hf in H. eapply IH; [|exact H]. repeat split; [| |exact Hh1|exact (Hnz1 Hnz)].
    + rewrite Hd1, Hd.
      replace e with (last_end + ((s - last_end) + (e - s))) at 3 by lia.
      rewrite !seq_app, !map_app. f_equal; [|f_equal].
      * apply map_seq_ext. intros i Hi. rewrite in_ranges_snoc, range_mem_out by lia. now rewrite orb_false_r.
      * symmetry. apply map_seq_const. intros i Hi. rewrite in_ranges_snoc, Hout, range_mem_out by lia. reflexivity.
      * symmetry. apply map_seq_const. intros i Hi. rewrite in_ranges_snoc, Hout, range_mem_in by lia. reflexivity.
    + intros i Hi. rewrite in_ranges_snoc, Hout, range_mem_out by lia. reflexivity.
Qed.

Lemma fcr_inv_init : fcr_inv [] 0 [].
Proof. repeat split. constructor. Qed.

Lemma from_consecutive_ranges_eq rs total :
  from_consecutive_ranges rs total =
  match fcr_go rs 0 [] with
  | None => None
  | Some (racc, le) =>
      if total <? le then None else Some (rev racc ++ (if le =? total then [] else [(true, total - le)]))
  end.
Proof.
  unfold from_consecutive_ranges. destruct (fcr_go rs 0 []) as [[racc le]|]; [|reflexivity].
  destruct (Nat.eqb_spec le total) as [->|Hne]; [|reflexivity].
  now rewrite Nat.ltb_irrefl, app_nil_r.
Qed.

Theorem from_consecutive_ranges_dens rs total l :
  from_consecutive_ranges rs total = Some l -> dens l = ranges_spec rs total.
Proof.
  rewrite from_consecutive_ranges_eq. unfold ranges_spec.
  destruct (fcr_go rs 0 []) as [[racc le]|] eqn:E; [|discriminate].
  pose proof (fcr_go_inv rs [] 0 [] racc le fcr_inv_init E) as (Hd & Hout & _). cbn [app] in *.
  destruct (Nat.ltb_spec total le) as [Hlt|Hge]; [discriminate|]. intros [= <-].
  rewrite dens_app, dens_pad, Hd. replace total with (le + (total - le)) at 2 by lia.
  rewrite seq_app, map_app. f_equal. symmetry. apply map_seq_const. intros i Hi. apply Hout. lia.
Qed.

Theorem from_consecutive_ranges_nonzero rs total l :
  from_consecutive_ranges rs total = Some l -> nonzero l.
Proof.
  rewrite from_consecutive_ranges_eq.
  destruct (fcr_go rs 0 []) as [[racc le]|] eqn:E; [|discriminate].
  apply (fcr_go_inv rs [] 0 [] _ _ fcr_inv_init) in E as (_ & _ & _ & E).
  destruct (Nat.ltb_spec total le) as [Hlt|Hge]; [discriminate|]. intros [= <-].
  apply Forall_app. split; [apply Forall_rev, E|].
  destruct (Nat.eqb_spec le total); constructor; [cbn [snd]; lia|constructor].
Qed.

(* m2s_go rs lo hi stands here, and in m2s_go_app and filter_ranges_dens, for the run-length form of
   the bits of a chain; from_consecutive_ranges does not call it *)
Lemma fcr_go_chain rs : forall lo hi racc, chain lo hi rs -> head_select racc ->
  exists racc' le', fcr_go rs lo racc = Some (racc', le') /\ le' <= hi
    /\ dens (rev racc') ++ repeat false (hi - le') = dens (rev racc) ++ dens (m2s_go rs lo hi).
Proof.
  induction rs as [|[s e] rs IH]; intros lo hi racc Hch Hhs; cbn [chain m2s_go] in *.
  - exists racc, lo. rewrite dens_pad. repeat split. exact Hch.
  - destruct Hch as (H1 & H2 & H3).
    destruct (fcr_step s e rs lo racc H1 H2 Hhs) as (racc1 & Hf & Hd & Hh1 & _).
    destruct (IH e hi racc1 H3 Hh1) as (racc' & le' & Hf' & Hle & Hd').
    exists racc', le'. repeat split; [congruence|exact Hle|].
    rewrite Hd', Hd, dens_app, dens_gap, dens_cons. cbn [negb]. now rewrite <- !app_assoc.
Qed.

Lemma from_consecutive_ranges_chain rs total : chain 0 total rs ->
  exists l, from_consecutive_ranges rs total = Some l /\ dens l = dens (m2s_go rs 0 total).
Proof.
  intros Hch. rewrite from_consecutive_ranges_eq.
  destruct (fcr_go_chain rs 0 total [] Hch I) as (racc & le & -> & Hl & Hd).
  destruct (Nat.ltb_spec total le) as [Hlt|Hge]; [lia|].
  eexists; split; [reflexivity|]. now rewrite dens_app, dens_pad.
Qed.

Lemma m2s_go_app a : forall b lo mid hi, chain lo mid a -> chain mid hi b ->
  dens (m2s_go (a ++ b) lo hi) = dens (m2s_go a lo mid) ++ dens (m2s_go b mid hi).
Proof.
  induction a as [|[s e] a IH]; intros b lo mid hi Ha Hb; cbn [chain app m2s_go] in *.
  - rewrite dens_pad. destruct b as [|[s e] b]; cbn [chain m2s_go] in *.
    + rewrite !dens_pad, <- repeat_app. f_equal. lia.
    + rewrite !dens_app, !dens_gap, app_assoc, <- repeat_app. do 2 f_equal. lia.
  - destruct Ha as (H1 & H2 & H3). rewrite !dens_app, !dens_cons, (IH b e mid hi H3 Hb), <- !app_assoc.
    reflexivity.
Qed.

Lemma filter_ranges_chain fs : forall off, chain off (off + length (concat fs)) (filter_ranges fs off).
Proof.
  induction fs as [|f fs IH]; intros off; cbn [filter_ranges concat chain length]; [lia|].
  rewrite app_length, Nat.add_assoc.
  apply (chain_app _ off (off + length f)); [exact (slices_chain f off None I)|apply IH].
Qed.

Lemma filter_ranges_dens fs : forall off,
  dens (m2s_go (filter_ranges fs off) off (off + length (concat fs))) = concat fs.
Proof.
  induction fs as [|f fs IH]; intros off; cbn [filter_ranges concat length].
  - rewrite Nat.add_0_r. cbn [m2s_go]. now rewrite Nat.eqb_refl.
  - rewrite app_length, Nat.add_assoc, (m2s_go_app _ _ off (off + length f)), IH;
      [|exact (slices_chain f off None I)|apply filter_ranges_chain].
    f_equal. apply m2s_set_slices_dens.
Qed.

Theorem from_filters_dens filters :
  exists l, from_filters filters = Some l /\ dens l = concat filters.
Proof.
  rewrite <- (filter_ranges_dens filters 0). apply from_consecutive_ranges_chain, (filter_ranges_chain filters 0).
Qed.
