(* C02 — arrow-data's list_equal ((Large)List): compositional correctness.  IF the comparison of the
   child arrays on every range decides equality of the corresponding windows of the child's logical
   column, THEN list_equal (empty-children shortcut, null-count comparison, the null-free path
   lengths_equal + ONE child range comparison, the per-slot path) decides equality of the list slots.
   With the fixed-width range theorem for the child this gives `==` on (Large)List of a fixed-width type. *)
From Coq Require Import List Arith NArith ZArith Bool Lia.
From AV Require Import Base.ListX Base.Bytes Model.C09_Layout Model.C02_Logical Model.C02_Equal.
From AV Require Import Proofs.C02_EqualNulls Proofs.C02_EqualPrim Proofs.C02_EqualBin.
Import ListNotations.

Definition window {A} (l : list A) (s m : nat) : list A := firstn m (skipn s l).

Lemma logical_length a : length (logical a) = p_len a.
Proof. unfold logical. now rewrite map_length, seq_length. Qed.

Section ListEq.
  Variables (large nullable : bool) (c : dty).
  Variables (alen aoff : nat) (anulls : option nullbuf) (abufs : list (list N)) (ka : parr) (akids : list parr).
  Variables (b kb : parr) (bkids : list parr).
  Let a := PArr (TList large nullable c) alen aoff anulls abufs (ka :: akids).
  Let w := offw large.
  Hypothesis Hkb : p_kids b = kb :: bkids.
  Hypothesis Hoa : offs_ok a w (p_len ka).
  Hypothesis Hob : offs_ok b w (p_len kb).
  Hypothesis child_ok : forall s1 s2 m, s1 + m <= p_len ka -> s2 + m <= p_len kb ->
    (equal_nulls ka kb s1 s2 m && equal_values ka kb s1 s2 m = true
     <-> window (logical ka) s1 m = window (logical kb) s2 m).

  (* the list slot j of x: the window [offsets[j], offsets[j+1]) of the child's column *)
  Definition lslice (x kx : parr) (j : nat) : list lval :=
    window (logical kx) (noff x w j) (noff x w (S j) - noff x w j).

  (* the closure [range] local to the TList arm of equal_values, copied so that range_nat can be stated; the two
     meet in the goal by conversion *)
  Let range (s1 s2 n : Z) : bool :=
    if (0 <=? s1)%Z then if (0 <=? s2)%Z then if (0 <=? n)%Z then
      if (s1 + n <=? Z.of_nat (p_len ka))%Z then if (s2 + n <=? Z.of_nat (p_len kb))%Z then
        equal_nulls ka kb (Z.to_nat s1) (Z.to_nat s2) (Z.to_nat n) &&
        equal_values ka kb (Z.to_nat s1) (Z.to_nat s2) (Z.to_nat n)
      else false else false else false else false else false.

  Lemma range_nat s1 s2 m : s1 + m <= p_len ka -> s2 + m <= p_len kb ->
    (range (Z.of_nat s1) (Z.of_nat s2) (Z.of_nat m) = true <-> window (logical ka) s1 m = window (logical kb) s2 m).
  Proof.
    intros H1 H2. unfold range. rewrite !leb_0_of_nat, !leb_of_nat_add by assumption. rewrite !Nat2Z.id. now apply child_ok.
  Qed.

  Lemma slot_range_iff j k : j < p_len a -> k < p_len b ->
    ((if Z.eqb (off_at a w (j + 1) - off_at a w j) (off_at b w (k + 1) - off_at b w k)
      then range (off_at a w j) (off_at b w k) (off_at a w (j + 1) - off_at a w j) else false) = true
     <-> lslice a ka j = lslice b kb k).
  Proof. exact (cut_compare_iff (logical_length ka) (logical_length kb) Hoa Hob range_nat j k). Qed.

  Lemma empty_slots ls rs n : ls + n <= p_len a -> rs + n <= p_len b ->
    noff a w (ls + n) - noff a w ls = 0 -> noff b w (rs + n) - noff b w rs = 0 ->
    forall i, i < n -> lslice a ka (ls + i) = lslice b kb (rs + i).
  Proof.
    intros Hla Hlb EA EB. apply (cuts_iff (logical_length ka) (logical_length kb) Hoa Hob ls rs n Hla Hlb).
    split; [|unfold stretch; now rewrite EA, EB].
    intros j Hj. now rewrite (noff_flat Hoa ls n Hla EA j Hj), (noff_flat Hob rs n Hlb EB j Hj).
  Qed.

  (* the null-free path: the two totals, all lengths but the last (lengths_equal is given as many offsets as
     there are slots), then ONE child range; the last length follows from the totals *)
  Lemma null_free_path ls rs m : ls + S m <= p_len a -> rs + S m <= p_len b ->
    ((if Z.eqb (off_at a w (ls + S m) - off_at a w ls) (off_at b w (rs + S m) - off_at b w rs)
      then if lengths_equal (offs_range a w ls (S m)) (offs_range b w rs (S m))
           then range (off_at a w ls) (off_at b w rs) (off_at a w (ls + S m) - off_at a w ls) else false
      else false) = true
     <-> forall i, i < S m -> lslice a ka (ls + i) = lslice b kb (rs + i)).
  Proof.
    intros Hla Hlb.
    etransitivity; [|exact (cuts_iff (logical_length ka) (logical_length kb) Hoa Hob ls rs (S m) Hla Hlb)].
    pose proof (lengths_equal_offs a b w _ _ ls rs m Hoa Hob ltac:(lia) ltac:(lia)) as Hle.
    pose proof (stretch_compare_iff Hoa Hob range_nat ls rs (S m) Hla Hlb) as Hsp.
    destruct (lengths_equal (offs_range a w ls (S m)) (offs_range b w rs (S m))).
    - rewrite Hsp. split; intros [H1 Hw]; (split; [|exact Hw]).
      + apply (lens_last Hoa Hob ls rs m Hla Hlb); [now apply Hle | exact H1].
      + exact (lens_total Hoa Hob ls rs (S m) Hla Hlb H1).
    - split; [now destruct (Z.eqb _ _) | intros [Hd _]].
      assert (Hf : false = true) by (apply Hle; intros i Hi; apply Hd, Nat.lt_lt_succ_r, Hi). discriminate Hf.
  Qed.

  Theorem list_equal_iff ls rs n :
    ls + n <= alen -> rs + n <= p_len b ->
    (forall i, i < n -> slot_valid a (ls + i) = slot_valid b (rs + i)) ->
    (equal_values a b ls rs n = true
     <-> forall i, i < n -> slot_valid a (ls + i) = true -> lslice a ka (ls + i) = lslice b kb (rs + i)).
  Proof.
    intros Hla Hlb Hv. change (ls + n <= p_len a) in Hla.
    (* cbn leaves the constructor form of [a] under off_at and offs_range; folding it back lets the terms named
       below be found in the goal *)
    unfold a at 1. cbn [equal_values]. rewrite Hkb. fold a w.
    destruct n as [|m]; [split; [intros _ i Hi; lia | reflexivity]|]. cbn [Nat.eqb].
    destruct (Z.eqb (off_at a w (ls + S m) - off_at a w ls) 0 &&
              Z.eqb (off_at a w (ls + S m) - off_at a w ls) (off_at b w (rs + S m) - off_at b w rs)) eqn:Esc.
    - apply andb_true_iff in Esc as [E1 E2]. apply Z.eqb_eq in E1, E2. rewrite E1 in E2.
      rewrite (off_diff Hoa ls (ls + S m) (Nat.le_add_r _ _) Hla) in E1.
      rewrite (off_diff Hob rs (rs + S m) (Nat.le_add_r _ _) Hlb) in E2.
      split; [|reflexivity]. intros _ i Hi _.
      apply (empty_slots ls rs (S m) Hla Hlb); [exact (Nat2Z.inj _ 0 E1) | exact (Nat2Z.inj _ 0 (eq_sym E2)) | exact Hi].
    - pose proof (count_nulls_eq a b ls rs (S m) Hv) as Hc. unfold a in Hc at 1. cbn [p_nulls] in Hc.
      rewrite Hc, Nat.eqb_refl. cbn [negb].
      destruct (Nat.eqb_spec (count_nulls (p_nulls b) rs (S m)) 0) as [Hz|Hnz].
      + assert (Hall : forall i, i < S m -> slot_valid a (ls + i) = true).
        { intros i Hi. rewrite (Hv i Hi). exact (proj1 (count_nulls_zero_iff _ _ _) Hz i Hi). }
        etransitivity; [exact (null_free_path ls rs m Hla Hlb)|].
        split; intros H i Hi; [intros _; now apply H | apply H; auto].
      + assert (Hca : count_nulls anulls ls (S m) <> 0) by (rewrite Hc; exact Hnz).
        assert (Hex : exists ln, anulls = Some ln) by (destruct anulls as [ln|]; [now exists ln | now elim Hca]).
        destruct Hex as [ln Ean]. rewrite Ean. destruct (p_nulls b) as [rn|] eqn:Ebn; [|now elim Hnz].
        apply (slot_loop_if_iff Hv Ean Ebn).
        intros i Hi _. apply slot_range_iff; (eapply Nat.lt_le_trans; [apply Nat.add_lt_mono_l, Hi | eassumption]).
  Qed.
End ListEq.

Lemma spec_node_list a large nullable c : p_ty a = TList large nullable c -> spec_node a = true ->
  exists k, p_kids a = [k] /\ p_ty k = c /\ spec_nulls a = true /\ offs_ok a (offw large) (p_len k).
Proof.
  intros Ht H. unfold spec_node in H. rewrite Ht in H. cbn zeta in H.
  rewrite !andb_true_iff in H. destruct H as (_ & ((((Hn & _) & Hk1) & Hkid) & Hoffs) & _).
  apply Nat.eqb_eq in Hk1. unfold kid_is, kid in Hkid. unfold kid_len, kid in Hoffs.
  destruct (p_kids a) as [|k [|k2 r]] eqn:Ek; cbn [length] in Hk1; try discriminate. cbn [nth_error] in Hkid, Hoffs.
  exists k. split; [reflexivity|]. split; [now apply dty_eqb_eq|]. split; [exact Hn | now apply spec_offsets_ok].
Qed.

Lemma reads_list a large nullable c k kids :
  p_ty a = TList large nullable c -> p_kids a = k :: kids -> offs_ok a (offw large) (p_len k) ->
  reads a (fun i => LList (lslice large a k i)).
Proof.
  intros Ht Hk Hok i Hi. split; [|reflexivity].
  pose proof (noff_mono Hok i Hi) as M1. pose proof (noff_le Hok (S i) (p_len a) ltac:(lia) ltac:(lia)) as M2.
  pose proof (noff_last Hok) as M3.
  pose proof (off_noff Hok i ltac:(lia)) as O1. pose proof (off_noff Hok (S i) ltac:(lia)) as O2.
  unfold lslice, window. rewrite (window_logical k) by lia.
  destruct a as [ty len off nulls bufs ks]. cbn [p_ty p_kids] in Ht, Hk. subst ty ks. cbn [logical_at].
  unfold slot_valid. cbn [p_nulls]. destruct (match nulls with None => true | Some nb => nb_valid nb i end); [|reflexivity]. f_equal.
  unfold off_at, buf in O1, O2. cbn [p_bufs p_off] in O1, O2. rewrite <- Nat.add_assoc, Nat.add_1_r, O1, O2.
  rewrite child_range_nat by (try exact M1; etransitivity; eassumption).
  now rewrite seq_shift_map, map_map.
Qed.

Lemma list_comparable l nl c a b ka kb akids bkids : p_ty a = TList l nl c -> p_ty b = TList l nl c ->
  p_kids a = ka :: akids -> p_kids b = kb :: bkids -> spec_nulls a = true -> spec_nulls b = true ->
  offs_ok a (offw l) (p_len ka) -> offs_ok b (offw l) (p_len kb) -> range_decides ka kb -> comparable a b.
Proof.
  intros Hta Htb Eka Ekb Hna Hnb Hoa Hob Hr.
  apply (slots_comparable a b _ _ Hna Hnb (reads_list a l nl c ka akids Hta Eka Hoa) (reads_list b l nl c kb bkids Htb Ekb Hob)).
  intros s1 s2 m H1 H2 Hv. destruct a as [aty alen aoff anulls abufs aks]. cbn [p_ty p_kids p_len] in *. subst aty aks.
  (* [Hr] is the section's child_ok once range_decides, equal_range and window are unfolded *)
  etransitivity; [exact (list_equal_iff l nl c alen aoff anulls abufs ka akids b kb bkids Ekb Hoa Hob Hr s1 s2 m H1 H2 Hv)|].
  split; intros H i Hi Hval; specialize (H i Hi Hval); congruence.
Qed.

Theorem equal_iff_logical_list_prim large nullable w a b :
  p_ty a = TList large nullable (TFixed w) -> spec_node a = true -> spec_node b = true ->
  (forall k, In k (p_kids a) -> spec_node k = true /\ wf_bytes (buf k 0)) ->
  (forall k, In k (p_kids b) -> spec_node k = true /\ wf_bytes (buf k 0)) ->
  (equal a b = true <-> p_ty a = p_ty b /\ logical a = logical b).
Proof.
  intros Ht Hsa Hsb Hka Hkb. apply equal_iff_comparable. intros Htb. rewrite Ht in Htb. symmetry in Htb.
  destruct (spec_node_list a large nullable (TFixed w) Ht Hsa) as (ka & Eka & Htka & Hna & Hoa).
  destruct (spec_node_list b large nullable (TFixed w) Htb Hsb) as (kb & Ekb & Htkb & Hnb & Hob).
  destruct (Hka ka ltac:(rewrite Eka; now left)) as [Hska Hwka]. destruct (Hkb kb ltac:(rewrite Ekb; now left)) as [Hskb Hwkb].
  apply (list_comparable large nullable (TFixed w) a b ka kb [] []); try assumption.
  now apply comparable_range, (prim_comparable w).
Qed.
