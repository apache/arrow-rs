(* C04 — two developments about the byte-level writer, which do not use each other:
   1. what the writer cuts out of a sliced array (Model/C04_Rebase.v and bit_slice of Model/C04_Write.v):
      Buffer::bit_slice keeps exactly the addressed bits, re-based offsets and truncated buffers the addressed slots;
   2. the byte-level model w_arr (Model/C04_Write.v) emits as many nodes and buffers, and uses up the variadic
      counts, as the type-level walk of Model/C04_Walk.v lists.
   They share the file because both are about what write_array_data puts into one array's buffers: the cuts of 1
   are the buffers w_arr emits, counted in 2. *)
From Coq Require Import List ZArith Lia Bool.
From AV Require Import Base.ListX Base.Bytes Model.C19_Bits Model.C09_Layout Model.C04_Walk Model.C04_Rebase Model.C04_Write Proofs.C04_Walk.
Import ListNotations.

(* 1. slices keep the addressed bits and slots *)

(* byte_of_bits and bytes_of_bits are Bytes.bits_val and Bytes.pack_bytes, by computation *)
Lemma byte_of_bits_testbit l j : N.testbit (byte_of_bits l) (N.of_nat j) = nth j l false.
Proof. exact (bits_val_testbit l j). Qed.

Lemma bit_at_cons_lt x r i : i < 8 -> bit_at (x :: r) i = N.testbit x (N.of_nat i).
Proof. exact (Bytes.bit_at_cons_lt x r i). Qed.
Lemma bit_at_cons_ge x r i : 8 <= i -> bit_at (x :: r) i = bit_at r (i - 8).
Proof. exact (Bytes.bit_at_cons_ge x r i). Qed.

Lemma bit_at_bytes_of_bits : forall fuel l i, i < length l -> length l <= 8 * fuel ->
  bit_at (bytes_of_bits fuel l) i = nth i l false.
Proof. intros fuel l i _. exact (bit_at_pack_bytes fuel l i). Qed.

Lemma ceil8_covers len : len <= 8 * ceil8 len.
Proof. unfold ceil8. pose proof (Nat.div_mod (len + 7) 8). pose proof (Nat.mod_upper_bound (len + 7) 8). lia. Qed.

(* Buffer::bit_slice: bit i of the result is bit off+i of the source, on both paths (shared bytes when the
   offset is byte aligned, re-packed bits otherwise) *)
Theorem bit_slice_spec b off len i : i < len ->
  bit_at (bit_slice b off len) i = bit_at b (off + i).
Proof.
  intros Hi. pose proof (ceil8_covers len) as Hc. unfold bit_slice. destruct (Nat.eqb_spec (off mod 8) 0) as [Ha|Hn].
  - rewrite bit_at_firstn, bit_at_skipn by (apply Nat.div_lt_upper_bound; lia).
    f_equal. pose proof (Nat.div_mod off 8). lia.
  - rewrite bit_at_bytes_of_bits by (rewrite bits_range_length; assumption). apply bits_range_nth, Hi.
Qed.

Lemma monotone_nth prev l : monotone prev l ->
  forall i j, i <= j -> j < length l -> (prev <= nth i l 0 /\ nth i l 0 <= nth j l 0)%Z.
Proof.
  revert prev. induction l as [|x r IH]; intros prev Hm i j Hij Hj; [cbn in Hj; lia|].
  cbn [monotone] in Hm. destruct Hm as [Hpx Hr]. cbn [length] in Hj.
  destruct i as [|i], j as [|j]; cbn [nth]; try lia.
  - destruct (IH x Hr 0 j) as [H1 H2]; [lia|lia|]. lia.
  - destruct (IH x Hr i j) as [H1 H2]; [lia|lia|]. lia.
Qed.

Lemma nth_slice (offs : list Z) off len k : k <= len ->
  nth k (firstn (len + 1) (skipn off offs)) 0%Z = nth (off + k) offs 0%Z.
Proof. intros Hk. rewrite nth_firstn by lia. apply nth_skipn. Qed.

Lemma last_nth {A} (l : list A) d : last l d = nth (length l - 1) l d.
Proof.
  destruct l as [|x l]; [reflexivity|]. rewrite last_cons. cbn [length]. rewrite Nat.sub_1_r. cbn [pred].
  revert x. induction l as [|y l IH]; intros x; [reflexivity|]. rewrite last_cons. apply IH.
Qed.

Lemma window_of_window {A} (l : list A) a n b m : b + m <= n ->
  firstn m (skipn b (firstn n (skipn a l))) = firstn m (skipn (a + b) l).
Proof.
  intros H. rewrite skipn_firstn_comm, firstn_firstn, skipn_skipn. f_equal. lia.
Qed.

Lemma reencode_spec offs off len : off + len + 1 <= length offs ->
  let '(o', start, n) := reencode_offsets offs off len in
  (forall k, k <= len -> nth k o' 0%Z = (nth (off + k) offs 0 - nth off offs 0)%Z) /\
  start = Z.to_nat (nth off offs 0%Z) /\ n = Z.to_nat (nth (off + len) offs 0 - nth off offs 0)%Z /\
  length o' = len + 1.
Proof.
  intros Hl. unfold reencode_offsets. cbv zeta.
  set (sl := firstn (len + 1) (skipn off offs)).
  assert (Hlen : length sl = len + 1) by (unfold sl; rewrite firstn_length, skipn_length; lia).
  assert (Hhd : hd 0%Z sl = nth off offs 0%Z).
  { replace (hd 0%Z sl) with (nth 0 sl 0%Z) by (destruct sl; reflexivity). unfold sl. rewrite nth_slice by lia. f_equal. lia. }
  assert (Hlast : last sl 0%Z = nth (off + len) offs 0%Z).
  { rewrite last_nth, Hlen. replace (len + 1 - 1) with len by lia. unfold sl. now rewrite nth_slice by lia. }
  rewrite Hhd, Hlast. repeat split.
  - intros k Hk. destruct (Z.eqb_spec (nth off offs 0%Z) 0) as [E|E].
    + unfold sl. rewrite nth_slice by lia. lia.
    + rewrite (nth_map_lt _ sl k 0%Z 0%Z) by lia. unfold sl. now rewrite nth_slice by lia.
  - destruct (Z.eqb (nth off offs 0%Z) 0); [exact Hlen|now rewrite map_length].
Qed.

(* Re-basing preserves every slot: slot i of the written (offsets, values) is slot off+i of the original
   array, for every non-negative, non-decreasing offsets buffer, every array offset and length, including a
   non-zero first offset.  That the offsets lie within the values is not needed: a slot is cut with firstn / skipn. *)
Theorem rebase_logical_slots {A} (offs : list Z) (values : list A) (off len i : nat) :
  monotone 0 offs -> off + len + 1 <= length offs -> i < len ->
  let '(o', v') := rebase offs values off len in
  var_slot o' v' i = var_slot offs values (off + i) /\ length o' = len + 1 /\ nth 0 o' 0%Z = 0%Z.
Proof.
  intros Hm Hl Hi. unfold rebase.
  destruct (Nat.eqb_spec len 0) as [E|_]; [lia|].
  pose proof (reencode_spec offs off len Hl) as H.
  destruct (reencode_offsets offs off len) as [[o' start] n]. destruct H as (Hnth & -> & -> & Elen).
  split; [|split; [exact Elen|rewrite Hnth, Nat.add_0_r by lia; lia]].
  unfold var_slot. cbv zeta. rewrite !Hnth by lia. replace (S (off + i)) with (off + S i) by lia.
  (* the four offsets involved are ordered: 0 <= a <= b <= c <= d; the rest is about them alone *)
  destruct (monotone_nth 0 offs Hm off (off + i)) as [Ha Hb]; [lia|lia|].
  destruct (monotone_nth 0 offs Hm (off + i) (off + S i)) as [_ Hc]; [lia|lia|].
  destruct (monotone_nth 0 offs Hm (off + S i) (off + len)) as [_ Hd]; [lia|lia|].
  set (a := nth off offs 0%Z) in *. set (b := nth (off + i) offs 0%Z) in *.
  set (c := nth (off + S i) offs 0%Z) in *. set (d := nth (off + len) offs 0%Z) in *.
  clearbody a b c d. clear - Ha Hb Hc Hd.
  rewrite <- (Z2Nat.inj_sub (c - a) (b - a)), <- (Z2Nat.inj_sub c b) by lia.
  replace (c - a - (b - a))%Z with (c - b)%Z by lia.
  rewrite window_of_window by lia. f_equal. f_equal. lia.
Qed.

(* fixed-width truncation keeps exactly the addressed elements; a buffer shorter than the addressed range is
   kept whole from the offset on, so no bound on its length is needed *)
Theorem truncate_fixed_slots (b : list N) (w off len i : nat) :
  i < len -> fixed_slot (truncate_fixed b w off len) w i = fixed_slot b w (off + i).
Proof.
  intros Hi. unfold truncate_fixed, fixed_slot. cbv zeta.
  destruct (negb (off =? 0) || (len * w <? length b)) eqn:E.
  - pose proof (Nat.mul_le_mono_r (S i) len w Hi) as Hw.
    destruct (Nat.le_gt_cases (len * w) (length b - off * w)).
    + rewrite Nat.min_l, window_of_window by lia. f_equal. f_equal. lia.
    + rewrite Nat.min_r, (firstn_all2 (n := length b - off * w)), skipn_skipn by (rewrite ?skipn_length; lia).
      f_equal. f_equal. lia.
  - apply orb_false_iff in E. destruct E as [E1 _]. apply negb_false_iff, Nat.eqb_eq in E1. subst. reflexivity.
Qed.

(* 2. w_arr emits the nodes and buffers the walk lists *)

(* the output [o] has as many nodes and buffers as the walk result [res] lists, and the walk left the supply [q];
   [counts_ok] and the conclusion of [thread_counts] below are this, written out *)
Definition counted (o : wout) (q : list nat) (res : list token * list nat) : Prop :=
  let '(toks, rest) := res in
  length (fst o) = nodes_of toks /\ length (snd o) = length (bufs_of toks) /\ rest = q.

Definition counts_ok (v5 : bool) (t : dty) (k : parr) (o : wout) : Prop :=
  forall q, let '(toks, rest) := w_walk t v5 (var_counts k ++ q) in
            length (fst o) = nodes_of toks /\ length (snd o) = length (bufs_of toks) /\ rest = q.


Lemma wcat_fst x y : fst (wcat x y) = fst x ++ fst y. Proof. reflexivity. Qed.
Lemma wcat_snd x y : snd (wcat x y) = snd x ++ snd y. Proof. reflexivity. Qed.
Lemma wcat_assoc x y z : wcat (wcat x y) z = wcat x (wcat y z).
Proof. unfold wcat. cbn [fst snd]. now rewrite !app_assoc. Qed.

Lemma counted_wcat x pfx o q tc r :
  length (fst x) = nodes_of pfx -> length (snd x) = length (bufs_of pfx) ->
  counted o q (tc, r) -> counted (wcat x o) q (pfx ++ tc, r).
Proof.
  intros H1 H2 (H3 & H4 & H5). unfold counted.
  rewrite wcat_fst, wcat_snd, nodes_app, bufs_app, !app_length, H1, H2, H3, H4. auto.
Qed.

(* the field node and the optional validity buffer: writer and walk test the same [has_validity t v5] *)
Lemma counted_pre t v5 node v o q tc r : counted o q (tc, r) ->
  counted (wcat ([node], if has_validity t v5 then [v] else []) o) q
          ((TokNode :: if has_validity t v5 then [TokBuf BValidity] else []) ++ tc, r).
Proof. apply counted_wcat; destruct (has_validity t v5); reflexivity. Qed.

Lemma counted_bufs (bs : list (list N)) ks o q tc r : length bs = length ks ->
  counted o q (tc, r) -> counted (wcat ([], bs) o) q (map TokBuf ks ++ tc, r).
Proof. intros H. apply counted_wcat; [now rewrite nodes_map_buf|now rewrite bufs_map_buf]. Qed.

(* if each child's output is counted against its field's walk, their concatenation is counted against the
   threaded walk: the conclusion is [counted (wconcat (map F ks)) q (thread …)] *)
Lemma thread_counts {A} (sel : A -> dty) v5 (F : parr -> wout) :
  forall (fs : list A) (ks : list parr),
  Forall2 (fun f k => counts_ok v5 (sel f) k (F k)) fs ks ->
  forall q, let '(toks, rest) := thread (fun p => w_walk (sel p) v5) fs (flat_map var_counts ks ++ q) in
            length (fst (wconcat (map F ks))) = nodes_of toks /\
            length (snd (wconcat (map F ks))) = length (bufs_of toks) /\ rest = q.
Proof.
  induction 1 as [|f k fs ks Hfk Hrest IH]; intros q.
  - cbn. repeat split; reflexivity.
  - cbn [flat_map map wconcat fold_right thread]. rewrite <- app_assoc.
    specialize (Hfk (flat_map var_counts ks ++ q)). specialize (IH q). fold (wconcat (map F ks)) in *.
    destruct (w_walk (sel f) v5 _) as [t1 r1]. destruct Hfk as (H1 & H2 & ->).
    destruct (thread _ fs _) as [t2 r2].
    exact (counted_wcat _ _ _ _ _ _ H1 H2 IH).
Qed.

Lemma depth_kid a k : In k (p_kids a) -> depth k < depth a.
Proof.
  destruct a as [ty len off nulls bufs kids]. cbn [p_kids depth]. intros Hin.
  induction kids as [|x r IH]; [destruct Hin|]. cbn [fold_right]. destruct Hin as [->|Hin]; [lia|]. specialize (IH Hin). lia.
Qed.

(* the run ends of a run array are a primitive array without children ([shaped] asks for exactly that): one
   node, validity and values under both versions *)
Lemma w_arr_fixed f v5 w len off nulls bufs s l p : 0 < f ->
  length (fst (w_arr f v5 (PArr (TFixed w) len off nulls bufs []) s l p)) = 1 /\
  length (snd (w_arr f v5 (PArr (TFixed w) len off nulls bufs []) s l p)) = 2.
Proof. intros Hf. destruct f as [|f]; [lia|]. destruct v5; cbn; split; reflexivity. Qed.

(* [w_arr] with fuel [f] counts right on every array it has fuel for *)
Definition arr_ok (f : nat) (v5 : bool) : Prop :=
  forall t a, shaped t a -> depth a < f ->
  forall s l proper q, counted (w_arr f v5 a s l proper) q (w_walk t v5 (var_counts a ++ q)).

(* [shaped] on the fields of a struct or union, read as a relation between the two lists *)
Lemma shaped_fields {A} (fs : list (A * dty)) : forall ks,
  (fix go (fs : list (A * dty)) (ks : list parr) : Prop :=
     match fs, ks with
     | [], [] => True
     | f :: fs', k :: ks' => shaped (snd f) k /\ go fs' ks'
     | _, _ => False
     end) fs ks ->
  Forall2 (fun p k => shaped (snd p) k) fs ks.
Proof.
  induction fs as [|p fs IH]; intros [|k ks] H; try contradiction; constructor; [apply H|apply IH, H].
Qed.

(* the children of a struct or union, child [c] written as the slice [gs c], [gl c], [gp c] *)
Lemma kids_counted {A} v5 f (gs gl : parr -> nat) (gp : parr -> bool) : arr_ok f v5 ->
  forall (fs : list (A * dty)) ks, Forall2 (fun p k => shaped (snd p) k) fs ks ->
  (forall k, In k ks -> depth k < f) ->
  forall q, counted (wconcat (map (fun c => w_arr f v5 c (gs c) (gl c) (gp c)) ks)) q
                    (thread (fun p => w_walk (snd p) v5) fs (flat_map var_counts ks ++ q)).
Proof.
  intros IH fs ks Hk Hd. apply (thread_counts snd).
  induction Hk as [|p k fs ks Hpk _ IHk]; constructor.
  - intros q. apply IH; [exact Hpk|apply Hd; now left].
  - apply IHk. intros k' Hin. apply Hd. now right.
Qed.

(* By induction on the fuel, which is what [w_arr] recurses on: one unit is spent on an array of type [t], and its
   children, of the types [shaped] gives them, are less deep than the fuel that is left. *)
Theorem w_arr_counts v5 : forall t a, shaped t a ->
  forall fuel s l proper, depth a < fuel -> counts_ok v5 t a (w_arr fuel v5 a s l proper).
Proof.
  enough (H : forall f, arr_ok f v5) by (intros t a Hs fuel s l proper Hd q; exact (H fuel t a Hs Hd s l proper q)).
  induction f as [|f IH]; intros t a Hs Hd s l proper q; [lia|].
  destruct a as [ty len off nulls bufs kids].
  assert (ty = t) as -> by (destruct t; apply Hs).
  assert (Hkd : forall k, In k kids -> depth k < f).
  { intros k Hin. pose proof (depth_kid (PArr t len off nulls bufs kids) k Hin). lia. }
  destruct t as [ | |w|n|lg u|u|lg nb c|lg nb c|sz nb c|fs|w sg v|rw v|d fs];
    destruct Hs as [_ Hs]; cbn [p_kids p_bufs] in Hs.
  - (* null *) subst kids. cbn [w_arr p_ty w_walk var_counts flat_map app]. destruct v5; repeat split.
  - (* boolean *) subst kids. cbn [w_arr p_ty w_walk var_counts flat_map app]. apply counted_pre. repeat split.
  - (* primitive *) subst kids. cbn [w_arr p_ty w_walk var_counts flat_map app]. apply counted_pre. repeat split.
  - (* fixed size binary *) subst kids. cbn [w_arr p_ty w_walk var_counts flat_map app]. apply counted_pre. repeat split.
  - (* binary / utf8 *) subst kids. cbn [w_arr p_ty w_walk var_counts flat_map app].
    destruct (l =? 0).
    + (* empty: the offset 0 and no data *) apply counted_pre. repeat split.
    + (* offsets re-based or shared, data cut *)
      destruct (reencode_bytes _ _ _ _) as [[ob st] n]. apply counted_pre. repeat split.
  - (* view: the variadic buffers are all but the first *)
    destruct bufs as [|b0 br]; [now destruct Hs|].
    cbn [w_arr p_ty p_bufs tl var_counts length Nat.sub app]. rewrite Nat.sub_0_r. cbn [w_walk].
    apply counted_pre. repeat split; cbn [snd length bufs_of]; [now rewrite nodes_cons_buf, nodes_repeat|now rewrite bufs_repeat, repeat_length].
  - (* list *) destruct Hs as (k & -> & Hsk). pose proof (fun s l p => IH c k Hsk (Hkd k (or_introl eq_refl)) s l p q) as K.
    cbn [w_arr p_ty p_kids nth w_walk var_counts flat_map]. rewrite app_nil_r. destruct (w_walk c v5 _) as [tc r].
    destruct (l =? 0).
    + (* empty: the offset 0, then an empty slice of the child *)
      rewrite wcat_assoc. apply counted_pre, (counted_bufs [_] [BOffsets]), K. reflexivity.
    + (* offsets re-based or shared, then the addressed slice of the child *)
      destruct (reencode_bytes _ _ _ _) as [[ob st] n].
      rewrite wcat_assoc. apply counted_pre, (counted_bufs [_] [BOffsets]), K. reflexivity.
  - (* list view *) destruct Hs as (k & -> & Hsk). pose proof (fun s l p => IH c k Hsk (Hkd k (or_introl eq_refl)) s l p q) as K.
    cbn [w_arr p_ty p_kids nth w_walk var_counts flat_map]. rewrite app_nil_r. destruct (w_walk c v5 _) as [tc r].
    (* empty or not, offsets and sizes are two buffers before the child *)
    destruct (l =? 0); rewrite wcat_assoc; apply counted_pre, (counted_bufs [_; _] [BOffsets; BSizes]), K; reflexivity.
  - (* fixed size list *) destruct Hs as (k & -> & Hsk). pose proof (fun s l p => IH c k Hsk (Hkd k (or_introl eq_refl)) s l p q) as K.
    cbn [w_arr p_ty p_kids nth w_walk var_counts flat_map]. rewrite app_nil_r. destruct (w_walk c v5 _) as [tc r].
    apply counted_pre, K.
  - (* struct *)
    pose proof (kids_counted v5 f (fun _ => s) (fun _ => l) (fun _ => proper) IH fs kids (shaped_fields fs kids Hs) Hkd q) as K.
    cbn [w_arr p_ty p_kids w_walk var_counts].
    destruct (thread _ fs _) as [tc r]. apply counted_pre, K.
  - (* dictionary: the values are not visited *)
    cbn [w_arr p_ty w_walk var_counts app]. apply counted_pre. repeat split.
  - (* run-end encoded: the run ends (whole or re-based) are a primitive array, then the values *)
    destruct Hs as (re & k & -> & Hre & Hrk & Hsk).
    destruct re as [rty rlen roff rnulls rbufs rkids]. cbn [p_ty p_kids] in Hre, Hrk. subst rty rkids.
    pose proof (fun s l p => IH v k Hsk (Hkd k (or_intror (or_introl eq_refl))) s l p q) as K.
    destruct (w_arr_fixed f v5 rw rlen roff rnulls rbufs 0 rlen false) as [R1 R2];
      [specialize (Hkd k (or_intror (or_introl eq_refl))); lia|].
    cbn [w_arr p_ty p_kids p_off p_len nth w_walk var_counts flat_map app]. rewrite app_nil_r.
    destruct (w_walk v v5 _) as [tc r].
    destruct (_ && _).
    + (* the run ends written whole, by w_arr itself *)
      apply counted_pre, (counted_wcat _ [TokNode; TokBuf BValidity; TokBuf BValues]), K; [exact R1|exact R2].
    + (* the re-based run ends: one node, validity and values, written out in w_arr *)
      apply counted_pre, (counted_wcat _ [TokNode; TokBuf BValidity; TokBuf BValues]), K; reflexivity.
  - (* union *) destruct Hs as [Hb Hk]. apply shaped_fields in Hk.
    pose proof (kids_counted v5 f (fun _ => 0) p_len (fun _ => false) IH fs kids Hk Hkd q) as Kwhole.
    pose proof (kids_counted v5 f (fun _ => off + s) (fun _ => l) (fun _ => true) IH fs kids Hk Hkd q) as Ksliced.
    cbn [w_arr p_ty p_kids p_off p_bufs w_walk var_counts].
    destruct (thread _ fs _) as [tc r].
    destruct proper, d; apply counted_pre.
    + (* Array-level slice, dense *) apply (counted_bufs [_; _] [BTypeIds; BUOffsets]); [reflexivity|exact Kwhole].
    + (* Array-level slice, sparse *) apply (counted_bufs [_] [BTypeIds]); [reflexivity|exact Ksliced].
    + (* buffers as they are, dense *) apply (counted_bufs bufs [BTypeIds; BUOffsets]); [exact Hb|exact Kwhole].
    + (* buffers as they are, sparse *) apply (counted_bufs bufs [BTypeIds]); [exact Hb|exact Kwhole].
Qed.
