(* C07 — the arrow byte-array encoder path (compute_min_max with Ord::min/Ord::max, then the
   is_none_or comparisons): the accumulated bounds are the lexicographic extrema. *)
From Coq Require Import List Bool.
From AV Require Import Model.C07_Trunc Model.C07_Stats Proofs.C07_Trunc Proofs.C07_MinMax.
Import ListNotations.

Lemma lexle_trans a b c : lex_leb a b = true -> lex_leb b c = true -> lex_leb a c = true.
Proof. rewrite !lex_leb_spec. apply lex_le_trans. Qed.
Lemma lexle_total a b : lex_leb a b = true \/ lex_leb b a = true.
Proof.
  rewrite !lex_leb_spec. rewrite (lex_antisym a b). destruct (lex a b); cbn [CompOpp]; [left|left|right]; discriminate.
Qed.
Lemma lexgt_spec a b : lex_gtb a b = negb (lex_leb a b).
Proof. unfold lex_leb. now rewrite negb_involutive. Qed.

Definition lex_ok := le_ok bytes lex_gtb lex_leb lexle_trans lexle_total lexgt_spec.
Definition lex_ok' := ge_ok bytes lex_gtb lex_leb lexle_trans lexle_total lexgt_spec.

(* The byte-array path is the generic accumulation for a column without NaNs ([nan_last ord] is then
   [ord] by computation): Ord::min / Ord::max are [pick], and ba_write merges with update_min/update_max. *)
Notation nonan := (fun _ : bytes => false).
Notation bmin := (is_min bytes nonan lex_leb).
Notation bmax := (is_max bytes nonan lex_leb).

Lemma ord_min_pick mn v : ord_min mn v = pick bytes nonan lex_gtb mn v.
Proof. unfold ord_min, pick, nan_last_gt, lex_gtb. now destruct (lex mn v). Qed.

Lemma ord_max_pick mx v : ord_max mx v = pick bytes nonan (flip bytes lex_gtb) mx v.
Proof.
  unfold ord_max, pick, nan_last_gt, flip, lex_gtb. rewrite (lex_antisym mx v).
  destruct (lex mx v) eqn:E; cbn [CompOpp negb andb]; try reflexivity.
  (* on a tie Ord::max returns its second argument and pick keeps the bound: they are the same string *)
  symmetry. now apply lex_eq.
Qed.

Lemma ba_loop_spec vs : forall seen mn mx, bmin seen mn -> bmax seen mx ->
  bmin (seen ++ vs) (fst (ba_loop vs mn mx)) /\ bmax (seen ++ vs) (snd (ba_loop vs mn mx)).
Proof.
  induction vs as [|v vs IH]; intros seen mn mx Hmn Hmx; cbn [ba_loop fst snd].
  - now rewrite app_nil_r.
  - replace (seen ++ v :: vs) with ((seen ++ [v]) ++ vs) by (now rewrite <- app_assoc).
    rewrite ord_min_pick, ord_max_pick. apply IH.
    + exact (extremum_union bytes nonan _ _ _ _ _ _ lex_ok Hmn (extremum_single bytes nonan _ _ v lex_ok)).
    + exact (extremum_union bytes nonan _ _ _ _ _ _ lex_ok' Hmx (extremum_single bytes nonan _ _ v lex_ok')).
Qed.

Lemma ba_compute_spec vs mn mx : ba_compute_min_max vs = Some (mn, mx) -> bmin vs mn /\ bmax vs mx.
Proof.
  destruct vs as [|f r]; [discriminate|]. cbn [ba_compute_min_max]. intros H. inversion H as [E].
  pose proof (ba_loop_spec r [f] f f (extremum_single bytes nonan _ _ f lex_ok) (extremum_single bytes nonan _ _ f lex_ok')) as K.
  rewrite E in K. exact K.
Qed.

Lemma ba_write_update s st mn mx : ba_compute_min_max s = Some (mn, mx) ->
  ba_write s st = (update_min lex_gtb nonan mn (fst st), update_max lex_gtb nonan mx (snd st)).
Proof.
  intros E. unfold ba_write. rewrite E.
  destruct st as [[a|] [b|]]; cbn [fst snd update_min update_max]; now rewrite <- ?lex_gtb_flip.
Qed.

Notation ba_ok seen st := (bounds bytes nonan lex_leb seen (fst st) (snd st)).

Lemma ba_write_ok seen st s : ba_ok seen st -> ba_ok (seen ++ s) (ba_write s st).
Proof.
  intros H. destruct (ba_compute_min_max s) as [[mn mx]|] eqn:E.
  - rewrite (ba_write_update s st mn mx E). apply ba_compute_spec in E as [Hmn Hmx]. cbn [fst snd].
    now apply (bounds_update bytes lex_gtb nonan lex_leb lexle_trans lexle_total lexgt_spec).
  - unfold ba_write. rewrite E. destruct s; [now rewrite app_nil_r|discriminate].
Qed.

Theorem ba_fold_bounds batches mn mx :
  fold_left (fun st s => ba_write s st) batches (None, None) = (Some mn, Some mx) ->
  let vs := concat batches in
  In mn vs /\ In mx vs /\ forall v, In v vs -> lex mn v <> Gt /\ lex v mx <> Gt.
Proof.
  intros H vs.
  pose proof (fold_left_concat_inv _ (fun seen st => ba_ok seen st) ba_write_ok batches (None, None) eq_refl) as K.
  rewrite H in K. destruct K as [Ha Hb].
  destruct (bounds_sound bytes nonan lex_leb vs mn mx Ha Hb) as (I1 & I2 & B).
  split; [exact I1|]. split; [exact I2|]. intros v Hv. rewrite <- !lex_leb_spec. now apply B.
Qed.
