(* C02 — selecting rows.  The model's [slice] (ArrayData::slice as arrow-rs runs it on every type but Struct: offset
   advanced, children untouched) is a window on the logical content whatever the type; [slice_struct]
   (StructArray::slice) is one too; ArrayData::slice on a Struct ([slice_data_struct]) is not.  Row-wise kernels
   commute with row selection whenever the kernel succeeds on the whole input. *)
From Coq Require Import List Arith NArith Lia.
From AV Require Import Base.ListX Model.C09_Layout Model.C02_Logical Model.C02_Rows Proofs.C02_EqualNulls.
Import ListNotations.

Lemma nb_valid_slice nb o n i : nb_valid (slice_nulls nb o n) i = nb_valid nb (o + i).
Proof. unfold nb_valid, slice_nulls; cbn [nb_bytes nb_off]. now rewrite Nat.add_assoc. Qed.

Lemma valid_in_slice nulls o n i :
  valid_in (match nulls with Some nb => Some (slice_nulls nb o n) | None => None end) i = valid_in nulls (o + i).
Proof. destruct nulls as [nb|]; [apply nb_valid_slice | reflexivity]. Qed.

(* the slot i of a slice is the slot o+i of the array: no bound is needed *)
Lemma logical_at_slice a o n i : logical_at (slice a o n) i = logical_at a (o + i).
Proof.
  destruct a as [ty len off nulls bufs kids]. cbn [slice].
  pose proof (valid_in_slice nulls o n i) as Hv. unfold valid_in in Hv.
  destruct ty; cbn [logical_at]; rewrite ?Hv, <- ?Nat.add_assoc; reflexivity.
Qed.

Lemma p_len_slice a o n : p_len (slice a o n) = n.
Proof. now destruct a. Qed.

Theorem slice_logical_all a o n : o + n <= p_len a ->
  logical (slice a o n) = firstn n (skipn o (logical a)).
Proof.
  intros H. unfold logical. rewrite p_len_slice, (window_map _ o n (p_len a) H).
  apply map_ext. intros i. apply logical_at_slice.
Qed.

(* StructArray::slice: every child sliced, offset 0 *)
Theorem slice_struct_logical fs len off nulls bufs kids o n : o + n <= len ->
  logical (slice_struct (PArr (TStruct fs) len off nulls bufs kids) o n)
  = firstn n (skipn o (logical (PArr (TStruct fs) len off nulls bufs kids))).
Proof.
  intros H. unfold logical. cbn [slice_struct p_len]. rewrite (window_map _ o n len H).
  apply map_ext. intros i. cbn [logical_at].
  pose proof (valid_in_slice nulls o n i) as Hv. unfold valid_in in Hv. rewrite Hv.
  destruct (match nulls with None => true | Some nb => nb_valid nb (o + i) end); [|reflexivity].
  f_equal. rewrite map_map. apply map_ext. intros k. rewrite logical_at_slice. f_equal. lia.
Qed.

(* finding F3: ArrayData::slice on a Struct advances the offset AND slices the children, so read with
   the format's meaning of offset (which StructArray::from(ArrayData) applies) the fields are shifted
   twice: the window theorem is FALSE for it *)
Definition f3_witness : parr :=
  PArr (TStruct [(true, TFixed 1)]) 3 0 None [] [PArr (TFixed 1) 3 0 None [[10; 20; 30]%N] []].
Theorem arraydata_slice_struct_refuted :
  exists a o n, o + n <= p_len a /\ logical (slice_data_struct a o n) <> firstn n (skipn o (logical a)).
Proof. exists f3_witness, 1, 1. split; [cbn; lia|]. vm_compute. discriminate. Qed.

Lemma try_map_rows_nth f xs ys : try_map_rows f xs = Some ys ->
  length ys = length xs /\ forall i, i < length xs -> f (nth i xs LNull) = Some (nth i ys LNull).
Proof.
  revert ys. induction xs as [|x r IH]; intros ys H; cbn [try_map_rows] in H.
  - injection H as <-. split; [reflexivity | intros i Hi; cbn [length] in Hi; lia].
  - destruct (f x) as [y|] eqn:Ex; [|discriminate]. destruct (try_map_rows f r) as [ys'|] eqn:Er; [|discriminate].
    injection H as <-. destruct (IH ys' eq_refl) as [Hl Hn]. split; [cbn [length]; lia|].
    intros i Hi. destruct i as [|i]; cbn [nth]; [exact Ex|]. apply Hn. cbn [length] in Hi. lia.
Qed.

Lemma try_map_rows_build f xs ys : length ys = length xs ->
  (forall i, i < length xs -> f (nth i xs LNull) = Some (nth i ys LNull)) -> try_map_rows f xs = Some ys.
Proof.
  revert ys. induction xs as [|x r IH]; intros [|y ys] Hl H; cbn [length] in Hl; try discriminate; [reflexivity|].
  cbn [try_map_rows]. pose proof (H 0 ltac:(cbn [length]; lia)) as H0. cbn [nth] in H0. rewrite H0.
  rewrite (IH ys ltac:(lia)); [reflexivity|]. intros i Hi. apply (H (S i)). cbn [length]. lia.
Qed.

Theorem rowwise_commutes_take f xs ys idx :
  f LNull = Some LNull -> try_map_rows f xs = Some ys ->
  try_map_rows f (take_l xs idx) = Some (take_l ys idx).
Proof.
  intros Hnull H. destruct (try_map_rows_nth f xs ys H) as [Hl Hn].
  apply try_map_rows_build; [unfold take_l; now rewrite !map_length|].
  unfold take_l. rewrite map_length. intros i Hi.
  rewrite !(nth_map_lt _ idx i LNull None Hi). destruct (nth i idx None) as [j|]; [|exact Hnull].
  destruct (Nat.lt_ge_cases j (length xs)) as [Hj|Hj]; [now apply Hn|].
  rewrite !nth_overflow by lia. exact Hnull.
Qed.

Theorem rowwise_commutes_slice f xs ys o n :
  try_map_rows f xs = Some ys -> try_map_rows f (slice_l xs o n) = Some (slice_l ys o n).
Proof.
  intros H. destruct (try_map_rows_nth f xs ys H) as [Hl Hn]. unfold slice_l.
  apply try_map_rows_build; [rewrite !firstn_length, !skipn_length; lia|].
  rewrite firstn_length, skipn_length. intros i Hi.
  rewrite !nth_firstn by lia. rewrite !nth_skipn. apply Hn. lia.
Qed.

Theorem rowwise_commutes_concat f xs1 xs2 ys1 ys2 :
  try_map_rows f xs1 = Some ys1 -> try_map_rows f xs2 = Some ys2 ->
  try_map_rows f (xs1 ++ xs2) = Some (ys1 ++ ys2).
Proof.
  revert ys1. induction xs1 as [|x r IH]; intros ys1 H1 H2; cbn [try_map_rows app] in *.
  - injection H1 as <-. exact H2.
  - destruct (f x) as [y|]; [|discriminate]. destruct (try_map_rows f r) as [ys'|] eqn:Er; [|discriminate].
    injection H1 as <-. now rewrite (IH ys' eq_refl H2).
Qed.

Theorem rowwise_concat_inv f xs1 xs2 ys :
  try_map_rows f (xs1 ++ xs2) = Some ys ->
  exists ys1 ys2, try_map_rows f xs1 = Some ys1 /\ try_map_rows f xs2 = Some ys2 /\ ys = ys1 ++ ys2.
Proof.
  revert ys. induction xs1 as [|x r IH]; intros ys H; cbn [try_map_rows app] in *.
  - exists [], ys. tauto.
  - destruct (f x) as [y|]; [|discriminate]. destruct (try_map_rows f (r ++ xs2)) as [ys'|] eqn:Er; [|discriminate].
    injection H as <-. destruct (IH ys' eq_refl) as (y1 & y2 & E1 & E2 & ->).
    exists (y :: y1), y2. rewrite E1. tauto.
Qed.
