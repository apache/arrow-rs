(* C08 — the IPC node / buffer cursors.  `took body s s' kn kb` (from s to s' the cursors advanced over kn nodes and kb
   in-bounds buffers) is reflexive and composes; each primitive of the walk takes its share, and a field tree that passes
   took what its type prescribes. *)
From Coq Require Import List ZArith Lia.
From AV Require Import Model.C08_Ipc.
Import ListNotations.
Local Open Scope Z_scope.

(* the i64 range is what the flatbuffers Buffer struct provides *)
Lemma as_usize_i64 x : - 2^63 <= x < 2^63 -> as_usize x = if x <? 0 then x + 2^64 else x.
Proof.
  intros [H1 H2]. unfold as_usize. destruct (Z.ltb_spec x 0).
  - symmetry. apply (Z.mod_unique x (2^64) (-1)); lia.
  - apply Z.mod_small. lia.
Qed.

(* a negative offset or length becomes a usize of at least 2^63, beyond any body *)
Theorem buffer_guard_iff body off len : 0 <= body < 2^63 -> - 2^63 <= off < 2^63 -> - 2^63 <= len < 2^63 ->
  (buffer_in_bounds body (off, len) = true <-> (0 <= off /\ 0 <= len /\ off + len <= body)).
Proof.
  intros Hb Ho Hl. unfold buffer_in_bounds, sat_add. cbn [fst snd].
  rewrite Z.leb_le, (as_usize_i64 off Ho), (as_usize_i64 len Hl).
  destruct (Z.ltb_spec off 0), (Z.ltb_spec len 0); lia.
Qed.

Definition in_bounds_all body (l : list (Z * Z)) : Prop := Forall (fun b => buffer_in_bounds body b = true) l.

(* from s to s' the cursors advanced over kn nodes and kb buffers, every one of these buffers inside the body *)
Definition took body (s s' : st) (kn kb : nat) : Prop :=
  exists un ub, nodes s = un ++ nodes s' /\ bufs s = ub ++ bufs s' /\
                length un = kn /\ length ub = kb /\ in_bounds_all body ub.

Lemma took_refl body s : took body s s 0 0.
Proof. exists [], []. repeat split. constructor. Qed.

Lemma took_trans body s1 s2 s3 a b c d :
  took body s1 s2 a b -> took body s2 s3 c d -> took body s1 s3 (a + c) (b + d).
Proof.
  intros (un & ub & H1 & H2 & <- & <- & H5) (un' & ub' & G1 & G2 & <- & <- & G5).
  exists (un ++ un'), (ub ++ ub'). rewrite H1, G1, H2, G2, !app_assoc, !app_length.
  repeat split. apply Forall_app. split; assumption.
Qed.

Lemma next_node_took body s n s1 : next_node s = Some (n, s1) -> took body s s1 1 0.
Proof.
  unfold next_node. destruct (nodes s) as [|n0 r] eqn:En; [discriminate|]. intros [= <- <-].
  exists [n0], []. repeat split; [exact En|constructor].
Qed.

Lemma next_buffers_took k : forall body s s', next_buffers k body s = (Pass, s') -> took body s s' 0 k.
Proof.
  induction k as [|k IH]; intros body s s'; cbn [next_buffers]; [intros [= <-]; apply took_refl|].
  destruct (bufs s) as [|b r] eqn:Eb; [discriminate|].
  destruct (buffer_in_bounds body b) eqn:Ei; [|discriminate].
  intros H. apply (took_trans body s {| nodes := nodes s; bufs := r |} s' 0 1 0 k); [|exact (IH _ _ _ H)].
  exists [], [b]. repeat split; [exact Eb|constructor; [exact Ei|constructor]].
Qed.

Lemma next_buffers_never_passes_short k body s : (length (bufs s) < k)%nat -> fst (next_buffers k body s) <> Pass.
Proof.
  revert s. induction k as [|k IH]; intros s Hl; [lia|]. cbn [next_buffers].
  destruct (bufs s) as [|b r] eqn:Eb; [cbn; discriminate|].
  destruct (buffer_in_bounds body b); [|cbn; discriminate].
  apply IH. cbn [bufs]. cbn in Hl. lia.
Qed.

Lemma finish_gen_pass ok r s' : finish_gen ok r = (Pass, s') -> r = (Pass, s') /\ ok = true.
Proof.
  unfold finish_gen. destruct r as [[] s]; try discriminate.
  destruct ok; [|discriminate]. intros [= <-]. split; reflexivity.
Qed.
Lemma finish_pass n vb r s' : finish n vb r = (Pass, s') -> r = (Pass, s') /\ validity_ok n vb = true.
Proof. apply finish_gen_pass. Qed.

Definition walk_ok (t : fty) : Prop := forall body s s', walk t body s = (Pass, s') ->
  took body s s' (n_nodes t) (n_bufs t).

(* every field starts with its node and its own k buffers; what follows continues from there *)
Lemma walk_header k (rest : (Z * Z) -> st -> st -> ev * st) body s s' kn kb :
  (forall n s1 s2, rest n s1 s2 = (Pass, s') -> took body s2 s' kn kb) ->
  match next_node s with
  | None => (CursorErr, s)
  | Some (n, s1) => match next_buffers k body s1 with (Pass, s2) => rest n s1 s2 | r => r end
  end = (Pass, s') -> took body s s' (S kn) (k + kb).
Proof.
  intros Hrest. destruct (next_node s) as [[n s1]|] eqn:En; [|discriminate].
  destruct (next_buffers k body s1) as [[] s2] eqn:Eb; try discriminate. intros H.
  exact (took_trans _ _ _ _ 1 0 _ _ (next_node_took body _ _ _ En)
           (took_trans _ _ _ _ 0 k _ _ (next_buffers_took _ _ _ _ Eb) (Hrest _ _ _ H))).
Qed.

Lemma walk_leaf k body s s' :
  match next_node s with
  | None => (CursorErr, s)
  | Some (n, s1) => finish n (first_buf s1) (next_buffers k body s1)
  end = (Pass, s') -> took body s s' 1 k.
Proof.
  destruct (next_node s) as [[n s1]|] eqn:En; [|discriminate]. intros H. apply finish_pass in H as [H _].
  exact (took_trans _ _ _ _ 1 0 0 k (next_node_took body _ _ _ En) (next_buffers_took _ _ _ _ H)).
Qed.

(* fty is nested through list, so this is a `fix` on t and not `induction t`: IH is applied to the child c of t, and in
   the struct case to the members of cs, which the inner induction over cs reaches by destructing cs (guarded). *)
Lemma walk_sound : forall t, walk_ok t.
Proof.
  fix IH 1. intros t body s s'. destruct t as [| |c|sz c|cs|]; cbn [walk n_nodes n_bufs].
  - (* FPrim: node; validity, values *) apply (walk_leaf 2).
  - (* FBin: node; validity, offsets, data *) apply (walk_leaf 3).
  - (* FList: node; validity, offsets; then the child *)
    apply (walk_header 2). intros n s1 s2 E. apply finish_pass in E as [E _]. exact (IH c _ _ _ E).
  - (* FFsl: node; validity; then the child and the overflow test *)
    apply (walk_header 1). intros n s1 s2 E.
    destruct (finish n (first_buf s1) (walk c body s2)) as [[] s3] eqn:Ef; try discriminate.
    destruct (as_usize (fst n) * sz <? 2^64); [|discriminate]. injection E as <-. apply finish_pass in Ef as [Ef _]. exact (IH c _ _ _ Ef).
  - (* FStruct: node; validity; then the children in order *)
    apply (walk_header 1). intros n s1 s2 E. apply finish_gen_pass in E as [E _]. clear n s1 s.
    revert s2 E. induction cs as [|c cs IHcs]; intros s2; [intros [= <-]; apply took_refl|].
    destruct (walk c body s2) as [[] s3] eqn:Ew; try discriminate.
    intros E. exact (took_trans _ _ _ _ _ _ _ _ (IH c _ _ _ Ew) (IHcs _ E)).
  - (* FNull: the node only, with length = null count *)
    unfold next_node. destruct (nodes s) as [|[l c] r] eqn:En; [discriminate|].
    destruct (l =? c); [|discriminate]. intros [= <-]. exists [(l, c)], []. repeat split; [exact En|constructor].
Qed.

(* an out-of-bounds buffer is a panic, not an error (the assert in Buffer::slice_with_length) *)
Lemma ipc_bounds_panic_reachable :
  exists body s, fst (walk FPrim body s) = BoundsPanic.
Proof. exists 64, {| nodes := [(1, 0)]; bufs := [(0, 0); (61, 4)] |}. reflexivity. Qed.

(* a declared null count with a validity buffer too short for the node length is a panic as well *)
Lemma ipc_validity_panic_reachable :
  exists body s, fst (walk FPrim body s) = ValidityPanic.
Proof. exists 64, {| nodes := [(9, 1)]; bufs := [(0, 1); (0, 36)] |}. reflexivity. Qed.

(* a leaf that passes with a node declaring nulls: its validity buffer covers the node length *)
Lemma walk_leaf_validity t body s s' n s1 vb : t = FPrim \/ t = FBin ->
  walk t body s = (Pass, s') -> next_node s = Some (n, s1) -> first_buf s1 = Some vb -> 0 < snd n ->
  as_usize (fst n) <= 8 * as_usize (snd vb).
Proof.
  intros Ht H En Ev Hn. assert (V : validity_ok n (Some vb) = true)
    by (destruct Ht as [->| ->]; cbn [walk] in H; rewrite En, Ev in H; apply finish_pass in H; apply H).
  unfold validity_ok, validity_ok_gen in V. rewrite (proj2 (Z.ltb_lt _ _) Hn) in V. apply Z.leb_le in V. lia.
Qed.

Lemma ipc_missing_buffer_is_error body n : fst (walk FPrim body {| nodes := [n]; bufs := [] |}) = CursorErr.
Proof. reflexivity. Qed.
