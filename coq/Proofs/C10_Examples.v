(* C10 — the models and specifications evaluated on concrete inputs: float patterns around ±0, NaN and
   infinities, a column with nulls and ties, byte strings that differ only by a trailing zero. *)
From Coq Require Import List ZArith.
From AV Require Import Model.C10_Order Model.C10_Sort Model.C10_Rank Proofs.C10_MCmp.
Import ListNotations.
Local Open Scope Z_scope.

(* f64 bit patterns: -NaN < -inf < -1 < -0 < +0 < 1 < +inf < +NaN *)
Example total_order_chain :
  let h := 2 ^ 63 in
  map (fun p => total_order h (fst p) (snd p))
      [ (0xFFF8000000000000, 0xFFF0000000000000); (0xFFF0000000000000, 0xBFF0000000000000);
        (0xBFF0000000000000, 0x8000000000000000); (0x8000000000000000, 0);
        (0, 0x3FF0000000000000); (0x3FF0000000000000, 0x7FF0000000000000);
        (0x7FF0000000000000, 0x7FF8000000000000); (0x7FF8000000000000, 0x7FF8000000000001) ]
  = repeat Lt 8.
Proof. vm_compute. reflexivity. Qed.

Example float_key_example : total_cmp_key 64 0x8000000000000000 0 = Lt /\ total_cmp_key 64 0x7FF8000000000000 0xFFF8000000000000 = Gt.
Proof. vm_compute. split; reflexivity. Qed.

(* a column with nulls, duplicates, -0/+0, NaN; nulls first, descending, limit 4 *)
Definition ex_col : list oval :=
  [ Some (VFloat (2 ^ 63) 0); None; Some (VFloat (2 ^ 63) 0x8000000000000000); Some (VFloat (2 ^ 63) 0x7FF8000000000000);
    Some (VFloat (2 ^ 63) 0); None; Some (VFloat (2 ^ 63) 0x3FF0000000000000) ].

Example sort_example :
  sort_to_indices (V := val) isort iselect (vcmp false) (val_of ex_col) ex_col true true (Some 4%nat) = [1; 5; 3; 6]%nat
  /\ sort_check (cmp_opts true true) ex_col (Some 4%nat) [1; 5; 3; 6]%nat = 1
  /\ sort_check (cmp_opts true true) ex_col (Some 4%nat) [5; 1; 3; 6]%nat = 1      (* ties may come in any order *)
  /\ sort_check (cmp_opts true true) ex_col (Some 4%nat) [1; 5; 6; 3]%nat = 5      (* a decrease *)
  /\ sort_check (cmp_opts true true) ex_col (Some 4%nat) [1; 5; 3; 0]%nat = 6      (* a smaller row omitted *)
  /\ sort_check (cmp_opts true true) ex_col (Some 4%nat) [1; 1; 3; 6]%nat = 4
  /\ sort_check (cmp_opts true true) ex_col (Some 4%nat) [1; 5; 3]%nat = 2.
Proof. vm_compute. repeat split; reflexivity. Qed.

Example rank_example :
  rank_spec (vcmp false) true false ex_col = [5; 2; 3; 7; 5; 2; 6]%nat
  /\ rank_m isort (vcmp false) (fun a b => is_eq_c (vcmp false a b)) true false ex_col = [5; 2; 3; 7; 5; 2; 6]%nat.
Proof. vm_compute. split; reflexivity. Qed.

Example partition_example :
  partition_m [[Some (VInt 1); Some (VInt 1); None; None; Some (VInt 2)]; [Some (VInt 7); Some (VInt 8); None; None; None]]
  = [(0, 1); (1, 2); (2, 4); (4, 5)]%nat.
Proof. vm_compute. reflexivity. Qed.

Example kernel_example :
  kernels_spec OLe false true [Some (VInt 1); None; Some (VInt 3)] [Some (VInt 2)] = [Some true; None; Some false]
  /\ kernels_spec ODistinct false false [Some (VInt 1); None; None] [Some (VInt 1); None; Some (VInt 0)] = [Some false; Some false; Some true].
Proof. vm_compute. split; reflexivity. Qed.

Example wf_example : wf_col ex_col.
Proof.
  assert (F : forall b, 0 <= b < 2 ^ 64 -> wf_slot (Some (VFloat (2 ^ 63) b))).
  { intros b Hb. exists 64. split; [reflexivity|]. split; [reflexivity|exact Hb]. }
  unfold wf_col, ex_col.
  repeat (apply Forall_cons; [first [exact I|apply F; split; [discriminate|reflexivity]]|]). apply Forall_nil.
Qed.

(* byte strings: "bar" < "bar\0" through the inline key, the 4-byte prefix path and plain comparison *)
Example bytes_example :
  (inline_key [98; 97; 114] ?= inline_key [98; 97; 114; 0]) = Lt
  /\ cmp_bytes_prefix [98; 97; 114] [98; 97; 114; 0] = Lt
  /\ view_cmp [98; 97; 114; 0; 1; 2; 3; 4; 5; 6; 7; 8; 9; 10] [98; 97; 114] = Gt.
Proof. vm_compute. repeat split; reflexivity. Qed.
