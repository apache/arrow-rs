(* C13 — decimals.  round_half_away characterised once (rha_spec); the arm cast_decimal_to_decimal picks
   (10^k tables, wrapping multiply, truncating division with manual rounding, the fast path without
   precision check) computes round_half_away(x * 10^(s2-s1)) when that is within the output precision, else
   null / error (dec_dec_kernel_computes), the fast path being the checked one minus a test that cannot fail;
   its read-outs for one value, the fast path and a column; upscaling then downscaling returns the value,
   for the specification and for the kernels; integer -> decimal and decimal -> integer at a scale >= 0. *)
From Coq Require Import List ZArith Bool Lia.
From AV Require Import Model.C13_Num Model.C13_Decimal Model.C13_Cast Proofs.C13_Pow Proofs.C13_Col.
Import ListNotations.
Local Open Scope Z_scope.

(* round_half_away div x is the q with 2x within div of 2 div q, a tie going away from zero *)
Lemma rha_spec : forall div x q, 0 < div ->
  round_half_away div x = q <->
  (0 <= x /\ - div <= 2 * x - 2 * div * q < div) \/ (x < 0 /\ - div < 2 * x - 2 * div * q <= div).
Proof.
  intros div x q Hd. unfold round_half_away. destruct (Z.leb_spec 0 x) as [Hx|Hx].
  - pose proof (Z.div_mod (2 * x + div) (2 * div) ltac:(lia)). pose proof (Z.mod_pos_bound (2 * x + div) (2 * div) ltac:(lia)).
    split; [intros <-; left; lia|]. intros [[_ H1]|[H1 _]]; [|lia].
    symmetry. apply (Z.div_unique _ _ _ (2 * x + div - 2 * div * q)); lia.
  - pose proof (Z.div_mod (2 * - x + div) (2 * div) ltac:(lia)). pose proof (Z.mod_pos_bound (2 * - x + div) (2 * div) ltac:(lia)).
    split; [intros <-; right; lia|]. intros [[H1 _]|[_ H1]]; [lia|].
    apply Z.opp_inj. rewrite Z.opp_involutive. symmetry. apply (Z.div_unique _ _ _ (2 * - x + div + 2 * div * q)); lia.
Qed.

Theorem downscale_is_round_half_away : forall div x, 0 < div -> Z.even div = true ->
  downscale div x = round_half_away div x.
Proof.
  intros div x Hd Hev. symmetry. apply rha_spec; [assumption|]. unfold downscale.
  assert (Hh : div = 2 * Z.quot div 2).
  { rewrite Z.quot_div_nonneg by lia. apply Z.even_spec in Hev as [k ->]. rewrite Z.mul_comm, Z.div_mul by lia. lia. }
  set (h := Z.quot div 2) in *.
  pose proof (Z.quot_rem' x div) as QR.
  destruct (Z.leb_spec 0 x) as [Hx|Hx]; [left|right]; (split; [assumption|]).
  - pose proof (Z.rem_bound_pos x div Hx Hd) as Rb. destruct (Z.leb_spec h (Z.rem x div)); lia.
  - pose proof (Z.rem_bound_pos_neg x div Hd ltac:(lia)) as Rb. destruct (Z.leb_spec (Z.rem x div) (- h)); lia.
Qed.

Lemma rha_bound : forall div x B, 0 < div -> 0 <= B -> Z.abs x < B * div -> Z.abs (round_half_away div x) <= B.
Proof.
  intros div x B Hd HB Hx. apply Z.abs_lt in Hx. set (q := round_half_away div x).
  assert (Hq : - (2 * B + 1) * div < 2 * div * q < (2 * B + 1) * div).
  { destruct (proj1 (rha_spec div x q Hd) eq_refl) as [[_ H]|[_ H]]; lia. }
  assert (- (2 * B + 1) < 2 * q < 2 * B + 1) by (split; apply (Z.mul_lt_mono_pos_r div); lia). lia.
Qed.

Lemma rha_zero : forall div x, 0 < div -> 2 * Z.abs x < div -> round_half_away div x = 0.
Proof. intros div x Hd Hx. apply rha_spec; [assumption|]. lia. Qed.

Lemma rha_mul : forall div x, 0 < div -> round_half_away div (x * div) = x.
Proof. intros div x Hd. apply rha_spec; [assumption|]. lia. Qed.

Lemma in_prec_false : forall p v, in_prec p v = false <-> 10 ^ p <= Z.abs v.
Proof. intros p v. unfold in_prec. cbv beta zeta. apply Z.ltb_ge. Qed.

(* a value within any precision of the width fits the native type, so narrowing adds nothing to the
   precision check *)
Lemma from_decimal_check_prec : forall w p r, In w widths -> 0 <= p <= dec_maxp w ->
  obind (from_decimal w r) (check_prec w p) = if in_prec p r then Some r else None.
Proof.
  intros w p r Hw Hp. destruct (from_decimal w r) as [y|] eqn:F; cbn [obind].
  - apply from_decimal_inv in F. destruct F as [-> _]. apply check_prec_spec; assumption.
  - destruct (in_prec p r) eqn:E; [|reflexivity]. apply in_prec_true in E.
    rewrite from_decimal_some in F by (apply (in_prec_fits w p); assumption). discriminate.
Qed.

Lemma up_fallible_spec : forall w2 p2 delta x, In w2 widths -> 1 <= p2 <= dec_maxp w2 -> 0 <= delta ->
  obind (up_fallible w2 (10 ^ delta) x) (check_prec w2 p2)
  = if in_prec p2 (x * 10 ^ delta) then Some (x * 10 ^ delta) else None.
Proof.
  intros w2 p2 delta x Hw Hp Hd. unfold up_fallible.
  destruct (from_decimal w2 x) as [y|] eqn:F; cbn [obind].
  - apply from_decimal_inv in F. destruct F as [-> _].
    apply (from_decimal_check_prec w2 p2 (x * 10 ^ delta)); (assumption || lia).
  - (* x itself is too wide, and the product is no smaller *)
    destruct (in_prec p2 (x * 10 ^ delta)) eqn:E; [|reflexivity]. apply in_prec_true in E.
    pose proof (abs_le_mul_pow x delta Hd).
    rewrite from_decimal_some in F by (apply (in_prec_fits w2 p2); (assumption || lia)). discriminate.
Qed.

Lemma up_in_prec : forall p1 p2 delta x, 0 <= p1 -> 0 <= delta -> p1 + delta <= p2 -> Z.abs x < 10 ^ p1 ->
  in_prec p2 (x * 10 ^ delta) = true.
Proof.
  intros p1 p2 delta x Hp1 Hd Hle Hx. apply in_prec_true. rewrite abs_mul_pow by assumption.
  pose proof (pow10_ge1 delta Hd). assert (M : 10 ^ (p1 + delta) <= 10 ^ p2) by (apply Z.pow_le_mono_r; lia).
  rewrite Z.pow_add_r in M by lia. nia.
Qed.

Lemma down_fallible_spec : forall w2 p2 delta x, In w2 widths -> 1 <= p2 <= dec_maxp w2 -> 0 < delta ->
  obind (down_fallible w2 (10 ^ delta) x) (check_prec w2 p2)
  = let r := round_half_away (10 ^ delta) x in if in_prec p2 r then Some r else None.
Proof.
  intros w2 p2 delta x Hw Hp Hd. unfold down_fallible.
  rewrite downscale_is_round_half_away; [|apply Z.pow_pos_nonneg; lia|now rewrite Z.even_pow].
  apply from_decimal_check_prec; (assumption || lia).
Qed.

(* rounding can carry into one more digit than truncation leaves, hence the strict inequality *)
Lemma down_in_prec : forall p1 p2 delta x, 0 <= p1 -> 1 <= p2 -> 0 < delta -> p1 - delta < p2 -> Z.abs x < 10 ^ p1 ->
  in_prec p2 (round_half_away (10 ^ delta) x) = true.
Proof.
  intros p1 p2 delta x Hp1 Hp2 Hd Hlt Hx. apply in_prec_true.
  assert (0 < 10 ^ delta) by (apply Z.pow_pos_nonneg; lia).
  assert (0 < 10 ^ (p2 - 1)) by (apply Z.pow_pos_nonneg; lia).
  assert (B : Z.abs (round_half_away (10 ^ delta) x) <= 10 ^ (p2 - 1)).
  { apply rha_bound; [assumption|lia|]. rewrite <- Z.pow_add_r by lia.
    assert (10 ^ p1 <= 10 ^ (p2 - 1 + delta)) by (apply Z.pow_le_mono_r; lia). lia. }
  assert (10 ^ (p2 - 1) < 10 ^ p2) by (apply Z.pow_lt_mono_r; lia). lia.
Qed.

Lemma up_unchecked : forall w mul x r, up_fallible w mul x = Some r -> up_infallible w mul x = Some r.
Proof.
  intros w mul x r. unfold up_fallible, up_infallible. destruct (from_decimal w x) as [y|]; [|discriminate].
  cbn [obind]. intros H. destruct (checked_mul_inv _ _ _ _ H) as [-> F]. f_equal. apply wrap_signed_fits, F.
Qed.

(* the fast path runs f, the checked closure g stripped of its overflow tests, and skips the precision
   check: where that check cannot fail it computes what g followed by the check does *)
Lemma computes_unchecked : forall (P : Z -> Prop) conv f g w p,
  (forall v, P v -> obind (g v) (check_prec w p) = conv v) ->
  (forall v, P v -> is_some (conv v) = true) ->
  (forall v r, g v = Some r -> f v = Some r) ->
  computes P conv (KUnwrap f).
Proof.
  intros P conv f g w p Hg Hs Hf. constructor. intros v Hv. specialize (Hs v Hv). rewrite <- (Hg v Hv) in *.
  destruct (g v) as [y|] eqn:G; [|discriminate]. rewrite (Hf v y G). cbn [obind] in *. unfold check_prec in *.
  destruct (valid_prec w p y); [split; reflexivity|discriminate].
Qed.

Lemma i8_ok_intro : forall v, -128 <= v <= 127 -> i8_ok v = true.
Proof. intros v H. unfold i8_ok. apply andb_true_iff. split; apply Z.leb_le; lia. Qed.

(* of the validity of the two types only the precisions matter; of the scales, only the kernel's i8_ok
   tests (on the scale difference in the direction taken, and on p1 + (s2 - s1), whose lower bound
   follows from 1 <= p1 and the first) and the reach of the 10^k table *)
Theorem dec_dec_kernel_computes : forall w1 p1 s1 w2 p2 s2,
  In w1 widths -> In w2 widths ->
  1 <= p1 <= dec_maxp w1 -> 1 <= p2 <= dec_maxp w2 ->
  - 127 <= s2 - s1 <= 127 -> p1 + (s2 - s1) <= 127 ->
  (s1 <= s2 -> s2 - s1 <= dec_maxp w2) ->
  computes (fun x => Z.abs x < 10 ^ p1) (dec_dec_spec s1 p2 s2) (dec_dec_kernel w1 p1 s1 w2 p2 s2).
Proof.
  intros w1 p1 s1 w2 p2 s2 Hw1 Hw2 P1 P2 Hi8 Hi8p Hup.
  unfold dec_dec_kernel, dec_dec_spec, rescale_spec. cbv beta zeta.
  destruct ((w1 =? w2) && (s1 =? s2) && (p1 <=? p2)) eqn:Same.
  - apply andb_true_iff in Same. destruct Same as [Same Hp]. apply andb_true_iff in Same. destruct Same as [_ Hs].
    apply Z.eqb_eq in Hs. apply Z.leb_le in Hp. subst s2.
    rewrite Z.leb_refl, Z.sub_diag. constructor. intros x Hx. rewrite Z.mul_1_r.
    assert (E : in_prec p2 x = true).
    { apply in_prec_true. assert (10 ^ p1 <= 10 ^ p2) by (apply Z.pow_le_mono_r; lia). lia. }
    rewrite E. reflexivity.
  - destruct (Z.leb_spec s1 s2) as [Hs|Hs].
    + set (delta := s2 - s1) in *.
      rewrite (table_get_some w2 delta Hw2), !i8_ok_intro by lia. cbn [negb].
      replace (10 ^ delta - 1 + 1) with (10 ^ delta) by lia.
      assert (U := fun x (_ : Z.abs x < 10 ^ p1) => up_fallible_spec w2 p2 delta x Hw2 P2 ltac:(lia)).
      destruct (Z.leb_spec (p1 + delta) p2) as [Hinf|Hinf]; [|constructor; exact U].
      apply (computes_unchecked _ _ _ _ w2 p2 U); [|apply up_unchecked].
      intros x Hx. rewrite (up_in_prec p1 p2 delta x) by (assumption || lia). reflexivity.
    + set (delta := s1 - s2) in *.
      rewrite (i8_ok_intro delta) by lia. cbn [negb]. pose proof (dec_maxp_range w1 Hw1).
      destruct (Z.le_gt_cases delta (dec_maxp w1)) as [Hin|Hout].
      * rewrite (table_get_some w1 delta Hw1), i8_ok_intro by lia. cbn [negb].
        replace (10 ^ delta - 1 + 1) with (10 ^ delta) by lia.
        assert (D := fun x (_ : Z.abs x < 10 ^ p1) => down_fallible_spec w2 p2 delta x Hw2 P2 ltac:(lia)).
        destruct (Z.ltb_spec (p1 - delta) p2) as [Hinf|Hinf]; [|constructor; exact D].
        apply (computes_unchecked _ _ _ _ w2 p2 D); [|trivial].
        intros x Hx. cbv zeta. rewrite (down_in_prec p1 p2 delta x) by (assumption || lia). reflexivity.
      * rewrite (table_get_none w1 delta Hw1) by lia. constructor. intros x Hx.
        assert (Z0 : round_half_away (10 ^ delta) x = 0).
        { apply rha_zero; [apply Z.pow_pos_nonneg; lia|].
          assert (M : 10 ^ p1 <= 10 ^ (delta - 1)) by (apply Z.pow_le_mono_r; lia).
          assert (E : 10 ^ delta = 10 * 10 ^ (delta - 1)) by (rewrite <- Z.pow_succ_r by lia; f_equal; lia). lia. }
        assert (0 < 10 ^ p2) by (apply Z.pow_pos_nonneg; lia).
        rewrite Z0. assert (E : in_prec p2 0 = true) by (apply in_prec_true; cbn; lia).
        rewrite E. reflexivity.
Qed.

Theorem dec_dec_kernel_exact : forall w1 p1 s1 w2 p2 s2 x,
  In w1 widths -> In w2 widths ->
  dec_type_ok w1 p1 s1 = true -> dec_type_ok w2 p2 s2 = true ->
  - 127 <= s2 - s1 <= 127 -> p1 + (s2 - s1) <= 127 ->
  (s1 <= s2 -> s2 - s1 <= dec_maxp w2) ->
  Z.abs x < 10 ^ p1 ->
  kernel_value (dec_dec_kernel w1 p1 s1 w2 p2 s2) x = Some (dec_dec_spec s1 p2 s2 x).
Proof.
  intros w1 p1 s1 w2 p2 s2 x Hw1 Hw2 T1 T2 Hi8 Hi8p Hup.
  exact (computes_value _ _ _ x (dec_dec_kernel_computes w1 p1 s1 w2 p2 s2 Hw1 Hw2
           (dec_type_ok_prec _ _ _ T1) (dec_type_ok_prec _ _ _ T2) Hi8 Hi8p Hup)).
Qed.

Lemma dec_dec_spec_some : forall s1 p2 s2 x y, dec_dec_spec s1 p2 s2 x = Some y ->
  y = rescale_spec s1 s2 x /\ Z.abs y < 10 ^ p2.
Proof.
  intros s1 p2 s2 x y H. unfold dec_dec_spec in H. cbv beta zeta in H.
  destruct (in_prec p2 (rescale_spec s1 s2 x)) eqn:P; [|discriminate]. inversion H; subst y.
  split; [reflexivity|apply in_prec_true, P].
Qed.

(* The fast path that skips the precision check is sound for values within the declared precision:
   it cannot panic, the result is within the output precision and fits the native type. *)
Theorem infallible_path_sound : forall w1 p1 s1 w2 p2 s2 f x,
  In w1 widths -> In w2 widths ->
  dec_type_ok w1 p1 s1 = true -> dec_type_ok w2 p2 s2 = true ->
  - 127 <= s2 - s1 <= 127 -> p1 + (s2 - s1) <= 127 -> (s1 <= s2 -> s2 - s1 <= dec_maxp w2) ->
  dec_dec_kernel w1 p1 s1 w2 p2 s2 = KUnwrap f ->
  Z.abs x < 10 ^ p1 ->
  exists r, f x = Some r /\ Z.abs r < 10 ^ p2 /\ fits w2 true r = true /\ r = rescale_spec s1 s2 x.
Proof.
  intros w1 p1 s1 w2 p2 s2 f x Hw1 Hw2 T1 T2 Hi8 Hi8p Hup Hk Hx.
  pose proof (dec_dec_kernel_exact w1 p1 s1 w2 p2 s2 x Hw1 Hw2 T1 T2 Hi8 Hi8p Hup Hx) as E.
  rewrite Hk in E. cbn [kernel_value] in E. destruct (f x) as [r|]; [|discriminate].
  inversion E as [E']. symmetry in E'. apply dec_dec_spec_some in E'. destruct E' as [-> B].
  exists (rescale_spec s1 s2 x). repeat split; [assumption|].
  pose proof (dec_type_ok_prec _ _ _ T2).
  apply (in_prec_fits w2 p2); [assumption|lia|assumption].
Qed.

(* outside the hypothesis the fast path is NOT safe: unary visits null slots too, and a raw value
   under a null that does not fit the output native type makes the closure's unwrap panic *)
Theorem infallible_path_garbage_refuted :
  exists c, logical c = [None]
    /\ run_kernel (dec_dec_kernel 128 5 0 32 9 2) true c = RPanic.
Proof. exists [(false, 2 ^ 100)]. split; vm_compute; reflexivity. Qed.

Lemma rescale_up_down : forall s1 s2 x, s1 <= s2 -> rescale_spec s2 s1 (rescale_spec s1 s2 x) = x.
Proof.
  intros s1 s2 x Hs. unfold rescale_spec. cbv beta zeta.
  destruct (Z.leb_spec s1 s2); [|lia]. destruct (Z.leb_spec s2 s1).
  - replace s2 with s1 by lia. rewrite Z.sub_diag. change (10 ^ 0) with 1. lia.
  - apply rha_mul, Z.pow_pos_nonneg; lia.
Qed.

Theorem decimal_upscale_inverse : forall s1 p1 s2 p2 x y, s1 <= s2 -> Z.abs x < 10 ^ p1 ->
  dec_dec_spec s1 p2 s2 x = Some y -> dec_dec_spec s2 p1 s1 y = Some x.
Proof.
  intros s1 p1 s2 p2 x y Hs Hx H. apply dec_dec_spec_some in H. destruct H as [-> _].
  unfold dec_dec_spec. cbv beta zeta. rewrite rescale_up_down, (proj2 (in_prec_true p1 x) Hx) by assumption. reflexivity.
Qed.

Theorem decimal_kernel_inverse : forall w1 p1 s1 w2 p2 s2 x y,
  In w1 widths -> In w2 widths ->
  dec_type_ok w1 p1 s1 = true -> dec_type_ok w2 p2 s2 = true ->
  s1 <= s2 -> s2 - s1 <= 127 -> p1 + (s2 - s1) <= 127 -> s2 - s1 <= dec_maxp w2 ->
  Z.abs x < 10 ^ p1 ->
  kernel_value (dec_dec_kernel w1 p1 s1 w2 p2 s2) x = Some (Some y) ->
  kernel_value (dec_dec_kernel w2 p2 s2 w1 p1 s1) y = Some (Some x).
Proof.
  intros w1 p1 s1 w2 p2 s2 x y Hw1 Hw2 T1 T2 Hs Hd Hp Ht Hx Hk.
  rewrite (dec_dec_kernel_exact w1 p1 s1 w2 p2 s2 x Hw1 Hw2 T1 T2 ltac:(lia) Hp ltac:(intros; lia) Hx) in Hk.
  inversion Hk as [Hk']. clear Hk.
  destruct (dec_dec_spec_some _ _ _ _ _ Hk') as [_ Hy].
  pose proof (dec_type_ok_prec w1 p1 s1 T1) as P1. pose proof (dec_type_ok_prec w2 p2 s2 T2) as P2.
  pose proof (dec_maxp_range w1 Hw1) as M1. pose proof (dec_maxp_range w2 Hw2) as M2.
  rewrite (dec_dec_kernel_exact w2 p2 s2 w1 p1 s1 y Hw2 Hw1 T2 T1 ltac:(lia) ltac:(lia)); [|intros; lia|assumption].
  f_equal. apply (decimal_upscale_inverse s1 p1 s2 p2 x y Hs Hx Hk').
Qed.

Lemma kernel_of_dec : forall w1 p1 s1 w2 p2 s2,
  kernel_of (TDec w1 p1 s1) (TDec w2 p2 s2) = dec_dec_kernel w1 p1 s1 w2 p2 s2.
Proof.
  intros. unfold kernel_of. cbn [mty_eqb].
  destruct ((w1 =? w2) && (p1 =? p2) && (s1 =? s2)) eqn:E; [|reflexivity].
  apply andb_true_iff in E. destruct E as [E Es]. apply andb_true_iff in E. destruct E as [Ew Ep].
  apply Z.eqb_eq in Ew, Ep, Es. subst. unfold dec_dec_kernel. rewrite !Z.eqb_refl, Z.leb_refl. reflexivity.
Qed.

Theorem decimal_column_cast_spec : forall w1 p1 s1 w2 p2 s2 safe c,
  In w1 widths -> In w2 widths ->
  dec_type_ok w1 p1 s1 = true -> dec_type_ok w2 p2 s2 = true ->
  - 127 <= s2 - s1 <= 127 -> p1 + (s2 - s1) <= 127 -> (s1 <= s2 -> s2 - s1 <= dec_maxp w2) ->
  (forall b v, In (b, v) c -> Z.abs v < 10 ^ p1) ->
  refines (cast_model (TDec w1 p1 s1) (TDec w2 p2 s2) safe c) (dec_dec_spec s1 p2 s2) safe c.
Proof.
  intros w1 p1 s1 w2 p2 s2 safe c Hw1 Hw2 T1 T2 Hi8 Hi8p Hup Hc.
  unfold cast_model. rewrite kernel_of_dec.
  apply (computes_refines _ _ _ _ _ (dec_dec_kernel_computes w1 p1 s1 w2 p2 s2 Hw1 Hw2
           (dec_type_ok_prec _ _ _ T1) (dec_type_ok_prec _ _ _ T2) Hi8 Hi8p Hup)).
  intros b v Hi _. apply (Hc b v Hi).
Qed.

Lemma pow10_checked_some : forall w s, In w widths -> 0 <= s <= dec_maxp w -> pow10_checked w true s = Some (10 ^ s).
Proof.
  intros w s Hw Hs. unfold pow10_checked. cbv zeta.
  assert (F : fits w true (10 ^ s) = true).
  { apply fits_signed_abs. assert (0 < 10 ^ s) by (apply Z.pow_pos_nonneg; lia). rewrite Z.abs_eq by lia.
    pose proof (pow10_fits_width w Hw). assert (10 ^ s <= 10 ^ dec_maxp w) by (apply Z.pow_le_mono_r; lia). lia. }
  rewrite F. reflexivity.
Qed.

Lemma int_dec_kernel_computes : forall bits sg w p s, In w widths -> 1 <= p <= dec_maxp w -> 0 <= s <= dec_maxp w ->
  computes (fun _ => True) (int_dec_spec p s) (int_dec_kernel bits sg w p s).
Proof.
  intros bits sg w p s Hw Hp Hs. unfold int_dec_kernel, int_dec_spec. cbv beta zeta.
  destruct (Z.ltb_spec s 0) as [Hn|_]; [lia|]. rewrite (pow10_checked_some w s Hw Hs).
  constructor. intros v _. exact (up_fallible_spec w p s v Hw Hp ltac:(lia)).
Qed.

Theorem int_decimal_exact : forall bits sg w p s v, In w widths ->
  1 <= p <= dec_maxp w -> 0 <= s <= dec_maxp w ->
  kernel_value (int_dec_kernel bits sg w p s) v = Some (int_dec_spec p s v).
Proof. intros bits sg w p s v Hw Hp Hs. exact (computes_value _ _ _ v (int_dec_kernel_computes bits sg w p s Hw Hp Hs) I). Qed.

(* the same with int_dec_spec written out at a scale >= 0, where its test s <? 0 does not reduce *)
Theorem int_decimal_exact_explicit : forall bits sg w p s v, In w widths ->
  1 <= p <= dec_maxp w -> 0 <= s <= dec_maxp w ->
  kernel_value (int_dec_kernel bits sg w p s) v
  = Some (let r := v * 10 ^ s in if Z.abs r <? 10 ^ p then Some r else None).
Proof.
  intros bits sg w p s v Hw Hp Hs. rewrite (int_decimal_exact bits sg w p s v Hw Hp Hs).
  unfold int_dec_spec, in_prec. cbv beta zeta. destruct (Z.ltb_spec s 0); [lia|reflexivity].
Qed.

Lemma dec_int_kernel_computes : forall w s obits osg, In w widths -> 0 <= s <= dec_maxp w ->
  computes (fun _ => True) (dec_int_spec s obits osg) (dec_int_kernel w s obits osg).
Proof.
  intros w s obits osg Hw Hs. unfold dec_int_kernel, dec_int_spec. cbv beta zeta.
  rewrite Z.abs_eq by lia. rewrite (pow10_checked_some w s Hw Hs).
  destruct (Z.ltb_spec s 0) as [Hn|_]; [lia|]. constructor. reflexivity.
Qed.

Theorem decimal_int_exact : forall w s obits osg v, In w widths -> 0 <= s <= dec_maxp w ->
  kernel_value (dec_int_kernel w s obits osg) v = Some (num_cast obits osg (Z.quot v (10 ^ s))).
Proof.
  intros w s obits osg v Hw Hs. rewrite (computes_value _ _ _ v (dec_int_kernel_computes w s obits osg Hw Hs) I).
  unfold dec_int_spec. cbv beta zeta. destruct (Z.ltb_spec s 0); [lia|reflexivity].
Qed.
