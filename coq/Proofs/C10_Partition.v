(* C10 — partition: the ranges produced from the boundary mask are exactly the runs of rows between
   positions where adjacent rows differ (in some column, under the comparator's equality). *)
From Coq Require Import List Lia Bool Arith.
From AV Require Import Model.C10_Order Model.C10_Rank.
Import ListNotations.

(* the loop of Partitions::ranges over an arbitrary list of set indices *)
Fixpoint ranges_of (cur : nat) (l : list nat) : list (nat * nat) :=
  match l with [] => [] | i :: r => (cur, i + 1) :: ranges_of (i + 1) r end.
Fixpoint final_of (cur : nat) (l : list nat) : nat :=
  match l with [] => cur | i :: r => final_of (i + 1) r end.

Lemma ranges_fold l : forall out cur,
  fold_left (fun (st : list (nat * nat) * nat) idx => let '(out, current) := st in (out ++ [(current, idx + 1)], idx + 1))
            l (out, cur) = (out ++ ranges_of cur l, final_of cur l).
Proof.
  induction l as [|i l IH]; intros out cur; cbn; [now rewrite app_nil_r|].
  rewrite IH. rewrite <- app_assoc. reflexivity.
Qed.

Lemma ranges_of_fst cur l : map fst (ranges_of cur l) ++ [final_of cur l] = cur :: map (fun i => i + 1) l.
Proof. revert cur. induction l as [|i l IH]; intros cur; cbn; [reflexivity|]. now rewrite IH. Qed.
Lemma ranges_of_snd cur l : map snd (ranges_of cur l) = map (fun i => i + 1) l.
Proof. revert cur. induction l as [|i l IH]; intros cur; cbn; [reflexivity|]. now rewrite IH. Qed.

Lemma set_indices_from_lt k b : forall i, In i (set_indices_from k b) -> k <= i < k + length b.
Proof.
  revert k. induction b as [|x b IH]; intros k i H; [contradiction|]. cbn in H.
  apply in_app_or in H. destruct H as [H|H].
  - destruct x; [|contradiction]. destruct H as [<-|[]]. cbn. lia.
  - apply IH in H. cbn. lia.
Qed.

Lemma final_of_bound cur l n : cur <= n -> (forall i, In i l -> i < n) -> final_of cur l <= n.
Proof.
  revert cur. induction l as [|i l IH]; intros cur Hc H; [exact Hc|]. cbn.
  apply IH; [|intros j Hj; apply H; now right]. specialize (H i (or_introl eq_refl)). lia.
Qed.

Theorem ranges_some_spec b :
  map fst (ranges_some b) = 0 :: map (fun i => i + 1) (set_indices b) /\
  map snd (ranges_some b) = map (fun i => i + 1) (set_indices b) ++ [length b + 1].
Proof.
  unfold ranges_some. rewrite ranges_fold. cbn [app].
  assert (F : final_of 0 (set_indices b) <= length b).
  { apply final_of_bound; [lia|]. intros i Hi. apply set_indices_from_lt in Hi. lia. }
  destruct (final_of 0 (set_indices b) =? length b + 1) eqn:E; [apply Nat.eqb_eq in E; lia|].
  rewrite !map_app. cbn [map fst snd]. rewrite ranges_of_fst, ranges_of_snd. split; reflexivity.
Qed.

Lemma combine_fst_snd {A B} (l : list (A * B)) : combine (map fst l) (map snd l) = l.
Proof. induction l as [|[a b] l IH]; [reflexivity|]. cbn. now rewrite IH. Qed.

Lemma set_indices_from_map (d : nat -> bool) m : forall k,
  map (fun i => i + 1) (set_indices_from k (map d (seq k m))) = filter (fun i => d (i - 1)) (seq (S k) m).
Proof.
  induction m as [|m IH]; intros k; [reflexivity|]. cbn [seq map set_indices_from filter].
  rewrite map_app, (IH (S k)). replace (S k - 1) with k by lia.
  destruct (d k); cbn; [f_equal; lia|reflexivity].
Qed.

Lemma orb_lists_map {A} (f h : A -> bool) s : orb_lists (map f s) (map h s) = map (fun i => f i || h i) s.
Proof. induction s as [|x s IH]; [reflexivity|]. cbn. now rewrite IH. Qed.

Lemma fold_orb_lists (cols : list (list oval)) (g : nat -> bool) s :
  (forall c, In c cols -> find_boundaries c = map (fun i => match cmp_idx false false c c i (S i) with Eq => false | _ => true end) s) ->
  fold_left (fun acc c => orb_lists acc (find_boundaries c)) cols (map g s)
  = map (fun i => g i || existsb (fun a => match cmp_idx false false a a i (S i) with Eq => false | _ => true end) cols) s.
Proof.
  revert g. induction cols as [|c cols IH]; intros g H; cbn [fold_left existsb].
  - apply map_ext. intros i. now rewrite orb_false_r.
  - rewrite (H c (or_introl eq_refl)).
    rewrite orb_lists_map. rewrite IH by (intros c' Hc'; apply H; now right).
    apply map_ext. intros i. now rewrite orb_assoc.
Qed.

Theorem partition_m_spec cols : (forall c c', In c cols -> In c' cols -> length c = length c') ->
  partition_m cols = partition_spec cols.
Proof.
  intros Hlen. destruct cols as [|c0 rest]; [reflexivity|].
  unfold partition_m, partition_spec. destruct (length c0) as [|m] eqn:En; [reflexivity|].
  set (d := fun i => rows_differ (c0 :: rest) i (S i)).
  set (st := filter (fun i => (i =? 0) || rows_differ (c0 :: rest) (i - 1) i) (seq 0 (S m))).
  assert (Hst : st = 0 :: map (fun i => i + 1) (set_indices (map d (seq 0 m)))).
  { unfold st. cbn [seq filter Nat.eqb orb]. f_equal.
    unfold set_indices. rewrite set_indices_from_map. apply filter_ext_in. intros i Hi. apply in_seq in Hi.
    destruct i as [|i]; [lia|]. cbn [Nat.eqb orb]. unfold d. replace (S i - 1) with i by lia. reflexivity. }
  assert (G : ranges_some (map d (seq 0 m)) = combine st (tl st ++ [S m])).
  { rewrite Hst. cbn [tl]. destruct (ranges_some_spec (map d (seq 0 m))) as [F S'].
    rewrite <- (combine_fst_snd (ranges_some _)), F, S', map_length, seq_length.
    replace (m + 1) with (S m) by lia. reflexivity. }
  destruct m as [|m']; [exact G|]. rewrite <- G. f_equal.
  (* the OR of the columns' boundary masks says where adjacent rows differ *)
  unfold find_boundaries at 2. rewrite En. cbn [Nat.sub]. rewrite fold_orb_lists; [reflexivity|].
  intros c Hc. unfold find_boundaries. now rewrite (Hlen c c0 (or_intror Hc) (or_introl eq_refl)), En.
Qed.
