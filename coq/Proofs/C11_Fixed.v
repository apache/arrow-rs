(* C11 — the fixed-width encoders order their bytes like the values.  A big-endian string of w
   bytes orders like the number it writes; flipping the top bit adds half the range, which turns
   the two's complement pattern of z into z + half, so signed integers order; the float key turns a
   bit pattern into the signed integer that f32::total_cmp compares, so floats order by IEEE
   totalOrder through the signed encoding and C10's akey_total_order.  Each decoder undoes its
   encoder.  [bits w] and [half w] live in N, the ranges of the model in Z: half_Z, pow_bits_Z and
   pow_bits_half carry one to the other. *)
From Coq Require Import List NArith ZArith Lia Bool.
From AV Require Import Base.Bits Model.C11_Row Proofs.C11_Lex.
(* not imported: C10_Float has a float_key and a float_key_arith of its own *)
From AV Require Model.C10_Order Proofs.C10_Float.
Local Open Scope N_scope.

Lemma be_bytes_length w n : length (be_bytes w n) = w.
Proof. induction w as [|w IH]; cbn [be_bytes length]; [reflexivity|]. now rewrite IH. Qed.

Lemma be_bytes_wf w n : wf_bytes (be_bytes w n).
Proof.
  induction w as [|w IH]; cbn [be_bytes]; constructor; [|exact IH].
  unfold wf_byte. apply N.mod_lt. lia.
Qed.

Lemma pow8_S w : 2 ^ (8 * N.of_nat (S w)) = 2 ^ (8 * N.of_nat w) * 256.
Proof. rewrite Nat2N.inj_succ, N.mul_succ_r, N.pow_add_r. reflexivity. Qed.

Lemma pow8_pos w : 0 < 2 ^ (8 * N.of_nat w).
Proof. apply N.neq_0_lt_0, N.pow_nonzero. lia. Qed.

Lemma mod_split w n :
  n mod 2 ^ (8 * N.of_nat (S w)) = n mod 2 ^ (8 * N.of_nat w) + 2 ^ (8 * N.of_nat w) * ((n / 2 ^ (8 * N.of_nat w)) mod 256).
Proof. rewrite pow8_S. apply N.mod_mul_r; [pose proof (pow8_pos w); lia | lia]. Qed.

Lemma cmp_split M la ha lb hb : la < M -> lb < M ->
  (la + M * ha ?= lb + M * hb) = match ha ?= hb with Eq => la ?= lb | c => c end.
Proof.
  intros Ha Hb.
  destruct (N.compare_spec ha hb) as [E|L|G].
  - subst hb. destruct (N.compare_spec la lb); [apply N.compare_eq_iff | apply N.compare_lt_iff | apply N.compare_gt_iff]; lia.
  - apply N.compare_lt_iff. nia.
  - apply N.compare_gt_iff. nia.
Qed.

Lemma lex_be_mod w a b :
  lex (be_bytes w a) (be_bytes w b) = (a mod 2 ^ (8 * N.of_nat w) ?= b mod 2 ^ (8 * N.of_nat w)).
Proof.
  induction w as [|w IH]; cbn [be_bytes lex].
  - cbn. now rewrite !N.mod_1_r.
  - rewrite !mod_split, IH.
    pose proof (pow8_pos w) as Hp.
    rewrite cmp_split; [reflexivity | apply N.mod_lt; lia | apply N.mod_lt; lia].
Qed.

Lemma lex_be w a b : a < 2 ^ (8 * N.of_nat w) -> b < 2 ^ (8 * N.of_nat w) ->
  lex (be_bytes w a) (be_bytes w b) = (a ?= b).
Proof. intros Ha Hb. rewrite lex_be_mod, !N.mod_small by assumption. reflexivity. Qed.

(* be_bytes sees only the low w bytes, since its order does *)
Lemma be_bytes_add_high w n c : be_bytes w (n + c * 2 ^ (8 * N.of_nat w)) = be_bytes w n.
Proof.
  apply lex_eq. rewrite lex_be_mod, N.mod_add by (pose proof (pow8_pos w); lia). apply N.compare_refl.
Qed.

Lemma be_val_gen bs acc :
  fold_left (fun a b => a * 256 + b) bs acc = acc * 2 ^ (8 * N.of_nat (length bs)) + be_val bs.
Proof.
  unfold be_val. revert acc. induction bs as [|b bs IH]; intros acc; cbn [fold_left length].
  - cbn. lia.
  - rewrite IH. rewrite (IH (0 * 256 + b)). rewrite pow8_S. lia.
Qed.

Lemma be_val_cons b bs : be_val (b :: bs) = b * 2 ^ (8 * N.of_nat (length bs)) + be_val bs.
Proof. unfold be_val at 1. cbn [fold_left]. rewrite be_val_gen. lia. Qed.

Lemma be_val_be_bytes w n : be_val (be_bytes w n) = n mod 2 ^ (8 * N.of_nat w).
Proof.
  induction w as [|w IH]; cbn [be_bytes].
  - cbn. now rewrite N.mod_1_r.
  - rewrite be_val_cons, be_bytes_length, IH, mod_split. lia.
Qed.

Lemma land_pow2_low k m : m < 2 ^ k -> N.land (2 ^ k) m = 0.
Proof.
  intros Hm. apply N.bits_inj. intros i. rewrite N.land_spec, N.bits_0, N.pow2_bits_eqb.
  destruct (N.eqb_spec k i) as [->|Hne]; [|reflexivity].
  rewrite (testbit_high m i i) by (try exact Hm; lia). reflexivity.
Qed.

Lemma lxor_pow2_low k m : m < 2 ^ k -> N.lxor (2 ^ k) m = 2 ^ k + m.
Proof. intros Hm. symmetry. apply N.add_nocarry_lxor. now apply land_pow2_low. Qed.

Lemma lxor_128 h : h < 256 -> N.lxor h 128 = (h + 128) mod 256.
Proof.
  intros Hh. change (N.lxor h 128) with (N.lxor h (2 ^ 7)). destruct (N.lt_ge_cases h 128) as [L|G].
  - rewrite N.lxor_comm, lxor_pow2_low by exact L. rewrite N.mod_small; lia.
  - replace h with (2 ^ 7 + (h - 128)) at 1 by lia. rewrite <- lxor_pow2_low by lia.
    rewrite (N.lxor_comm (2 ^ 7)), N.lxor_assoc, N.lxor_nilpotent, N.lxor_0_r.
    apply N.mod_unique with (q := 1); lia.
Qed.

Lemma flip_first_be w p :
  flip_first (be_bytes (S w) p) = be_bytes (S w) (p + 128 * 2 ^ (8 * N.of_nat w)).
Proof.
  cbn [be_bytes flip_first].
  pose proof (pow8_pos w) as Hp.
  rewrite lxor_128 by (apply N.mod_lt; lia).
  f_equal.
  - rewrite N.add_mod_idemp_l by lia.
    rewrite N.div_add by lia. reflexivity.
  - symmetry. apply be_bytes_add_high.
Qed.

Definition half (w : nat) : N := 2 ^ (bits w - 1).

Lemma half_double w : (1 <= w)%nat -> 2 * half w = 2 ^ bits w.
Proof.
  intros Hw. unfold half, bits. replace (8 * N.of_nat w) with (N.succ (8 * N.of_nat w - 1)) at 2 by lia.
  now rewrite N.pow_succ_r'.
Qed.

Lemma half_128 w : half (S w) = 128 * 2 ^ (8 * N.of_nat w).
Proof.
  unfold half, bits. replace (8 * N.of_nat (S w) - 1) with (7 + 8 * N.of_nat w) by lia.
  rewrite N.pow_add_r. reflexivity.
Qed.

Lemma half_pos w : 0 < half w.
Proof. unfold half. apply N.neq_0_lt_0, N.pow_nonzero. lia. Qed.

Lemma encode_signed_pat_be w p : (1 <= w)%nat ->
  encode_signed_pat w p = be_bytes w (p + half w).
Proof.
  intros Hw. destruct w as [|w]; [lia|]. unfold encode_signed_pat.
  rewrite flip_first_be, half_128. reflexivity.
Qed.

Lemma encode_signed_pat_length w p : length (encode_signed_pat w p) = w.
Proof.
  unfold encode_signed_pat. destruct w as [|w]; [reflexivity|]. cbn [be_bytes flip_first length].
  now rewrite be_bytes_length.
Qed.

Lemma encode_signed_pat_wf w p : (1 <= w)%nat -> wf_bytes (encode_signed_pat w p).
Proof. intros Hw. rewrite encode_signed_pat_be by exact Hw. apply be_bytes_wf. Qed.

Lemma flip_first_invol bs : flip_first (flip_first bs) = bs.
Proof.
  destruct bs as [|b r]; [reflexivity|]. cbn [flip_first].
  now rewrite N.lxor_assoc, N.lxor_nilpotent, N.lxor_0_r.
Qed.

Lemma decode_encode_signed_pat w p : p < 2 ^ bits w ->
  decode_signed_pat (encode_signed_pat w p) = p.
Proof.
  intros Hp. unfold decode_signed_pat, encode_signed_pat.
  rewrite flip_first_invol, be_val_be_bytes. apply N.mod_small. exact Hp.
Qed.

Definition in_signed (w : nat) (z : Z) : Prop := (- Z.of_N (half w) <= z < Z.of_N (half w))%Z.

Lemma half_Z w : (1 <= w)%nat -> Z.of_N (half w) = (2 ^ (Z.of_N (bits w) - 1))%Z.
Proof.
  intros Hw. unfold half. rewrite N2Z.inj_pow. f_equal. unfold bits. lia.
Qed.

Lemma pow_bits_Z w : (2 ^ Z.of_N (bits w))%Z = Z.of_N (2 ^ bits w).
Proof. now rewrite N2Z.inj_pow. Qed.

Lemma in_signed_Z w z : (1 <= w)%nat ->
  (- 2 ^ (Z.of_N (bits w) - 1) <= z < 2 ^ (Z.of_N (bits w) - 1))%Z -> in_signed w z.
Proof. intros Hw Hz. unfold in_signed. now rewrite half_Z. Qed.

Lemma pow_bits_half w : (1 <= w)%nat -> (2 ^ Z.of_N (bits w))%Z = (2 * Z.of_N (half w))%Z.
Proof. intros Hw. rewrite pow_bits_Z, <- half_double by exact Hw. apply N2Z.inj_mul. Qed.

Lemma mod_signed h z : (0 < h -> - h <= z < h -> z mod (2 * h) = if z <? 0 then z + 2 * h else z)%Z.
Proof.
  intros Hh Hz. destruct (Z.ltb_spec z 0).
  - symmetry. apply Z.mod_unique_pos with (q := (-1)%Z); lia.
  - apply Z.mod_small. lia.
Qed.

Lemma to_pattern_signed w z : (1 <= w)%nat -> in_signed w z ->
  to_pattern w z = Z.to_N (if z <? 0 then z + 2 * Z.of_N (half w) else z)%Z.
Proof.
  intros Hw Hz. unfold to_pattern. rewrite pow_bits_half by exact Hw.
  rewrite mod_signed; [reflexivity | pose proof (half_pos w); lia | exact Hz].
Qed.

(* the sign flip turns the pattern into the offset-binary value z + h *)
Lemma to_pattern_shift w z : (1 <= w)%nat -> in_signed w z ->
  (to_pattern w z + half w) mod 2 ^ bits w = Z.to_N (z + Z.of_N (half w)).
Proof.
  intros Hw Hz. rewrite to_pattern_signed by assumption. rewrite <- half_double by exact Hw.
  unfold in_signed in Hz. pose proof (half_pos w) as Hh. generalize dependent (half w). intros h Hz Hh.
  destruct (Z.ltb_spec z 0).
  - symmetry. apply N.mod_unique with (q := 1); lia.
  - rewrite N.mod_small; lia.
Qed.

Theorem signed_order w a b : (1 <= w)%nat -> in_signed w a -> in_signed w b ->
  lex (encode_signed w a) (encode_signed w b) = (a ?= b)%Z.
Proof.
  intros Hw Ha Hb. unfold encode_signed. rewrite !encode_signed_pat_be by exact Hw.
  rewrite lex_be_mod. fold (bits w). rewrite !to_pattern_shift by assumption.
  unfold in_signed in *. rewrite Z2N.inj_compare, !(Z.add_comm _ (Z.of_N (half w))) by lia.
  apply Z.add_compare_mono_l.
Qed.

Lemma encode_signed_length w z : length (encode_signed w z) = w.
Proof. apply encode_signed_pat_length. Qed.

Lemma encode_signed_wf w z : (1 <= w)%nat -> wf_bytes (encode_signed w z).
Proof. intros. now apply encode_signed_pat_wf. Qed.

Definition in_unsigned (w : nat) (z : Z) : Prop := (0 <= z < Z.of_N (2 ^ bits w))%Z.

Lemma in_unsigned_Z w z : (0 <= z < 2 ^ Z.of_N (bits w))%Z -> in_unsigned w z.
Proof. intros Hz. unfold in_unsigned. now rewrite <- pow_bits_Z. Qed.

Theorem unsigned_order w a b : in_unsigned w a -> in_unsigned w b ->
  lex (encode_unsigned w a) (encode_unsigned w b) = (a ?= b)%Z.
Proof.
  intros Ha Hb. unfold in_unsigned in *. unfold encode_unsigned.
  rewrite lex_be by (fold (bits w); lia). apply Z2N.inj_compare; lia.
Qed.

Lemma decode_encode_unsigned w z : in_unsigned w z -> decode_unsigned (encode_unsigned w z) = z.
Proof.
  intros Hz. unfold in_unsigned in Hz. unfold decode_unsigned, encode_unsigned.
  rewrite be_val_be_bytes. fold (bits w). rewrite N.mod_small by lia. lia.
Qed.

Theorem bool_order a b : (a = 0 \/ a = 1)%Z -> (b = 0 \/ b = 1)%Z ->
  lex (encode_bool a) (encode_bool b) = (a ?= b)%Z.
Proof. intros [-> | ->] [-> | ->]; reflexivity. Qed.

Lemma testbit_top k u : u < 2 * 2 ^ k -> N.testbit u k = (2 ^ k <=? u).
Proof.
  intros Hu. pose proof (N.testbit_spec' u k) as Hs.
  assert (Hp : 0 < 2 ^ k) by (apply N.neq_0_lt_0, N.pow_nonzero; lia).
  destruct (N.leb_spec (2 ^ k) u) as [Hge|Hlt].
  - assert (E : u / 2 ^ k = 1).
    { symmetry. apply N.div_unique with (r := u - 2 ^ k); lia. }
    rewrite E in Hs. destruct (N.testbit u k); [reflexivity|discriminate].
  - rewrite N.div_small in Hs by exact Hlt. destruct (N.testbit u k); [discriminate|reflexivity].
Qed.

Lemma to_pattern_lt w z : to_pattern w z < 2 ^ bits w.
Proof.
  unfold to_pattern. rewrite pow_bits_Z.
  assert (0 < 2 ^ bits w) by (apply N.neq_0_lt_0, N.pow_nonzero; lia).
  pose proof (Z.mod_pos_bound z (Z.of_N (2 ^ bits w))). lia.
Qed.

(* the two's complement reading of a pattern, and back *)
Lemma of_pattern_arith w p : (1 <= w)%nat -> p < 2 ^ bits w ->
  of_pattern w p = if p <? half w then Z.of_N p else (Z.of_N p - 2 * Z.of_N (half w))%Z.
Proof.
  intros Hw Hp. unfold of_pattern. rewrite pow_bits_half by exact Hw.
  rewrite testbit_top by (fold (half w); now rewrite half_double). fold (half w).
  destruct (N.leb_spec (half w) p), (N.ltb_spec p (half w)); first [reflexivity | lia].
Qed.

Lemma of_pattern_signed w p : (1 <= w)%nat -> p < 2 ^ bits w -> in_signed w (of_pattern w p).
Proof.
  intros Hw Hp. rewrite of_pattern_arith by assumption. unfold in_signed.
  rewrite <- half_double in Hp by exact Hw. destruct (N.ltb_spec p (half w)); lia.
Qed.

Lemma of_to_pattern w z : (1 <= w)%nat -> in_signed w z -> of_pattern w (to_pattern w z) = z.
Proof.
  intros Hw Hz. rewrite of_pattern_arith by (try apply to_pattern_lt; exact Hw).
  rewrite to_pattern_signed by assumption. unfold in_signed in Hz.
  destruct (Z.ltb_spec z 0).
  - destruct (N.ltb_spec (Z.to_N (z + 2 * Z.of_N (half w))) (half w)); lia.
  - destruct (N.ltb_spec (Z.to_N z) (half w)); lia.
Qed.

Lemma to_of_pattern w p : (1 <= w)%nat -> p < 2 ^ bits w -> to_pattern w (of_pattern w p) = p.
Proof.
  intros Hw Hp. rewrite to_pattern_signed by (try apply of_pattern_signed; assumption).
  rewrite of_pattern_arith by assumption. rewrite <- half_double in Hp by exact Hw.
  destruct (N.ltb_spec p (half w)).
  - destruct (Z.ltb_spec (Z.of_N p) 0); lia.
  - destruct (Z.ltb_spec (Z.of_N p - 2 * Z.of_N (half w)) 0); lia.
Qed.

Lemma decode_encode_signed w z : (1 <= w)%nat -> in_signed w z -> decode_signed w (encode_signed w z) = z.
Proof.
  intros Hw Hz. unfold decode_signed, encode_signed.
  rewrite decode_encode_signed_pat by apply to_pattern_lt. now apply of_to_pattern.
Qed.

Lemma lxor_ones_low k m : 0 < k -> m < 2 ^ k -> N.lxor m (N.ones k) = 2 ^ k - 1 - m.
Proof.
  intros Hk Hm. change (N.lxor m (N.ones k)) with (N.lnot m k).
  rewrite N.lnot_sub_low.
  - rewrite N.ones_equiv. lia.
  - destruct (N.eq_dec m 0) as [->|Hnz]; [cbn; exact Hk|].
    apply N.log2_lt_pow2; [lia | exact Hm].
Qed.

Lemma shiftr_ones k : 0 < k -> N.shiftr (N.ones k) 1 = N.ones (k - 1).
Proof.
  intros Hk. rewrite N.shiftr_div_pow2, !N.ones_equiv. change (2 ^ 1) with 2.
  replace k with (N.succ (k - 1)) at 1 by lia. rewrite N.pow_succ_r'.
  assert (0 < 2 ^ (k - 1)) by (apply N.neq_0_lt_0, N.pow_nonzero; lia).
  symmetry. apply N.div_unique with (r := 1); lia.
Qed.

(* the xor/shift trick on k+1 bits, arithmetically: non-negative patterns are kept, negative ones
   keep the sign bit and have their low k bits flipped: 2^k + (2^k - 1 - (u - 2^k)) = 3 * 2^k - 1 - u *)
Lemma xor_sar k u : 0 < k -> u < 2 * 2 ^ k ->
  N.lxor u (N.shiftr (if N.testbit u k then N.ones (N.succ k) else 0) 1)
  = if u <? 2 ^ k then u else 3 * 2 ^ k - 1 - u.
Proof.
  intros Hk Hu. rewrite testbit_top by exact Hu.
  destruct (N.leb_spec (2 ^ k) u) as [Hge|Hlt].
  - rewrite (proj2 (N.ltb_ge u (2 ^ k)) Hge), shiftr_ones by lia. replace (N.succ k - 1) with k by lia.
    replace u with (2 ^ k + (u - 2 ^ k)) at 1 by lia. rewrite <- lxor_pow2_low by lia.
    rewrite N.lxor_assoc, lxor_ones_low by lia. rewrite lxor_pow2_low by lia. lia.
  - rewrite (proj2 (N.ltb_lt u (2 ^ k)) Hlt), N.shiftr_0_l. apply N.lxor_0_r.
Qed.

Lemma float_key_arith w u : (1 <= w)%nat -> u < 2 ^ bits w ->
  float_key w u = if u <? half w then u else 3 * half w - 1 - u.
Proof.
  intros Hw Hu. unfold float_key, sar_sign, half.
  assert (Hk : 0 < bits w - 1) by (unfold bits; lia).
  replace (bits w) with (N.succ (bits w - 1)) in Hu |- * at 2 by lia.
  apply xor_sar; [exact Hk | now rewrite <- N.pow_succ_r'].
Qed.

Lemma float_key_lt w u : (1 <= w)%nat -> u < 2 ^ bits w -> float_key w u < 2 ^ bits w.
Proof.
  intros Hw Hu. rewrite float_key_arith by assumption. pose proof (half_double w Hw).
  destruct (N.ltb_spec u (half w)); lia.
Qed.

(* the mask is chosen by the top bit and leaves it alone: applying the key twice xors the same mask twice *)
Lemma sar_mask_top w u : N.testbit (N.shiftr (sar_sign w u) 1) (bits w - 1) = false.
Proof.
  unfold sar_sign. destruct (N.testbit u (bits w - 1)); [|now rewrite N.shiftr_0_l, N.bits_0].
  rewrite N.shiftr_spec', N.ones_spec_high; [reflexivity|lia].
Qed.

Lemma float_key_invol w u : float_key w (float_key w u) = u.
Proof.
  assert (E : sar_sign w (float_key w u) = sar_sign w u).
  { unfold sar_sign at 1, float_key. now rewrite N.lxor_spec, sar_mask_top, xorb_false_r. }
  unfold float_key at 1. rewrite E. unfold float_key.
  now rewrite N.lxor_assoc, N.lxor_nilpotent, N.lxor_0_r.
Qed.

(* fixed.rs computes the key as an iW and calls its encode(): the float encoding is the signed
   encoding of the key read as a signed integer (encode_float_signed).  That integer is the key of
   f32::total_cmp (skey_akey), which C10 shows to order patterns like totalOrder; [total_cmp] here and
   [total_order] there are two definitions of the same function, which only conversion ties. *)
Definition skey (w : nat) (z : Z) : Z := of_pattern w (float_key w (Z.to_N z)).

Lemma encode_float_signed w z : (1 <= w)%nat -> in_unsigned w z -> encode_float w z = encode_signed w (skey w z).
Proof.
  intros Hw Hz. unfold encode_float, encode_signed, skey. rewrite to_of_pattern; [reflexivity | exact Hw |].
  unfold in_unsigned in Hz. apply float_key_lt; [exact Hw | lia].
Qed.

Lemma skey_signed w z : (1 <= w)%nat -> in_unsigned w z -> in_signed w (skey w z).
Proof. intros Hw Hz. unfold in_unsigned in Hz. apply of_pattern_signed, float_key_lt; [exact Hw | exact Hw | lia]. Qed.

Lemma skey_akey w z : (1 <= w)%nat -> in_unsigned w z -> skey w z = C10_Float.akey (Z.of_N (half w)) z.
Proof.
  intros Hw Hz. unfold in_unsigned in Hz. unfold skey.
  rewrite of_pattern_arith by (try apply float_key_lt; try exact Hw; lia).
  rewrite float_key_arith by (try exact Hw; lia).
  unfold C10_Float.akey, C10_Order.f_mag, C10_Order.f_sign. rewrite <- half_double in Hz by exact Hw.
  destruct (N.ltb_spec (Z.to_N z) (half w)), (Z.leb_spec (Z.of_N (half w)) z); try lia.
  - destruct (N.ltb_spec (Z.to_N z) (half w)); lia.
  - destruct (N.ltb_spec (3 * half w - 1 - Z.to_N z) (half w)); lia.
Qed.

Theorem float_order w a b : (1 <= w)%nat -> in_unsigned w a -> in_unsigned w b ->
  lex (encode_float w a) (encode_float w b) = total_cmp (Z.of_N (half w)) a b.
Proof.
  intros Hw Ha Hb. rewrite !encode_float_signed by assumption.
  rewrite signed_order by (try apply skey_signed; assumption).
  rewrite !skey_akey by assumption. unfold in_unsigned in *. rewrite <- half_double in * by exact Hw.
  apply C10_Float.akey_total_order; lia.
Qed.

Lemma decode_encode_float w z : (1 <= w)%nat -> in_unsigned w z -> decode_float w (encode_float w z) = z.
Proof.
  intros Hw Hz. unfold in_unsigned in Hz. unfold decode_float, encode_float.
  rewrite decode_encode_signed_pat by (apply float_key_lt; [exact Hw | lia]).
  rewrite float_key_invol. lia.
Qed.
