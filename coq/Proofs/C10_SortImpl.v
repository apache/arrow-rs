(* C10 — sort_impl over oracle sorters, with any set of null rows split off, returns an index list that the
   sort predicate accepts, for every SortOptions and limit; sort_to_indices is the case where
   partition_validity does the splitting. *)
From Coq Require Import List ZArith Lia Bool Arith Permutation.
From AV Require Import Base.ListX Model.C10_Order Model.C10_Sort Proofs.C10_Cmp Proofs.C10_Sort.
Import ListNotations.

(* the oracles look at the comparator only on the elements of the slice *)
Definition sort_ext {T} (so : (T -> T -> comparison) -> list T -> list T) : Prop :=
  forall c1 c2 l, (forall x y, In x l -> In y l -> c1 x y = c2 x y) -> so c1 l = so c2 l.
Definition select_ext {T} (se : (T -> T -> comparison) -> nat -> list T -> list T) : Prop :=
  forall c1 c2 n l, (forall x y, In x l -> In y l -> c1 x y = c2 x y) -> se c1 n l = se c2 n l.

Lemma insert_ext {T} (c1 c2 : T -> T -> comparison) x l :
  (forall y, In y l -> c1 x y = c2 x y) -> insert c1 x l = insert c2 x l.
Proof.
  induction l as [|y l IH]; intros H; [reflexivity|]. cbn. rewrite (H y (or_introl eq_refl)).
  destruct (c2 x y); try reflexivity. f_equal. apply IH. intros z Hz. apply H. now right.
Qed.
Lemma isort_in {T} (c : T -> T -> comparison) l x : In x (isort c l) -> In x l.
Proof. intros H. apply (Permutation_in _ (isort_perm c l)). exact H. Qed.
Lemma isort_ext {T} : sort_ext (@isort T).
Proof.
  intros c1 c2 l. induction l as [|x l IH]; intros H; [reflexivity|]. cbn.
  rewrite IH by (intros a b Ha Hb; apply H; now right).
  apply insert_ext. intros y Hy. apply isort_in in Hy. apply H; [now left|now right].
Qed.
Lemma iselect_ext {T} : select_ext (@iselect T).
Proof. intros c1 c2 n l H. unfold iselect. now apply isort_ext. Qed.

(* partition_validity and sort_dictionary: the fast path for "no nulls" is the general split *)
Lemma split_nulls_fast {A} (f : A -> bool) l :
  (if length (filter f l) =? 0 then (l, []) else (filter (fun x => negb (f x)) l, filter f l))
  = (filter (fun x => negb (f x)) l, filter f l).
Proof.
  destruct (length (filter f l) =? 0) eqn:E; [|reflexivity].
  apply Nat.eqb_eq, length_zero_iff_nil in E. rewrite E. f_equal.
  induction l as [|y l IH]; [reflexivity|]. cbn in *. destruct (f y); [discriminate|]. cbn. f_equal. exact (IH E).
Qed.

Lemma filter_perm {A} (f : A -> bool) l : Permutation (filter f l ++ filter (fun x => negb (f x)) l) l.
Proof.
  induction l as [|y l IH]; [reflexivity|]. cbn. destruct (f y); cbn.
  - now constructor.
  - rewrite <- Permutation_middle. now constructor.
Qed.

Lemma firstn_app_len {A} (A1 B : list A) lim :
  firstn lim A1 ++ firstn (lim - length (firstn lim A1)) B = firstn lim (A1 ++ B).
Proof.
  rewrite firstn_app, firstn_length.
  destruct (Nat.le_gt_cases (length A1) lim) as [H|H].
  - now rewrite Nat.min_r by exact H.
  - rewrite Nat.min_l by lia. replace (lim - lim) with 0 by lia. replace (lim - length A1) with 0 by lia. reflexivity.
Qed.

(* the early return of sort_to_indices and sort_dictionary *)
Lemma early_return_len n limit :
  (n =? 0) || match limit with Some 0 => true | _ => false end = true -> out_len n limit = 0.
Proof.
  intros E. apply orb_true_iff in E. destruct E as [E|E].
  - apply Nat.eqb_eq in E. subst. destruct limit; cbn; lia.
  - now destruct limit as [[|]|].
Qed.

Section Oracles.
  Context {T : Type}.
  Variable so : (T -> T -> comparison) -> list T -> list T.
  Variable se : (T -> T -> comparison) -> nat -> list T -> list T.
  Hypothesis Hse : select_contract se.
  Hypothesis Hsoe : sort_ext so.
  Hypothesis Hsee : select_ext se.

  Lemma sort_unstable_by_ext c1 c2 k l : tpo c2 -> k <= length l ->
    (forall x y, In x l -> In y l -> c1 x y = c2 x y) ->
    sort_unstable_by so se c1 k l = sort_unstable_by so se c2 k l.
  Proof.
    intros Hc Hk E. unfold sort_unstable_by. destruct (length l =? k); [now apply Hsoe|].
    unfold partial_sort. destruct k as [|m]; [reflexivity|].
    rewrite (Hsee c1 c2 m l E). destruct (Hse c2 m l Hc Hk) as [P _]. f_equal. apply Hsoe.
    intros x y Hx Hy. apply E; apply (Permutation_in _ P); eapply In_firstn; eassumption.
  Qed.
End Oracles.

Lemma none_le (d : bool) (o : oval) : cmp_opts true d None o <> Gt /\ cmp_opts false d o None <> Gt.
Proof. destruct o; split; discriminate. Qed.

Section SortImpl.
  Context {V : Type}.
  Variable so : (nat * V -> nat * V -> comparison) -> list (nat * V) -> list (nat * V).
  Variable se : (nat * V -> nat * V -> comparison) -> nat -> list (nat * V) -> list (nat * V).
  Hypothesis Hso : sort_contract so.
  Hypothesis Hse : select_contract se.
  Hypothesis Hsoe : sort_ext so.
  Hypothesis Hsee : select_ext se.

  Variable vc : V -> V -> comparison.
  Variable value : nat -> V.
  Variable a : list oval.
  Variable nf desc : bool.

  Theorem sort_impl_check vs nl limit :
    Permutation (nl ++ vs) (seq 0 (length a)) ->
    (forall i, In i nl -> slot a i = None) ->
    (forall i j, In i vs -> In j vs ->
       rev_if desc (vc (value i) (value j)) = cmp_opts nf desc (slot a i) (slot a j)) ->
    sort_check (cmp_opts nf desc) a limit
      (sort_impl so se nf desc (map (fun i => (i, value i)) vs) nl limit vc) = 1%Z.
  Proof.
    intros Hperm Hnl Hvc. set (n := length a). set (valids := map (fun i => (i, value i)) vs).
    set (cR := fun i j => cmp_opts nf desc (slot a i) (slot a j)).
    set (c' := fun p q : nat * V => cR (fst p) (fst q)).
    assert (Hc' : tpo c') by apply (tpo_on (fun p : nat * V => slot a (fst p))), cmp_opts_tpo.
    assert (Lvs : length valids = length vs) by apply map_length.
    assert (Ln : length vs + length nl = n).
    { pose proof (Permutation_length Hperm) as H. rewrite app_length, seq_length in H. unfold n. lia. }
    unfold sort_impl. fold valids.
    set (v_limit := match limit, nf with Some l, true => Nat.min (l - length nl) (length valids) | _, _ => length valids end).
    assert (Hvl : v_limit <= length valids) by (unfold v_limit; destruct limit, nf; lia).
    (* the contracts speak of a total preorder on ALL tuples, the tuple comparison is known to be one only on the rows
       present: sort_ext lets the row order c' stand in for it *)
    rewrite (sort_unstable_by_ext so se Hse Hsoe Hsee _ c' v_limit valids Hc' Hvl).
    2: { intros x y Hx Hy. apply in_map_iff in Hx, Hy. destruct Hx as (i & <- & Hi), Hy as (j & <- & Hj). now apply Hvc. }
    destruct (sort_unstable_by_spec so se Hso Hse c' v_limit valids Hc' Hvl) as [P LA].
    set (sidx := map fst (sort_unstable_by so se c' v_limit valids)).
    assert (Psidx : Permutation sidx vs).
    { unfold sidx. rewrite P. unfold valids. rewrite map_map. cbn. now rewrite map_id. }
    assert (LAidx : le_after cR v_limit sidx) by apply (proj1 (le_after_map fst cR v_limit _)), LA.
    rewrite Lvs. replace (length vs + length nl) with n by lia.
    replace (Nat.min (match limit with Some l => l | None => n end) n) with (out_len n limit)
      by (unfold out_len; destruct limit; lia).
    assert (Enl : forall x y, In x nl -> In y nl -> cR x y <> Gt).
    { intros x y Hx Hy. unfold cR. rewrite (Hnl x Hx), (Hnl y Hy). discriminate. }
    destruct nf.
    - rewrite Nat.min_comm, firstn_min_length, firstn_app_len.
      apply (sort_check_firstn (cmp_opts true desc) a (slot a) (slot_nth_error a)).
      + now rewrite Psidx.
      + apply le_after_app.
        * now apply le_after_all.
        * intros x y Hx Hy. rewrite (Hnl x Hx). apply none_le.
        * apply (le_after_mono _ v_limit); [|exact LAidx].
          unfold v_limit, out_len. rewrite Lvs. fold n. destruct limit; lia.
    - rewrite firstn_app_len.
      apply (sort_check_firstn (cmp_opts false desc) a (slot a) (slot_nth_error a)).
      + now rewrite Psidx, Permutation_app_comm.
      + apply le_after_app.
        * apply (le_after_mono _ v_limit); [|exact LAidx]. unfold v_limit. rewrite Lvs, (Permutation_length Psidx). destruct limit; lia.
        * intros x y Hx Hy. rewrite (Hnl y Hy). apply none_le.
        * now apply le_after_all.
  Qed.

  Hypothesis Hvc : forall i j u v, slot a i = Some u -> slot a j = Some v ->
    vc (value i) (value j) = vcmp (child_nf nf desc) u v.

  Theorem sort_to_indices_check limit :
    sort_check (cmp_opts nf desc) a limit (sort_to_indices so se vc value a nf desc limit) = 1%Z.
  Proof.
    unfold sort_to_indices.
    destruct ((length a =? 0) || match limit with Some 0 => true | _ => false end) eqn:E.
    { now apply sort_check_nil, early_return_len. }
    unfold partition_validity. rewrite split_nulls_fast. apply sort_impl_check.
    - apply filter_perm.
    - intros i Hi. apply filter_In in Hi. unfold is_null in Hi. now destruct (slot a i).
    - intros i j Hi Hj. apply filter_In in Hi, Hj. unfold is_null in Hi, Hj.
      destruct (slot a i) as [u|] eqn:Eu, (slot a j) as [v|] eqn:Ev; try (now destruct Hi, Hj).
      now rewrite (Hvc i j u v Eu Ev).
  Qed.
End SortImpl.
