(* C08 — a Hoare layer for the `res` monad of the Thrift compact readers: `ensures P x` (never the fuel error, and on Ok
   the post-condition) with a bind rule, and `eats k bs` (the rest lies `behind` at least k bytes of bs).  One `_eats` lemma
   per reader and per skip loop; from them no reader, skip or footer decoder (meta_loop_nf, schema_loop_nf) ever runs
   out of its fuel, and what read_thrift_vec returns is shorter than its input (thrift_vec_len). *)
From Coq Require Import List NArith ZArith Bool Lia.
From AV Require Import Model.C08_Thrift.
Import ListNotations.
Local Open Scope N_scope.

(* mres has an error constructor of its own and no such word: there the same fact is written `<> MErr e_fuel` *)
Definition no_fuel {A} (x : res A) : Prop := x <> Err e_fuel.

(* x never reports "out of fuel", and what it returns satisfies P *)
Definition ensures {A} (P : A -> list N -> Prop) (x : res A) : Prop :=
  match x with Ok a r => P a r | Err k => k <> e_fuel end.

(* r is what is left of bs once at least k bytes have been taken off its front *)
Definition behind (k : nat) (bs r : list N) : Prop := exists p, bs = p ++ r /\ (k <= length p)%nat.

Lemma behind_app p r : behind (length p) (p ++ r) r.
Proof. exists p. split; [reflexivity|apply Nat.le_refl]. Qed.
Lemma behind_refl bs : behind 0 bs bs.
Proof. exact (behind_app [] bs). Qed.
Lemma behind_hd b r : behind 1 (b :: r) r.
Proof. exact (behind_app [b] r). Qed.
Lemma behind_tl k b bs r : behind k bs r -> behind k (b :: bs) r.
Proof. intros (p & -> & H). exists (b :: p). split; [reflexivity|apply Nat.le_le_succ_r, H]. Qed.
Lemma behind_trans k1 k2 bs r r' : behind k1 bs r -> behind k2 r r' -> behind (k1 + k2) bs r'.
Proof.
  intros (p & -> & H) (q & -> & G). exists (p ++ q). split; [apply app_assoc|].
  rewrite app_length. apply Nat.add_le_mono; assumption.
Qed.
Lemma behind_le k k' bs r : (k' <= k)%nat -> behind k bs r -> behind k' bs r.
Proof. intros Hk (p & E & H). exists p. split; [exact E|exact (Nat.le_trans _ _ _ Hk H)]. Qed.
Lemma behind_length k bs r : behind k bs r -> (length r + k <= length bs)%nat.
Proof. intros (p & -> & H). rewrite app_length. lia. Qed.

(* x never reports "out of fuel", and the rest it leaves lies at least k bytes into bs *)
Definition eats {A} (k : nat) (bs : list N) : res A -> Prop := ensures (fun _ r => behind k bs r).

Lemma ensures_nf {A} P (x : res A) : ensures P x -> no_fuel x.
Proof. destruct x; cbn; [discriminate|congruence]. Qed.

Lemma nf_ensures {A} (x : res A) : no_fuel x -> ensures (fun _ _ => True) x.
Proof. destruct x; cbn; [trivial|congruence]. Qed.

Lemma ensures_ok {A} P (x : res A) a r : ensures P x -> x = Ok a r -> P a r.
Proof. intros H ->. exact H. Qed.

Lemma ensures_mono {A} (P Q : A -> list N -> Prop) x :
  ensures P x -> (forall a r, P a r -> Q a r) -> ensures Q x.
Proof. destruct x; cbn; auto. Qed.

Lemma ensures_bind {A B} P Q (x : res A) (f : A -> list N -> res B) :
  ensures P x -> (forall a r, P a r -> ensures Q (f a r)) -> ensures Q (bind x f).
Proof. destruct x; cbn; auto. Qed.

Lemma ensures_mbind {A} P (x : res A) (f : A -> list N -> mres) :
  ensures P x -> (forall a r, P a r -> f a r <> MErr e_fuel) -> mbind x f <> MErr e_fuel.
Proof. destruct x; cbn; [auto|congruence]. Qed.

Lemma eats_consumed {A} k bs (x : res A) :
  eats k bs x -> match x with Ok _ r => (length r + k <= length bs)%nat | Err _ => True end.
Proof. destruct x; [apply behind_length|exact (fun _ => I)]. Qed.

Lemma ensures_intro {A} P (x : res A) :
  match x with Ok a r => P a r | Err _ => True end -> no_fuel x -> ensures P x.
Proof. destruct x; cbn; [auto|congruence]. Qed.

Lemma eats_weaken {A} k k' bs (x : res A) : (k' <= k)%nat -> eats k bs x -> eats k' bs x.
Proof. intros Hk H. apply (ensures_mono _ _ _ H). intros _ r. apply behind_le, Hk. Qed.

(* x eats k1 bytes, the continuation whatever is still owed (nothing, if k1 exceeds k: the subtraction is cut off at 0) *)
Lemma eats_bind {A B} k1 k bs (x : res A) (f : A -> list N -> res B) :
  eats k1 bs x -> (forall a r, (length r + k1 <= length bs)%nat -> eats (k - k1) r (f a r)) ->
  eats k bs (bind x f).
Proof.
  intros Hx Hf. apply (ensures_bind _ _ _ _ Hx). intros a r Hr.
  apply (ensures_mono _ _ _ (Hf a r (behind_length _ _ _ Hr))). intros _ r' Hr'.
  apply (behind_le (k1 + (k - k1))); [lia|exact (behind_trans _ _ _ _ _ Hr Hr')].
Qed.

Lemma eats_ret {A} (a : A) r : eats 0 r (Ok a r).
Proof. apply behind_refl. Qed.
Lemma eats_eof {A} k bs : @eats A k bs (Err e_eof). Proof. discriminate. Qed.
Lemma eats_inv {A} k bs : @eats A k bs (Err e_inv). Proof. discriminate. Qed.
#[local] Hint Resolve eats_ret eats_eof eats_inv : eats.

Lemma nf_ok {A} (a : A) r : no_fuel (Ok a r). Proof. discriminate. Qed.
Lemma nf_eof {A} : no_fuel (@Err A e_eof). Proof. discriminate. Qed.
Lemma nf_inv {A} : no_fuel (@Err A e_inv). Proof. discriminate. Qed.

Lemma mbind_nf {A} (x : res A) (f : A -> list N -> mres) :
  no_fuel x -> (forall a r, f a r <> MErr e_fuel) -> mbind x f <> MErr e_fuel.
Proof. destruct x as [a r|k]; cbn; intros H Hf; [apply Hf|]. intros E. apply H. inversion E. reflexivity. Qed.

Lemma read_byte_eats bs : eats 1 bs (read_byte bs).
Proof. destruct bs; [discriminate|apply behind_hd]. Qed.

(* take_bytes hands out the first n bytes and leaves the others *)
Lemma take_bytes_spec n bs : ensures (fun s r => bs = s ++ r /\ length s = N.to_nat n) (take_bytes n bs).
Proof.
  unfold take_bytes. destruct (N.leb_spec n (N.of_nat (length bs))); [|discriminate].
  split; [symmetry; apply firstn_skipn|]. rewrite firstn_length. lia.
Qed.

Lemma take_bytes_eats n bs : eats (N.to_nat n) bs (take_bytes n bs).
Proof. apply (ensures_mono _ _ _ (take_bytes_spec n bs)). intros s r [-> <-]. apply behind_app. Qed.

Lemma vlq_loop_eats bs : forall acc sh, eats 1 bs (vlq_loop bs acc sh).
Proof.
  induction bs as [|b r IH]; intros acc sh; cbn [vlq_loop]; [apply eats_eof|].
  destruct (b <? 128); [apply behind_hd|].
  eapply ensures_mono; [apply IH|]. intros v r'. apply behind_tl.
Qed.

Lemma read_vlq_eats bs : eats 1 bs (read_vlq bs).
Proof.
  destruct bs as [|b r]; cbn [read_vlq]; [apply eats_eof|]. destruct (b <? 128); [apply behind_hd|].
  eapply ensures_mono; [apply (vlq_loop_eats r)|]. intros v r'. apply behind_tl.
Qed.

Lemma skip_vlq_eats bs : eats 1 bs (skip_vlq bs).
Proof.
  induction bs as [|b r IH]; cbn [skip_vlq]; [apply eats_eof|]. destruct (b <? 128); [apply behind_hd|].
  eapply ensures_mono; [apply IH|]. intros v r'. apply behind_tl.
Qed.

Lemma read_zig_zag_eats bs : eats 1 bs (read_zig_zag bs).
Proof. apply (eats_bind 1); [apply read_vlq_eats|auto with eats]. Qed.
Lemma read_i16_eats bs : eats 1 bs (read_i16 bs).
Proof. apply (eats_bind 1); [apply read_zig_zag_eats|auto with eats]. Qed.
Lemma read_i64_eats bs : eats 1 bs (read_i64 bs).
Proof. apply read_zig_zag_eats. Qed.
Lemma read_i32_eats bs : eats 1 bs (read_i32 bs).
Proof. apply (eats_bind 1); [apply read_zig_zag_eats|auto with eats]. Qed.

Lemma read_list_begin_eats bs : eats 1 bs (read_list_begin bs).
Proof.
  apply (eats_bind 1); [apply read_byte_eats|]. intros h r _. destruct (h =? 0); [apply eats_ret|].
  destruct (elem_type (N.land h 15)); [|apply eats_inv]. cbv zeta. destruct (negb (N.shiftr h 4 =? 15)); [apply eats_ret|].
  apply (eats_bind 1); [apply read_vlq_eats|]. intros m r' _. destruct (m <=? i32_max); auto with eats.
Qed.

Lemma read_field_begin_eats last bs : eats 1 bs (read_field_begin last bs).
Proof.
  apply (eats_bind 1); [apply read_byte_eats|]. intros b r _. destruct (N.land b 15 =? 0); [apply eats_ret|].
  cbv zeta. destruct (13 <? N.land b 15); [apply eats_inv|]. destruct (negb (N.shiftr b 4 =? 0)).
  - destruct (last + Z.of_N (N.shiftr b 4) <=? 32767)%Z; auto with eats.
  - apply (eats_bind 1); [apply read_i16_eats|auto with eats].
Qed.

(* read_bytes returns a slice of the input: the declared length is checked against what remains *)
Lemma read_bytes_spec bs : ensures (fun s r => exists p, bs = p ++ s ++ r /\ (1 <= length p)%nat) (read_bytes bs).
Proof.
  apply (ensures_bind _ _ _ _ (read_vlq_eats bs)). intros n r0 (p & -> & Hp).
  apply (ensures_mono _ _ _ (take_bytes_spec n r0)). intros s r [-> _]. now exists p.
Qed.

Lemma read_bytes_eats bs : eats 1 bs (read_bytes bs).
Proof.
  apply (ensures_mono _ _ _ (read_bytes_spec bs)). intros s r (p & -> & Hp). rewrite app_assoc.
  apply (behind_le (length (p ++ s))); [rewrite app_length; lia|apply behind_app].
Qed.

Lemma read_string_eats bs : eats 1 bs (read_string bs).
Proof.
  apply (eats_bind 1); [apply read_bytes_eats|]. intros s r _. destruct (Base.Utf8.valid_utf8 s); auto with eats.
Qed.

Lemma read_bytes_in_bounds bs s r : read_bytes bs = Ok s r -> (length s + length r < length bs)%nat /\ exists p, bs = p ++ s ++ r.
Proof.
  intros H. destruct (ensures_ok _ _ _ _ (read_bytes_spec bs) H) as (p & -> & Hp).
  split; [rewrite !app_length; lia|now exists p].
Qed.

(* what a successful skip of a field of type ft consumes at least: booleans live in the field header *)
Definition min_bytes (ft : N) : nat := if is_bool_ty ft then 0 else 1.

Section SkipInd.
  Variable skip_d : N -> list N -> res unit.
  Variable d_pos : bool.
  Hypothesis Hd : forall ft bs, eats (min_bytes ft) bs (skip_d ft bs).

  (* Each loop carries the input length as fuel; an iteration that eats a byte leaves enough for the rest. *)
  Lemma struct_loop_eats : forall f bs, (length bs < f)%nat -> eats 1 bs (skip_struct_loop skip_d f bs).
  Proof.
    induction f as [|f IH]; intros bs Hl; [lia|]. cbn [skip_struct_loop].
    apply (eats_bind 1); [apply read_field_begin_eats|]. intros [ty id] r Hr. cbn [fst].
    destruct (ty =? 0); [apply eats_ret|].
    apply (eats_bind (min_bytes ty)); [apply Hd|]. intros _ r' Hr'.
    apply (eats_weaken 1); [apply Nat.le_0_l|apply IH; lia].
  Qed.

  Lemma rep_eats : forall f n et bs, is_bool_ty et = false -> (length bs < f)%nat ->
    eats 0 bs (skip_rep skip_d f n et bs).
  Proof.
    induction f as [|f IH]; intros n et bs Hb Hl; [lia|]. cbn [skip_rep]. destruct (n =? 0); [apply eats_ret|].
    apply (eats_bind (min_bytes et)); [apply Hd|]. intros _ r Hr. apply IH; [exact Hb|].
    unfold min_bytes in Hr. rewrite Hb in Hr. lia.
  Qed.

  Lemma rep2_eats : forall f n kt vt bs, is_bool_ty kt && is_bool_ty vt = false -> (length bs < f)%nat ->
    eats 0 bs (skip_rep2 skip_d f n kt vt bs).
  Proof.
    induction f as [|f IH]; intros n kt vt bs Hb Hl; [lia|]. cbn [skip_rep2]. destruct (n =? 0); [apply eats_ret|].
    apply (eats_bind (min_bytes kt)); [apply Hd|]. intros _ r Hr.
    apply (eats_bind (min_bytes vt)); [apply Hd|]. intros _ r' Hr'.
    apply IH; [exact Hb|].
    (* key or value is not a boolean, so the pair ate a byte *)
    unfold min_bytes in Hr, Hr'. destruct (is_bool_ty kt), (is_bool_ty vt); [discriminate|lia..].
  Qed.

  Lemma skip_body_eats ft bs : eats (min_bytes ft) bs (skip_body skip_d d_pos ft bs).
  Proof.
    unfold skip_body, min_bytes. destruct (is_bool_ty ft); [apply eats_ret|].
    destruct (ft =? 3). { apply (eats_bind 1); [apply read_byte_eats|auto with eats]. }
    destruct ((ft =? 4) || (ft =? 5) || (ft =? 6)). { apply skip_vlq_eats. }
    destruct (ft =? 7). { apply (eats_bind 8); [apply (take_bytes_eats 8)|auto with eats]. }
    destruct (ft =? 8). { apply (eats_bind 1); [apply read_vlq_eats|]. intros n r _.
      apply (eats_bind (N.to_nat n)); [apply take_bytes_eats|auto with eats]. }
    destruct (ft =? 12). { apply struct_loop_eats, Nat.lt_succ_diag_r. }
    destruct ((ft =? 9) || (ft =? 10)). { apply (eats_bind 1); [apply read_list_begin_eats|]. intros [et n] r _.
      destruct (n =? 0); [apply eats_ret|].
      destruct (is_bool_ty et) eqn:Eb; [destruct d_pos; auto with eats|apply rep_eats; [exact Eb|apply Nat.lt_succ_diag_r]]. }
    destruct (ft =? 11). { apply (eats_bind 1); [apply read_vlq_eats|]. intros n r _.
      destruct (i32_max <? n); [apply eats_inv|]. destruct (n =? 0); [apply eats_ret|].
      apply (eats_bind 1); [apply read_byte_eats|]. intros kv r' _.
      destruct (elem_type (N.shiftr kv 4)) as [kt|]; [|apply eats_inv]. destruct (elem_type (N.land kv 15)) as [vt|]; [|apply eats_inv].
      destruct (is_bool_ty kt && is_bool_ty vt) eqn:Eb; [destruct d_pos; auto with eats|apply rep2_eats; [exact Eb|apply Nat.lt_succ_diag_r]]. }
    destruct (ft =? 13). { apply (eats_bind 16); [apply (take_bytes_eats 16)|auto with eats]. }
    apply eats_inv.
  Qed.
End SkipInd.

Lemma skip_eats d : forall ft bs, eats (min_bytes ft) bs (skip d ft bs).
Proof. induction d as [|d IH]; intros ft bs; cbn [skip]; [apply eats_inv|apply skip_body_eats, IH]. Qed.

Lemma skip_progress d ft bs r : skip d ft bs = Ok tt r -> (length r <= length bs)%nat /\ (is_bool_ty ft = false -> (length r < length bs)%nat).
Proof.
  intros H. pose proof (eats_consumed _ _ _ (skip_eats d ft bs)) as He. rewrite H in He. unfold min_bytes in He.
  split; [lia|]. intros Hb. rewrite Hb in He. lia.
Qed.

Lemma skip_default_eats0 ft bs : eats 0 bs (skip_default ft bs).
Proof. apply (eats_weaken (min_bytes ft)); [apply Nat.le_0_l|apply skip_eats]. Qed.

Lemma meta_loop_nf : forall f last st bs, (length bs < f)%nat -> meta_loop f last st bs <> MErr e_fuel.
Proof.
  induction f as [|f IH]; intros last st bs Hl; [lia|]. cbn [meta_loop].
  apply (ensures_mbind _ _ _ (read_field_begin_eats last bs)). intros [ty id] r Hr%behind_length.
  (* the field header ate a byte, so whatever is left of r fits the remaining fuel *)
  assert (Hnext : forall k st' r', behind k r r' -> meta_loop f id st' r' <> MErr e_fuel)
    by (intros k st' r' H%behind_length; apply IH; lia).
  destruct (ty =? 0).
  { unfold meta_finish. destruct (m_version st), (m_rows st), (m_rgs st); discriminate. }
  destruct (id =? 1)%Z. { apply (ensures_mbind _ _ _ (read_i32_eats r)). intros v r'. apply Hnext. }
  destruct (id =? 3)%Z. { apply (ensures_mbind _ _ _ (read_i64_eats r)). intros v r'. apply Hnext. }
  destruct (id =? 4)%Z. { apply (ensures_mbind _ _ _ (read_list_begin_eats r)). intros [et n] r' Hr'. cbn [fst snd].
    destruct (negb (et =? 12)); [discriminate|]. destruct (n =? 0); [exact (Hnext _ _ _ Hr')|discriminate]. }
  destruct ((id =? 5)%Z || (id =? 7)%Z); [discriminate|].
  destruct (id =? 6)%Z. { apply (ensures_mbind _ _ _ (read_string_eats r)). intros v r'. apply Hnext. }
  apply (ensures_mbind _ _ _ (skip_default_eats0 ty r)). intros v r'. apply Hnext.
Qed.

Lemma schema_loop_nf : forall f last bs, (length bs < f)%nat -> no_fuel (schema_loop f last bs).
Proof.
  induction f as [|f IH]; intros last bs Hl; [lia|]. cbn [schema_loop].
  apply (ensures_nf (fun _ _ => True)), (ensures_bind _ _ _ _ (read_field_begin_eats last bs)). intros [ty id] r Hr%behind_length.
  destruct (ty =? 0); [discriminate|]. destruct (id =? 2)%Z; [exact I|].
  apply (ensures_bind _ _ _ _ (skip_default_eats0 ty r)). intros _ r' Hr'%behind_length.
  apply nf_ensures, IH. lia.
Qed.

(* what schema_probe returns, the input at the start of the schema list, is strictly shorter than the footer *)
Lemma schema_loop_suffix : forall f last bs r x, schema_loop f last bs = Ok r x -> (length r < length bs)%nat.
Proof.
  induction f as [|f IH]; intros last bs r x; cbn [schema_loop]; [discriminate|].
  pose proof (eats_consumed _ _ _ (read_field_begin_eats last bs)) as H1.
  destruct (read_field_begin last bs) as [[ty id] r0|k]; cbn [bind]; [|discriminate].
  destruct (ty =? 0); [discriminate|]. destruct (id =? 2)%Z; [intros [= <- _]; lia|].
  pose proof (eats_consumed _ _ _ (skip_default_eats0 ty r0)) as H2.
  destruct (skip_default ty r0) as [u r'|k]; cbn [bind]; [|discriminate].
  intros H. apply IH in H. lia.
Qed.

(* What read_thrift_vec RETURNS is bounded by the input, whatever count the header declares, and its loop terminates,
   for every element reader that leaves a rest at least one byte shorter.  The hypothesis is about lengths only (not
   `eats 1`), because that is all the property states of the element reader. *)
Section VecLen.
  Context {A : Type}.
  Variable rd : list N -> res A.
  Hypothesis rd_progress : forall bs, ensures (fun _ r => (length r + 1 <= length bs)%nat) (rd bs).

  Lemma vec_loop_len : forall f n bs acc, (length bs < f)%nat ->
    ensures (fun v r => (length v + length r <= length acc + length bs)%nat) (vec_loop rd f n bs acc).
  Proof.
    induction f as [|f IH]; intros n bs acc Hl; [lia|]. cbn [vec_loop].
    destruct (n =? 0); [cbn; rewrite rev_length; lia|].
    apply (ensures_bind _ _ _ _ (rd_progress bs)). intros a r Hr.
    apply (ensures_mono _ _ _ (IH (n - 1) r (a :: acc) ltac:(lia))). cbn [length]. intros v r'. lia.
  Qed.

  Lemma thrift_vec_len e bs :
    ensures (fun v r => (length v + length r < length bs)%nat) (read_thrift_vec rd e bs).
  Proof.
    apply (ensures_bind _ _ _ _ (read_list_begin_eats bs)). intros [et n] r Hr%behind_length. cbn [fst snd].
    destruct (negb (et =? e)); [discriminate|].
    apply (ensures_mono _ _ _ (vec_loop_len _ n r [] (Nat.lt_succ_diag_r _))). cbn [length]. intros v r'. lia.
  Qed.
End VecLen.
