(* C10 — sort_dictionary and sort_list sort through the ranks of the dictionary values / list elements:
   the output is accepted by the sort predicate for the comparator on LOGICAL values, also when valid keys
   point at null dictionary values. *)
From Coq Require Import List ZArith Lia Bool Arith.
From AV Require Import Base.ListX Model.C10_Order Model.C10_Sort Model.C10_Dict.
From AV Require Import Proofs.C10_Cmp Proofs.C10_Sort Proofs.C10_SortImpl Proofs.C10_Rank.

Section Dict.
  Variable so : (nat * nat -> nat * nat -> comparison) -> list (nat * nat) -> list (nat * nat).
  Variable se : (nat * nat -> nat * nat -> comparison) -> nat -> list (nat * nat) -> list (nat * nat).
  Hypothesis Hso : sort_contract so.
  Hypothesis Hse : select_contract se.
  Hypothesis Hsoe : sort_ext so.
  Hypothesis Hsee : select_ext se.

  Theorem sort_dictionary_check keys values nf desc limit :
    (forall i k, nth i keys None = Some k -> k < length values) ->
    sort_check (cmp_opts nf desc) (dict_col keys values) limit (sort_dictionary so se keys values nf desc limit) = 1%Z.
  Proof.
    intros Hk. unfold sort_dictionary. set (a := dict_col keys values).
    assert (La : length a = length keys) by (unfold a, dict_col; now rewrite map_length, seq_length).
    destruct ((length keys =? 0) || match limit with Some 0 => true | _ => false end) eqn:E.
    { apply sort_check_nil, early_return_len. now rewrite La. }
    rewrite split_nulls_fast.
    assert (Hslot : forall i, In i (seq 0 (length keys)) -> slot a i = dict_slot keys values i).
    { intros i Hi. apply in_seq in Hi. unfold slot, a, dict_col. now rewrite nth_map_seq by lia. }
    apply (sort_impl_check so se Hso Hse Hsoe Hsee Nat.compare
             (fun i => nth (key_of keys i) (child_rank nf desc values) 0) a nf desc).
    - rewrite La. apply filter_perm.
    - intros i Hi. apply filter_In in Hi. destruct Hi as [Hi1 Hi2].
      rewrite (Hslot i Hi1). unfold dict_slot. unfold key_null in Hi2. now destruct (nth i keys None).
    - intros i j Hi Hj. apply filter_In in Hi, Hj. destruct Hi as [Hi1 Hi2], Hj as [Hj1 Hj2].
      rewrite (Hslot i Hi1), (Hslot j Hj1). unfold dict_slot, key_of, key_null in *.
      destruct (nth i keys None) as [k1|] eqn:E1; [|discriminate]. destruct (nth j keys None) as [k2|] eqn:E2; [|discriminate].
      pose proof (Hk i k1 E1) as B1. pose proof (Hk j k2 E2) as B2.
      unfold cmp_opts, ocmp. rewrite <- ncmp_child. f_equal. unfold child_rank. rewrite !rank_spec_nth by assumption.
      apply (rank_order (vcmp (child_nf nf desc)) (child_nf nf desc) values); [apply vcmp_tpo|now apply nth_In..].
  Qed.
End Dict.

Section ListSort.
  Variable so : (nat * list nat -> nat * list nat -> comparison) -> list (nat * list nat) -> list (nat * list nat).
  Variable se : (nat * list nat -> nat * list nat -> comparison) -> nat -> list (nat * list nat) -> list (nat * list nat).
  Hypothesis Hso : sort_contract so.
  Hypothesis Hse : select_contract se.
  Hypothesis Hsoe : sort_ext so.
  Hypothesis Hsee : select_ext se.

  Theorem sort_list_check child a nf desc limit :
    (forall i u, slot a i = Some u -> exists l, u = VList l /\ forall o, In o l -> In o child) ->
    sort_check (cmp_opts nf desc) a limit (sort_list so se child a nf desc limit) = 1%Z.
  Proof.
    intros Hl. unfold sort_list. apply (sort_to_indices_check so se Hso Hse Hsoe Hsee).
    intros i j u v Hu Hv. rewrite Hu, Hv.
    destruct (Hl i u Hu) as (l1 & -> & H1). destruct (Hl j v Hv) as (l2 & -> & H2).
    cbn [list_ranks]. rewrite vcmp_list. apply lex_cmp_map.
    intros p q Hp Hq. apply rank_order; [apply vcmp_tpo|apply H1, Hp|apply H2, Hq].
  Qed.
End ListSort.
