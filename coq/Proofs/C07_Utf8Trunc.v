(* C07 — UTF-8 aware truncation, from two facts.  UTF-8 preserves the order of scalar values
   ([encode_mono]), so replacing a character by its successor gives a string above every extension of
   the prefix it ends.  A character boundary of a valid string splits its list of scalar values
   ([boundary_cut], through Utf8.encoding_split), so a prefix cut there is valid.  Hence the truncated
   minimum is a valid UTF-8 prefix, the truncated and incremented maximum is valid UTF-8 and strictly
   greater than the original. *)
From Coq Require Import List NArith Arith Lia Bool.
From AV Require Base.Utf8.
From AV Require Import Base.ListX Model.C07_Trunc Proofs.C07_Trunc Proofs.C07_Utf8.
Import ListNotations.
Local Open Scope N_scope.

Notation scalars cs := (Forall (fun c => scalar c = true) cs).

(* UTF-8 preserves the order of scalar values, whatever follows the two encodings: within a row the
   digits are compared from the most significant down; across rows the lead bytes decide. *)
Lemma encode_mono c d s s' : scalar c = true -> scalar d = true -> c < d -> lex (encode c ++ s) (encode d ++ s') = Lt.
Proof.
  rewrite scalar_eq, encode_eq. intros Sc Sd.
  pose proof (Utf8.encode_encoded c Sc) as Ec. pose proof (Utf8.encode_encoded d Sd) as Ed. clear Sc Sd.
  destruct Ec, Ed; intros L; cbn [app].
  (* a narrower row against a wider one (and row 1 against itself): the lead bytes of the rows are increasing ranges *)
  all: try (apply lex_cons_lt; lia).
  (* a wider row against a narrower one: the scalar values of the rows are increasing ranges too *)
  all: try (exfalso; lia).
  - (* row 2 against row 2 *)
    apply lex_cons_le; [lia|intros ->]. apply lex_cons_lt. lia.
  - (* row 3 against row 3 *)
    apply lex_cons_le; [lia|intros ->]. apply lex_cons_le; [lia|intros ->]. apply lex_cons_lt. lia.
  - (* row 4 against row 4 *)
    apply lex_cons_le; [lia|intros ->]. apply lex_cons_le; [lia|intros ->]. apply lex_cons_le; [lia|intros ->].
    apply lex_cons_lt. lia.
Qed.

Lemma flat_map_snoc {A B} (f : A -> list B) l x : flat_map f (l ++ [x]) = flat_map f l ++ f x.
Proof. rewrite flat_map_app. cbn [flat_map]. now rewrite app_nil_r. Qed.

Lemma increment_utf8_rev_spec rcs : forall r, increment_utf8_rev rcs = Some r -> scalars rcs ->
  valid_utf8 r = true /\ above (flat_map encode (rev rcs)) r.
Proof.
  induction rcs as [|c rest IH]; intros r H S; [discriminate|].
  inversion S as [|? ? Sc Srest]; subst. cbn [increment_utf8_rev rev] in *. rewrite flat_map_snoc.
  destruct (scalar (c + 1) && (length (encode (c + 1)) =? length (encode c))%nat) eqn:E.
  - apply andb_true_iff in E as [E1 _]. inversion H; subst. split.
    + rewrite <- flat_map_snoc. apply valid_encode, Forall_app. split; [now apply Forall_rev|]. now constructor.
    + apply above_app_l. intros s. rewrite <- (app_nil_r (encode (c + 1))). apply encode_mono; [exact Sc|exact E1|lia].
  - destruct (IH r H Srest) as [V L]. split; [exact V|now apply above_app_r].
Qed.

Lemma icb_zero d : is_char_boundary d 0 = true.
Proof. reflexivity. Qed.

Lemma boundary_start d x : x <> 0%nat -> is_char_boundary d x = true -> Utf8.char_start (skipn x d).
Proof.
  intros Hx. unfold is_char_boundary, Utf8.char_start. rewrite (proj2 (Nat.eqb_neq x 0) Hx).
  destruct (Nat.leb_spec (length d) x) as [L|L]; [now rewrite skipn_all2|].
  rewrite nth_skipn, Nat.add_0_r. unfold Utf8.cont. generalize (nth x d 0). intros b H.
  apply orb_true_iff in H as [H|H]; [apply N.ltb_lt in H|apply N.leb_le in H];
    apply andb_false_iff; [left|right]; apply N.leb_gt; lia.
Qed.

Lemma rfind_from_spec p lo cnt s : rfind_from p lo cnt = Some s -> p s = true /\ (lo <= s < lo + cnt)%nat.
Proof.
  induction cnt as [|c IH]; cbn [rfind_from]; [discriminate|].
  destruct (p (lo + c)%nat) eqn:E; intros H.
  - inversion H; subst. split; [exact E|lia].
  - destruct (IH H). split; [assumption|lia].
Qed.
Lemma rfind_spec p lo hi s : rfind p lo hi = Some s -> p s = true /\ (lo <= s <= hi)%nat.
Proof. unfold rfind. intros H. apply rfind_from_spec in H. destruct H. split; [assumption|lia]. Qed.

Lemma boundary_cut d s : valid_utf8 d = true -> is_char_boundary d s = true ->
  exists cs, scalars cs /\ firstn s d = flat_map encode cs.
Proof.
  intros V Rb. apply valid_utf8_iff in V as (cs & Sc & E).
  destruct (Nat.eq_dec s 0) as [->|Hs]; [now exists []|].
  rewrite encode_eq in E |- *. rewrite <- (firstn_skipn s d) in E at 1.
  destruct (Utf8.encoding_split cs _ _ (eq_sym E) (boundary_start d s Hs Rb)) as (cs1 & cs2 & -> & E1 & _).
  exists cs1. split; [now apply Forall_app in Sc|exact E1].
Qed.

Theorem truncate_utf8_valid d l t : valid_utf8 d = true -> truncate_utf8 d l = Some t -> valid_utf8 t = true.
Proof.
  intros V. unfold truncate_utf8. destruct (rfind (is_char_boundary d) 1 l) as [s|] eqn:R; [|discriminate].
  intros H; inversion H; subst t. apply valid_utf8_iff. exact (boundary_cut d s V (proj1 (rfind_spec _ _ _ _ R))).
Qed.

Theorem truncate_and_increment_utf8_spec d l r : valid_utf8 d = true ->
  truncate_and_increment_utf8 d l = Some r -> valid_utf8 r = true /\ lex d r = Lt.
Proof.
  intros V. unfold truncate_and_increment_utf8.
  destruct (rfind (is_char_boundary d) (l - 3) l) as [s|] eqn:R; [|discriminate].
  destruct (boundary_cut d s V (proj1 (rfind_spec _ _ _ _ R))) as (cs & Sc & E).
  unfold increment_utf8. rewrite E, (decode_encode cs Sc).
  intros H. apply increment_utf8_rev_spec in H as [Vr L]; [|now apply Forall_rev].
  split; [exact Vr|]. rewrite rev_involutive, <- E in L. exact (above_firstn s d r L).
Qed.

Lemma max_cut_gt utf8 d l r : max_cut utf8 d l = Some r -> lex d r = Lt.
Proof.
  unfold max_cut. destruct (utf8 && valid_utf8 d) eqn:U; [|apply max_cut_bytes_gt].
  apply andb_true_iff in U as [_ V]. intros E. now apply (truncate_and_increment_utf8_spec d l r V).
Qed.

Lemma min_cut_valid d l t : valid_utf8 d = true -> min_cut true d l = Some t -> valid_utf8 t = true.
Proof. intros V. unfold min_cut. rewrite V. exact (truncate_utf8_valid d l t V). Qed.

Lemma max_cut_valid d l t : valid_utf8 d = true -> max_cut true d l = Some t -> valid_utf8 t = true.
Proof. intros V. unfold max_cut. rewrite V. intros E. now destruct (truncate_and_increment_utf8_spec d l t V E). Qed.

Theorem truncate_max_gt_all utf8 tl d r : truncate_max_value utf8 tl d = (r, true) -> lex d r = Lt.
Proof.
  rewrite truncate_max_cut. destruct (cutP (max_cut utf8 d) tl d) as [l t E|]; intros H; inversion H; subst.
  now apply (max_cut_gt utf8 d l).
Qed.

Theorem truncate_min_utf8_valid tl d : valid_utf8 d = true -> valid_utf8 (fst (truncate_min_value true tl d)) = true.
Proof.
  intros V. rewrite truncate_min_cut. destruct (cutP (min_cut true d) tl d) as [l t E|]; [|exact V].
  exact (min_cut_valid d l t V E).
Qed.

Theorem truncate_max_utf8_valid tl d : valid_utf8 d = true -> valid_utf8 (fst (truncate_max_value true tl d)) = true.
Proof.
  intros V. rewrite truncate_max_cut. destruct (cutP (max_cut true d) tl d) as [l t E|]; [|exact V].
  exact (max_cut_valid d l t V E).
Qed.

Corollary truncated_max_bounds utf8 tl d v : lex v d <> Gt -> lex v (fst (truncate_max_value utf8 tl d)) <> Gt.
Proof.
  intros H. destruct (truncate_max_value utf8 tl d) as [r [|]] eqn:E; cbn [fst].
  - apply truncate_max_gt_all in E. rewrite (lex_le_lt_trans v d r H E). discriminate.
  - rewrite truncate_max_cut in E. apply cut_false in E. now subst.
Qed.

Lemma truncated_cover utf8 tl mn mx v : lex mn v <> Gt -> lex v mx <> Gt ->
  lex (fst (truncate_min_value utf8 tl mn)) v <> Gt /\ lex v (fst (truncate_max_value utf8 tl mx)) <> Gt.
Proof. intros; split; [now apply truncated_min_bounds|now apply truncated_max_bounds]. Qed.
