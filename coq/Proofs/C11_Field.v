(* C11 — a field that can be null is strong as soon as its valid values are ([nullable]): null is a
   sentinel byte at one end of the range, a valid value starts strictly inside it.  The six
   fixed-width types are instances of one record, and the induction over field types treats them
   as one case; the variable-length leaf.  Then: encodings are non-empty lists of bytes below 256. *)
From Coq Require Import List Arith NArith ZArith Lia.
From AV Require Import Base.ListX Model.C11_Row Proofs.C11_Lex Proofs.C11_Fixed Proofs.C11_Var Proofs.C11_Unfold.
Import ListNotations.
Local Open Scope N_scope.

(* cmp_asc passes through TRee before it looks for nulls: what is said of nulls below holds for
   the other types, and for TRee through its child *)
Definition nonree (t : ftype) : Prop := match t with TRee _ => False | _ => True end.

Lemma cmp_field_nn t o : nonree t -> cmp_field t o VNull VNull = Eq.
Proof. intros H. unfold cmp_field. destruct t; try contradiction; destruct (descending o); reflexivity. Qed.

Lemma cmp_asc_null t nf a : nonree t -> a <> VNull ->
  cmp_asc t nf VNull a = (if nf then Lt else Gt) /\ cmp_asc t nf a VNull = (if nf then Gt else Lt).
Proof. intros H Na. destruct t; try contradiction; destruct a; try congruence; split; reflexivity. Qed.

Lemma cmp_field_null t o a : nonree t -> a <> VNull ->
  cmp_field t o VNull a = (if nulls_first o then Lt else Gt) /\
  cmp_field t o a VNull = (if nulls_first o then Gt else Lt).
Proof.
  intros H Na. unfold cmp_field.
  destruct (cmp_asc_null t (nulls_first o) a H Na) as [-> ->].
  destruct (cmp_asc_null t (negb (nulls_first o)) a H Na) as [-> ->].
  destruct (descending o), (nulls_first o); split; reflexivity.
Qed.

Lemma mid_head_valid o l r : mid_head l -> N.eqb (nth 0 (l ++ r) 0) (null_sentinel o) = false.
Proof.
  intros H. rewrite mid_head_app by exact H. apply N.eqb_neq.
  unfold mid_head, null_sentinel in *. destruct (nulls_first o); lia.
Qed.

Lemma lex_null_valid o pad l x y : mid_head l ->
  lex (null_sentinel o :: pad ++ x) (l ++ y) = (if nulls_first o then Lt else Gt) /\
  lex (l ++ y) (null_sentinel o :: pad ++ x) = (if nulls_first o then Gt else Lt).
Proof.
  unfold mid_head, null_sentinel. destruct l as [|h l]; cbn [nth app]; [lia|]. intros Hh.
  destruct (nulls_first o); split; first [apply lex_cons_lt | apply lex_cons_gt]; lia.
Qed.

(* A nullable field whose valid values are the [C x] with [P x], encoded by ev and compared by cv:
   null is the sentinel followed by constant padding, a valid value starts with a byte between the
   sentinels.  nb_enc, nb_null and nb_cmp say what the model computes on values of that form. *)
Record nullable {A} (t : ftype) (o : opts) (C : A -> value) (P : A -> Prop) (ev : A -> list N)
       (cv : A -> A -> comparison) (pad : list N) : Prop := {
  nb_nonree : nonree t;
  nb_valid : forall x, C x <> VNull;
  nb_wt : forall v, wt t v -> v = VNull \/ exists x, v = C x /\ P x;
  nb_strong : strong P ev cv;
  nb_head : forall x, P x -> mid_head (ev x);
  nb_enc : forall x, P x -> enc t o (C x) = ev x;
  nb_null : enc t o VNull = null_sentinel o :: pad;
  nb_cmp : forall x y, P x -> P y -> cmp_field t o (C x) (C y) = cv x y }.
(* the type of an instance is known before its fields are read *)
Arguments Build_nullable {A} t o C P ev cv pad & _ _ _ _ _ _ _ _.

Lemma nullable_strong {A} t o (C : A -> value) P ev cv pad :
  nullable t o C P ev cv pad -> strong (wt t) (enc t o) (cmp_field t o).
Proof.
  intros [Hnr HC Hwt Hs Hh He Hn Hc] a b u v Wa Wb.
  destruct (Hwt a Wa) as [->|(x & -> & Px)], (Hwt b Wb) as [->|(y & -> & Py)].
  - (* null, null *) rewrite cmp_field_nn by exact Hnr. apply lex_app_same.
  - (* null, valid *) rewrite (proj1 (cmp_field_null t o (C y) Hnr (HC y))), Hn, He by exact Py.
    cbn [app]. rewrite (proj1 (lex_null_valid o pad (ev y) u v (Hh y Py))). now destruct (nulls_first o).
  - (* valid, null *) rewrite (proj2 (cmp_field_null t o (C x) Hnr (HC x))), Hn, He by exact Px.
    cbn [app]. rewrite (proj2 (lex_null_valid o pad (ev x) v u (Hh x Px))). now destruct (nulls_first o).
  - (* valid, valid *) rewrite !He, Hc by assumption. now apply Hs.
Qed.

(* A leaf behind a validity byte (fixed.rs): the valid values of type t are the [C x] with [P x],
   encoded as 1 :: (inverted) e x with every e x of length w; null is the sentinel and w zeros.
   The bytes e x are ordered like the values by c, and f reads them back (fl_dec, fl_inv: for
   C11_Decode.fixed_dec). *)
Record fixed_leaf {A} (t : ftype) (w : nat) (C : A -> value) (P : A -> Prop) (e : A -> list N)
       (c : A -> A -> comparison) (f : list N -> value) : Prop := {
  fl_nonree : nonree t;
  fl_valid : forall x, C x <> VNull;
  fl_enc : forall o x, enc t o (C x) = encode_fixed o w (Some (e x));
  fl_null : forall o, enc t o VNull = encode_fixed o w None;
  fl_wt : forall v, wt t v -> v = VNull \/ exists x, v = C x /\ P x;
  fl_length : forall x, P x -> length (e x) = w;
  fl_wf : forall x, P x -> wf_bytes (e x);
  fl_cmp : forall nf x y, cmp_asc t nf (C x) (C y) = c x y;
  fl_order : forall x y, P x -> P y -> lex (e x) (e y) = c x y;
  fl_dec : forall o row, dec t o row = dec_fixed o w f row;
  fl_inv : forall x, P x -> f (e x) = C x }.
Arguments Build_fixed_leaf {A} t w C P e c f & _ _ _ _ _ _ _ _ _ _ _.

Lemma fixed_strong {A} t w (C : A -> value) P e c f : fixed_leaf t w C P e c f ->
  forall o, strong (wt t) (enc t o) (cmp_field t o).
Proof.
  intros [Hnr HC He Hn Hwt Hl Hw Hc Ho _ _] o.
  apply (nullable_strong t o C P (fun x => 1 :: inv_if (descending o) (e x))
           (fun x y => dir (descending o) (c x y)) (repeat 0 w)).
  refine {| nb_nonree := Hnr; nb_valid := HC; nb_wt := Hwt; nb_head := fun x _ => mid_head_one _;
            nb_enc := fun x _ => He o x; nb_null := Hn o; nb_strong := _; nb_cmp := _ |}.
  - (* nb_strong *) apply (strong_prefix _ _ _ [1]), strong_inv_if; [exact Hw|].
    apply strong_of_same_len; [intros x y Px Py; now rewrite !Hl | exact Ho].
  - (* nb_cmp *) intros x y _ _. unfold cmp_field, dir. now rewrite !Hc.
Qed.

(* In the instances fl_enc, fl_null, fl_cmp and fl_dec hold by computation of the model ([eq_refl]);
   the goal left by [refine] is fl_wt, the inversion of [wt] at the type. *)
Lemma int_leaf w : (1 <= w)%nat ->
  fixed_leaf (TInt w) w VInt (in_signed w) (encode_signed w) Z.compare (fun e => VInt (decode_signed w e)).
Proof.
  intros Hw. refine {|
    fl_nonree := I; fl_valid := ltac:(discriminate); fl_wt := _;
    fl_enc := fun _ _ => eq_refl; fl_null := fun _ => eq_refl;
    fl_cmp := fun _ _ _ => eq_refl; fl_dec := fun _ _ => eq_refl;
    fl_length := fun z _ => encode_signed_length w z;
    fl_wf := fun z _ => encode_signed_wf w z Hw;
    fl_order := fun x y => signed_order w x y Hw;
    fl_inv := fun z Hz => f_equal VInt (decode_encode_signed w z Hw Hz) |}.
  intros [|z| | |] Wv; try contradiction; [now left | right]. exists z. split; [reflexivity | now apply in_signed_Z].
Qed.

Lemma uint_leaf w :
  fixed_leaf (TUInt w) w VInt (in_unsigned w) (encode_unsigned w) Z.compare (fun e => VInt (decode_unsigned e)).
Proof.
  refine {|
    fl_nonree := I; fl_valid := ltac:(discriminate); fl_wt := _;
    fl_enc := fun _ _ => eq_refl; fl_null := fun _ => eq_refl;
    fl_cmp := fun _ _ _ => eq_refl; fl_dec := fun _ _ => eq_refl;
    fl_length := fun z _ => be_bytes_length w _;
    fl_wf := fun z _ => be_bytes_wf w _;
    fl_order := unsigned_order w;
    fl_inv := fun z Hz => f_equal VInt (decode_encode_unsigned w z Hz) |}.
  intros [|z| | |] Wv; try contradiction; [now left | right]. exists z. split; [reflexivity | now apply in_unsigned_Z].
Qed.

Lemma bool_leaf : fixed_leaf TBool 1 VInt (fun z => z = 0 \/ z = 1)%Z encode_bool Z.compare
                    (fun e => VInt (if N.eqb (nth 0 e 0) 1 then 1%Z else 0%Z)).
Proof.
  refine {|
    fl_nonree := I; fl_valid := ltac:(discriminate); fl_wt := _;
    fl_enc := fun _ _ => eq_refl; fl_null := fun _ => eq_refl;
    fl_cmp := fun _ _ _ => eq_refl; fl_dec := fun _ _ => eq_refl;
    fl_length := fun _ _ => eq_refl;
    fl_wf := _;
    fl_order := bool_order;
    fl_inv := _ |}.
  - (* fl_wt *) intros [|z| | |] Wv; try contradiction; [now left | right]. exists z. split; [reflexivity | exact Wv].
  - (* fl_wf *) intros z _. unfold encode_bool. constructor; [|constructor]. unfold wf_byte. destruct (Z.eqb z 0); lia.
  - (* fl_inv *) intros z [-> | ->]; reflexivity.
Qed.

Lemma float_leaf w : (1 <= w)%nat ->
  fixed_leaf (TFloat w) w VInt (in_unsigned w) (encode_float w) (total_cmp (Z.of_N (half w)))
    (fun e => VInt (decode_float w e)).
Proof.
  intros Hw. refine {|
    fl_nonree := I; fl_valid := ltac:(discriminate); fl_wt := _;
    fl_enc := fun _ _ => eq_refl; fl_null := fun _ => eq_refl;
    fl_cmp := _; fl_dec := fun _ _ => eq_refl;
    fl_length := fun z _ => encode_signed_pat_length w _;
    fl_wf := fun z _ => encode_signed_pat_wf w _ Hw;
    fl_order := fun x y => float_order w x y Hw;
    fl_inv := fun z Hz => f_equal VInt (decode_encode_float w z Hw Hz) |}.
  - (* fl_wt *) intros [|z| | |] Wv; try contradiction; [now left | right]. exists z. split; [reflexivity | now apply in_unsigned_Z].
  - (* fl_cmp: the model writes the weight of the sign bit as a power of two in Z *)
    intros nf x y. rewrite half_Z by exact Hw. reflexivity.
Qed.

Lemma fsb_leaf n : fixed_leaf (TFsb n) n VBytes (fun b => length b = n /\ wf_bytes b) (fun b => b) lex VBytes.
Proof.
  refine {|
    fl_nonree := I; fl_valid := ltac:(discriminate); fl_wt := _;
    fl_enc := fun _ _ => eq_refl; fl_null := fun _ => eq_refl;
    fl_cmp := fun _ _ _ => eq_refl; fl_dec := fun _ _ => eq_refl;
    fl_length := fun b Hb => proj1 Hb;
    fl_wf := fun b Hb => proj2 Hb;
    fl_order := fun _ _ _ _ => eq_refl;
    fl_inv := fun _ _ => eq_refl |}.
  intros [| |b| |] Wv; try contradiction; [now left | right]. exists b. split; [reflexivity | exact Wv].
Qed.

Lemma encode_tuple_length ws zs : length (encode_tuple ws zs) = sum_widths ws.
Proof.
  revert zs. induction ws as [|w ws IH]; intros zs; [reflexivity|].
  cbn [encode_tuple sum_widths fold_right]. rewrite app_length, encode_signed_length, IH. reflexivity.
Qed.

Lemma encode_tuple_wf ws zs : wf_widths ws -> wf_bytes (encode_tuple ws zs).
Proof.
  revert zs. induction ws as [|w ws IH]; intros zs Hw; [constructor|].
  cbn [encode_tuple wf_widths] in *. apply Forall_app; split; [apply encode_signed_wf; tauto | apply IH; tauto].
Qed.

Lemma tuple_order ws : wf_widths ws -> forall a b, wt_tuple ws a -> wt_tuple ws b ->
  lex (encode_tuple ws a) (encode_tuple ws b) = tuple_cmp a b.
Proof.
  induction ws as [|w ws IH]; intros Hw a b Wa Wb.
  - destruct a, b; try contradiction. reflexivity.
  - destruct a as [|[|x| | |] a], b as [|[|y| | |] b]; cbn [wt_tuple] in Wa, Wb; try contradiction.
    cbn [wf_widths] in Hw. cbn [encode_tuple tuple_cmp hd tl vint].
    rewrite lex_app_same_len by (now rewrite !encode_signed_length).
    rewrite signed_order by (try apply in_signed_Z; tauto).
    destruct (x ?= y)%Z; try reflexivity. apply IH; tauto.
Qed.

Lemma decode_encode_tuple ws : wf_widths ws -> forall zs, wt_tuple ws zs -> decode_tuple ws (encode_tuple ws zs) = zs.
Proof.
  induction ws as [|w ws IH]; intros Hw zs Wz.
  - destruct zs; [reflexivity|contradiction].
  - destruct zs as [|[|z| | |] zs]; cbn [wt_tuple] in Wz; try contradiction. cbn [wf_widths] in Hw.
    cbn [encode_tuple decode_tuple hd tl vint].
    rewrite (firstn_app_exact _ _ _ (encode_signed_length w z)), (skipn_app_exact _ _ _ (encode_signed_length w z)).
    rewrite decode_encode_signed by (try apply in_signed_Z; tauto).
    f_equal. apply IH; tauto.
Qed.

Lemma iv_leaf ws : wf_widths ws ->
  fixed_leaf (TIv ws) (sum_widths ws) VStruct (wt_tuple ws) (encode_tuple ws) tuple_cmp
    (fun e => VStruct (decode_tuple ws e)).
Proof.
  intros Hw. refine {|
    fl_nonree := I; fl_valid := ltac:(discriminate); fl_wt := _;
    fl_enc := fun _ _ => eq_refl; fl_null := fun _ => eq_refl;
    fl_cmp := cmp_asc_iv ws; fl_dec := fun _ _ => eq_refl;
    fl_length := fun zs _ => encode_tuple_length ws zs;
    fl_wf := fun zs _ => encode_tuple_wf ws zs Hw;
    fl_order := tuple_order ws Hw;
    fl_inv := fun zs Hz => f_equal VStruct (decode_encode_tuple ws Hw zs Hz) |}.
  intros [| | |zs|] Wv; try contradiction; [now left | right]. exists zs. split; [reflexivity | now rewrite <- wt_iv].
Qed.

(* Induction over well-formed field types in which the six types behind a validity byte are one case. *)
Lemma ftype_kind_ind (Q : ftype -> Prop) :
  (forall A t w C P e c f, @fixed_leaf A t w C P e c f -> Q t) ->
  Q TVar ->
  (forall fs, Forall Q fs -> Q (TStruct fs)) ->
  (forall c, wf_type c -> Q c -> Q (TList c)) ->
  (forall c n, wf_type c -> Q c -> Q (TFsl c n)) ->
  (forall c, wf_type c -> Q c -> Q (TRee c)) ->
  forall t, wf_type t -> Q t.
Proof.
  intros HL HV HS HLi HF HR.
  induction t as [w|w| |w|n| |fs IH|c IH|c n IH|c IH|ws] using ftype_ind'; intros Wt.
  - exact (HL _ _ _ _ _ _ _ _ (int_leaf w Wt)).
  - exact (HL _ _ _ _ _ _ _ _ (uint_leaf w)).
  - exact (HL _ _ _ _ _ _ _ _ bool_leaf).
  - exact (HL _ _ _ _ _ _ _ _ (float_leaf w Wt)).
  - exact (HL _ _ _ _ _ _ _ _ (fsb_leaf n)).
  - exact HV.
  - rewrite wf_type_struct in Wt. apply HS, (Forall_wf_types _ fs IH Wt).
  - apply HLi; [exact Wt | now apply IH].
  - apply HF; [exact Wt | now apply IH].
  - apply HR; [exact Wt | now apply IH].
  - rewrite wf_type_iv in Wt. exact (HL _ _ _ _ _ _ _ _ (iv_leaf ws Wt)).
Qed.

Theorem var_strong o : strong (wt TVar) (enc TVar o) (cmp_field TVar o).
Proof.
  apply (nullable_strong TVar o VBytes wf_bytes (fun b => inv_if (descending o) (var_body b))
           (fun x y => dir (descending o) (lex x y)) []).
  refine {| nb_nonree := I; nb_valid := ltac:(discriminate); nb_null := eq_refl;
            nb_head := fun b _ => inv_if_head _ _ (var_body_head b);
            nb_enc := fun b _ => encode_one_some o b;
            nb_strong := strong_inv_if _ _ _ _ (fun b => var_body_wf b) (var_body_strong _);
            nb_wt := _; nb_cmp := _ |}.
  - (* nb_wt *) intros [| |b| |] Wv; try contradiction; [now left | right]. exists b. split; [reflexivity | exact Wv].
  - (* nb_cmp *) intros x y _ _. unfold cmp_field, dir. destruct (descending o); reflexivity.
Qed.

Lemma encode_fixed_nonempty o w e : encode_fixed o w e <> [].
Proof. destruct e; discriminate. Qed.

Lemma enc_nonempty t o v : enc t o v <> [].
Proof.
  destruct t as [w|w| |w|n| |fs|c|c n|c|ws]; cbn [enc].
  - (* TInt *) apply encode_fixed_nonempty.
  - (* TUInt *) apply encode_fixed_nonempty.
  - (* TBool *) apply encode_fixed_nonempty.
  - (* TFloat *) apply encode_fixed_nonempty.
  - (* TFsb *) apply encode_fixed_nonempty.
  - (* TVar *) apply encode_one_nonempty.
  - (* TStruct *) destruct v; discriminate.
  - (* TList *) destruct v as [| | | |[|x vs]]; [discriminate .. |].
    intros E. apply app_eq_nil in E as [_ E]. discriminate.
  - (* TFsl *) destruct v; discriminate.
  - (* TRee *) apply encode_one_nonempty.
  - (* TIv *) apply encode_fixed_nonempty.
Qed.

(* Every encoding is a list of bytes below 256: what the complement (descending) and the decoders ask. *)
Lemma null_sentinel_wf o : wf_byte (null_sentinel o).
Proof. unfold null_sentinel, wf_byte. destruct (nulls_first o); lia. Qed.

Lemma fixed_wf {A} t w (C : A -> value) P e c f : fixed_leaf t w C P e c f ->
  forall o v, wt t v -> wf_bytes (enc t o v).
Proof.
  intros [_ _ He Hn Hwt _ Hw _ _ _ _] o v Wv. destruct (Hwt v Wv) as [->|(x & -> & Px)].
  - rewrite Hn. constructor; [apply null_sentinel_wf | apply repeat0_wf].
  - rewrite He. constructor; [unfold wf_byte; lia | apply inv_if_wf, Hw, Px].
Qed.

Lemma wt_null t : wt t VNull.
Proof. induction t using ftype_ind'; cbn [wt]; auto. Qed.

Lemma encode_null_wf o : wf_bytes (encode_null o).
Proof. constructor; [apply null_sentinel_wf | constructor]. Qed.

Lemma encode_empty_wf o : wf_bytes (encode_empty o).
Proof. unfold encode_empty, not8, EMPTY_SENTINEL. constructor; [unfold wf_byte; destruct (descending o); lia|constructor]. Qed.

Lemma wf_flat_map {A} (g : A -> list N) vs : (forall a, In a vs -> wf_bytes (g a)) -> wf_bytes (flat_map g vs).
Proof.
  induction vs as [|a vs IH]; intros H; cbn [flat_map]; [constructor|].
  apply Forall_app; split; [apply H; left; reflexivity | apply IH; intros; apply H; now right].
Qed.

Definition wf_enc (f : ftype) : Prop := forall o v, wt f v -> wf_bytes (enc f o v).

Lemma null_fields_wf fs o : Forall wf_enc fs -> wf_bytes (null_fields fs o).
Proof.
  induction 1 as [|f fs Hf _ IH]; cbn [null_fields]; [constructor|].
  apply Forall_app; split; [apply Hf, wt_null | exact IH].
Qed.

Lemma enc_fields_wf fs o : Forall wf_enc fs -> forall vs, wt_fields fs vs -> wf_bytes (enc_fields fs o vs).
Proof.
  induction 1 as [|f fs Hf _ IH]; intros vs Wv; cbn [enc_fields]; [constructor|].
  destruct vs as [|x vs]; [contradiction|]. destruct Wv as [Wx Wvs].
  apply Forall_app; split; [now apply Hf | now apply IH].
Qed.

Theorem enc_wf : forall t, wf_type t -> forall o v, wt t v -> wf_bytes (enc t o v).
Proof.
  apply (ftype_kind_ind wf_enc).
  - (* fixed-width leaf *) intros A t w C P e c f L. exact (fixed_wf t w C P e c f L).
  - (* TVar *) intros o v Wv. destruct v; try contradiction; [apply encode_null_wf | now apply encode_one_wf].
  - (* TStruct *) intros fs H o v Wv. destruct v as [| | |vs|]; try contradiction.
    + rewrite enc_struct_null. constructor; [apply null_sentinel_wf | now apply null_fields_wf].
    + rewrite wt_struct in Wv. rewrite enc_struct_valid. constructor; [unfold wf_byte; lia | now apply enc_fields_wf].
  - (* TList *) intros c _ IH o v Wv. destruct v as [| | | |vs]; try contradiction.
    + rewrite enc_list_null. apply encode_null_wf.
    + rewrite wt_list, wt_all_Forall, Forall_forall in Wv. rewrite enc_list_flat.
      apply Forall_app; split; [|apply encode_empty_wf]. apply wf_flat_map. intros a Ha.
      apply encode_one_wf, IH. now apply Wv.
  - (* TFsl *) intros c n _ IH o v Wv. destruct v as [| | | |vs]; try contradiction.
    + rewrite enc_fsl_null. apply encode_null_wf.
    + rewrite wt_fsl in Wv. destruct Wv as [_ Wv]. rewrite wt_all_Forall, Forall_forall in Wv.
      rewrite enc_fsl_valid. constructor; [unfold wf_byte; lia|]. apply wf_flat_map. intros a Ha. apply IH. now apply Wv.
  - (* TRee *) intros c _ IH o v Wv. rewrite wt_ree in Wv. rewrite enc_ree. apply encode_one_wf. now apply IH.
Qed.
