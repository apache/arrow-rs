(* C06 — RowSelection::and_then: each of its four backing pairings computes and_then_spec, and does
   not panic when the second selection has exactly as many rows as the first one selects, provided,
   for two selector vectors, that the second is empty if the first is
   (put together as den_and_then in C06_Plan.v and and_then_total in C06_Total.v). *)
From Coq Require Import List Arith Lia.
From AV Require Import Base.ListX Model.C06_RowSel Proofs.C06_Construct.
Import ListNotations.

Lemma dens_push_skip n out : dens (push_skip n out) = dens out ++ repeat false n.
Proof.
  unfold push_skip. destruct (Nat.eqb_spec n 0) as [->|Hn].
  - cbn [repeat]. now rewrite app_nil_r.
  - apply dens_snoc.
Qed.

Lemma and_then_spec_skip_run n a b : and_then_spec (repeat false n ++ a) b = repeat false n ++ and_then_spec a b.
Proof. induction n as [|n IH]; cbn [repeat app and_then_spec]; congruence. Qed.

Lemma and_then_spec_sel_run p a y b :
  and_then_spec (repeat true p ++ a) (repeat y p ++ b) = repeat y p ++ and_then_spec a b.
Proof. induction p as [|p IH]; cbn [repeat app and_then_spec]; congruence. Qed.

Lemma and_then_spec_all_false a : forall b, count_true b = 0 -> and_then_spec a b = repeat false (length a).
Proof.
  induction a as [|x a IH]; intros b Hb; [reflexivity|].
  destruct x; cbn [and_then_spec length repeat]; [|f_equal; now apply IH].
  destruct b as [|y b]; [f_equal; now apply IH|].
  cbn [count_true] in Hb. destruct y; [lia|]. f_equal. apply IH. lia.
Qed.

Lemma and_then_spec_nil_r a : and_then_spec a [] = repeat false (length a).
Proof. now apply and_then_spec_all_false. Qed.

Lemma and_then_spec_length a b : length (and_then_spec a b) = length a.
Proof.
  revert b; induction a as [|x a IH]; intros b; [reflexivity|].
  destruct x; [destruct b|]; cbn [and_then_spec length]; now rewrite IH.
Qed.

Lemma drain_first_cases first : forall ts,
  match drain_first first ts with
  | Some r => r = ts + length (dens first)
  | None => count_true (dens first) <> 0
  end.
Proof.
  induction first as [|[sk n] first IH]; intros ts; cbn [drain_first].
  - rewrite dens_nil. cbn [length]. lia.
  - rewrite dens_cons, app_length, repeat_length, count_true_app, count_true_repeat.
    destruct (Nat.eqb_spec n 0) as [->|Hn].
    + specialize (IH ts). destruct (drain_first first ts); [lia|destruct sk; exact IH].
    + destruct sk; cbn [negb]; [|lia]. specialize (IH (ts + n)). destruct (drain_first first (ts + n)); lia.
Qed.

Lemma and_then_go_spec fuel : forall first second to_skip out res,
  and_then_go fuel first second to_skip out = Some res ->
  dens res = dens out ++ repeat false to_skip ++ and_then_spec (dens first) (dens second).
Proof.
  induction fuel as [|fuel IH]; intros first second to_skip out res H; [discriminate|].
  cbn [and_then_go] in H.
  destruct second as [|[bskip bn] second'].
  - pose proof (drain_first_cases first to_skip) as Hd.
    destruct (drain_first first to_skip) as [ts|]; [|discriminate]. inversion H; subst res ts.
    rewrite dens_push_skip, dens_nil, and_then_spec_nil_r, repeat_app. reflexivity.
  - destruct first as [|[askip an] first']; [discriminate|].
    destruct (Nat.eqb_spec bn 0) as [->|Hbn].
    { apply IH in H. rewrite H. reflexivity. }
    destruct (Nat.eqb_spec an 0) as [->|Han].
    { apply IH in H. rewrite H. reflexivity. }
    destruct askip.
    { apply IH in H. rewrite H. rewrite (dens_cons true an). cbn [negb].
      rewrite and_then_spec_skip_run, repeat_app, <- ?app_assoc. reflexivity. }
    set (p := Nat.min an bn) in *.
    rewrite (dens_split_head false an p), (dens_split_head bskip bn p) by (unfold p; lia).
    cbn [negb]. rewrite and_then_spec_sel_run.
    destruct bskip.
    + apply IH in H. rewrite H. cbn [negb]. rewrite repeat_app, <- !app_assoc. reflexivity.
    + apply IH in H. rewrite H. cbn [negb repeat app].
      rewrite dens_snoc, dens_push_skip, <- !app_assoc. reflexivity.
Qed.

Lemma and_then_sels_spec first second res :
  and_then_sels first second = Some res ->
  dens res = and_then_spec (dens first) (dens second).
Proof. unfold and_then_sels. intros H. apply and_then_go_spec in H. exact H. Qed.

(* and_then_iter stops because every step lowers the weight of the two lists, an empty selector
   weighing 1 and any other 2: a step drops a head, or cuts the two head runs by the shorter of
   them, which leaves one of them empty *)
Definition wt (l : list sel) : nat := fold_right (fun s acc => (if snd s =? 0 then 1 else 2) + acc) 0 l.

Lemma wt_zero sk l : wt ((sk, 0) :: l) = 1 + wt l.
Proof. reflexivity. Qed.

Lemma wt_nonzero sk n l : n <> 0 -> wt ((sk, n) :: l) = 2 + wt l.
Proof. destruct n; [contradiction|reflexivity]. Qed.

Lemma wt_cons_le sk n l : wt ((sk, n) :: l) <= 2 + wt l.
Proof. destruct n; [rewrite wt_zero|rewrite wt_nonzero by discriminate]; lia. Qed.

Lemma wt_le l : wt l <= 2 * length l.
Proof. induction l as [|[sk n] l IH]; [reflexivity|]. pose proof (wt_cons_le sk n l). cbn [length]. lia. Qed.

(* and_then_iter panics in two ways: the second list runs out while the first still selects a row,
   which the counts exclude, or the first list is empty in front of a second list that is not, even
   one of empty selectors only.  Under equal counts the latter can only happen at the start *)
Lemma and_then_go_total fuel : forall first second to_skip out,
  count_true (dens first) = length (dens second) ->
  (first = [] -> second = []) ->
  wt first + wt second < fuel ->
  and_then_go fuel first second to_skip out <> None.
Proof.
  induction fuel as [|fuel IH]; intros first second to_skip out Hc Hz Hf; [lia|].
  cbn [and_then_go].
  destruct second as [|[bskip bn] second'].
  { pose proof (drain_first_cases first to_skip) as Hd.
    destruct (drain_first first to_skip); [discriminate|now elim Hd]. }
  destruct first as [|[askip an] first']; [now specialize (Hz eq_refl)|]. clear Hz.
  (* a head of the first list is dropped only in front of a non-empty run of the second: by the
     counts, what is left of the first list still selects a row *)
  assert (Hz : forall n, n <> 0 -> count_true (dens first') = length (dens ((bskip, n) :: second')) ->
               first' = [] -> (bskip, n) :: second' = []).
  { intros n Hn H ->. rewrite dens_nil, dens_cons, app_length, repeat_length in H. cbn [count_true] in H. lia. }
  destruct (Nat.eqb_spec bn 0) as [->|Hbn].
  { rewrite wt_zero in Hf. apply IH; [exact Hc|discriminate|lia]. }
  rewrite (wt_nonzero bskip bn) in Hf by exact Hbn.
  destruct (Nat.eqb_spec an 0) as [->|Han].
  { rewrite wt_zero in Hf. apply IH; [exact Hc|now apply (Hz bn)|rewrite wt_nonzero by exact Hbn; lia]. }
  rewrite (wt_nonzero askip an) in Hf by exact Han.
  destruct askip.
  { rewrite dens_cons, count_true_app, count_true_repeat in Hc.
    apply IH; [exact Hc|now apply (Hz bn)|rewrite wt_nonzero by exact Hbn; lia]. }
  assert (Hc2 : count_true (dens ((false, an - Nat.min an bn) :: first'))
                = length (dens ((bskip, bn - Nat.min an bn) :: second'))).
  { rewrite (dens_split_head false an (Nat.min an bn)), (dens_split_head bskip bn (Nat.min an bn)),
      count_true_app, count_true_repeat, app_length, repeat_length in Hc by lia.
    cbn [negb] in Hc. lia. }
  assert (Hf2 : wt ((false, an - Nat.min an bn) :: first') + wt ((bskip, bn - Nat.min an bn) :: second') < fuel).
  { pose proof (wt_cons_le false (an - Nat.min an bn) first').
    pose proof (wt_cons_le bskip (bn - Nat.min an bn) second').
    destruct (Nat.le_ge_cases an bn) as [Hle|Hle].
    - replace (an - Nat.min an bn) with 0 by lia. rewrite wt_zero. lia.
    - replace (bn - Nat.min an bn) with 0 by lia. rewrite wt_zero. lia. }
  destruct bskip; (apply IH; [exact Hc2|discriminate|exact Hf2]).
Qed.

Lemma and_then_sels_total_gen first second :
  (first = [] -> second = []) -> count_true (dens first) = length (dens second) ->
  and_then_sels first second <> None.
Proof.
  intros Hz Hc. apply and_then_go_total; [exact Hc|exact Hz|].
  pose proof (wt_le first). pose proof (wt_le second). lia.
Qed.

Lemma and_then_sels_total first second :
  nonzero second -> count_true (dens first) = length (dens second) ->
  and_then_sels first second <> None.
Proof.
  intros Hnz Hc. apply and_then_sels_total_gen; [|exact Hc]. intros ->.
  destruct Hnz as [|[sk n] second Hn _]; [reflexivity|].
  rewrite dens_nil, dens_cons, app_length, repeat_length in Hc. cbn [snd count_true] in *. lia.
Qed.

Lemma drop_zero_view l :
  match drop_zero l with
  | [] => dens l = []
  | (sk, n) :: r => dens l = negb sk :: dens ((sk, n - 1) :: r)
  end.
Proof.
  induction l as [|[sk [|n]] l IH]; cbn [drop_zero]; [reflexivity|exact IH|].
  cbn [Nat.sub]. now rewrite Nat.sub_0_r.
Qed.

Lemma forallb_zero_dens l : forallb (fun s : sel => snd s =? 0) l = true -> dens l = [].
Proof.
  induction l as [|[sk n] l IH]; cbn [forallb snd]; intros H; [reflexivity|].
  apply andb_prop in H as [H1 H2]. apply Nat.eqb_eq in H1. subst n. rewrite dens_zero. auto.
Qed.

Lemma dens_nil_forallb_zero l : dens l = [] -> forallb (fun s : sel => snd s =? 0) l = true.
Proof.
  induction l as [|[sk n] l IH]; intros H; [reflexivity|].
  rewrite dens_cons in H. apply app_eq_nil in H as [H1 H2].
  destruct n; [|discriminate]. cbn [forallb snd Nat.eqb andb]. now apply IH.
Qed.

Lemma and_then_mask_sels_cases mask : forall other,
  match and_then_mask_sels mask other with
  | Some res => res = and_then_spec mask (dens other)
  | None => count_true mask <> length (dens other)
  end.
Proof.
  induction mask as [|b mask IH]; intros other; cbn [and_then_mask_sels].
  - destruct (forallb _ other) eqn:E; [reflexivity|]. cbn [count_true]. intros H.
    rewrite dens_nil_forallb_zero in E; [discriminate|]. now destruct (dens other).
  - destruct b; cycle 1.
    { specialize (IH other). destruct (and_then_mask_sels mask other); cbn [option_map]; [now subst|exact IH]. }
    pose proof (drop_zero_view other) as V. destruct (drop_zero other) as [|[sk n] r]; [now rewrite V|].
    specialize (IH ((sk, n - 1) :: r)). rewrite V.
    destruct (and_then_mask_sels mask ((sk, n - 1) :: r)); cbn [option_map and_then_spec].
    + now subst.
    + cbn [count_true length]. lia.
Qed.

Lemma and_then_spec_all_true a : forall b,
  count_true a = length b -> count_true b = length b -> and_then_spec a b = a.
Proof.
  induction a as [|x a IH]; intros b Hl Hb; [reflexivity|].
  destruct x; cbn [and_then_spec].
  - destruct b as [|y b]; [cbn in Hl; lia|].
    cbn [count_true length] in *. pose proof (count_true_le b).
    destruct y; [|lia]. f_equal. apply IH; lia.
  - f_equal. apply IH; [exact Hl|exact Hb].
Qed.

Lemma positions_from_app a b pos :
  positions_from (a ++ b) pos = positions_from a pos ++ positions_from b (pos + length a).
Proof.
  revert pos; induction a as [|x a IH]; intros pos; cbn [positions_from app length].
  - now rewrite Nat.add_0_r.
  - rewrite IH, <- app_assoc. do 3 f_equal. lia.
Qed.

Lemma positions_from_false n pos : positions_from (repeat false n) pos = [].
Proof. revert pos; induction n as [|n IH]; intros pos; cbn [repeat positions_from app]; auto. Qed.

Lemma positions_from_length l pos : length (positions_from l pos) = count_true l.
Proof.
  revert pos; induction l as [|b l IH]; intros pos; [reflexivity|].
  cbn [positions_from count_true]. rewrite app_length, IH. destruct b; reflexivity.
Qed.

Lemma split_first_true l :
  (count_true l = 0 /\ l = repeat false (length l)) \/
  (exists k r, l = repeat false k ++ true :: r).
Proof.
  induction l as [|b l IH]; [left; split; reflexivity|].
  destruct b; [right; exists 0, l; reflexivity|].
  destruct IH as [[H0 Hl]|(k & r & Hl)].
  - left. split; [exact H0|]. cbn [length repeat]. congruence.
  - right. exists (S k), r. cbn [repeat app]. congruence.
Qed.

Lemma split_kth m : forall k, k < count_true m ->
  exists m1 m', m = m1 ++ true :: m' /\ count_true m1 = k.
Proof.
  induction m as [|b m IH]; intros k Hk; cbn [count_true] in Hk; [lia|].
  destruct b.
  - destruct k as [|k].
    + exists [], m. split; reflexivity.
    + destruct (IH k) as (m1 & m' & Hm & Hc); [lia|].
      exists (true :: m1), m'. split; [cbn [app]; congruence|cbn [count_true]; lia].
  - destruct (IH k) as (m1 & m' & Hm & Hc); [lia|].
    exists (false :: m1), m'. split; [cbn [app]; congruence|cbn [count_true]; lia].
Qed.

Lemma skipn_positions m1 rest pos :
  skipn (count_true m1) (positions_from (m1 ++ rest) pos) = positions_from rest (pos + length m1).
Proof.
  rewrite positions_from_app. apply skipn_app_exact, positions_from_length.
Qed.

Lemma and_then_spec_consume m1 : forall rest o2,
  and_then_spec (m1 ++ rest) (repeat false (count_true m1) ++ o2)
  = repeat false (length m1) ++ and_then_spec rest o2.
Proof.
  induction m1 as [|b m1 IH]; intros rest o2; [reflexivity|].
  destruct b; cbn [count_true app repeat and_then_spec length Nat.add]; f_equal; apply IH.
Qed.

(* the k leading falses of [o] use up the first k set bits of [m]: the next output bit set is the
   (k+1)-th set bit of [m] *)
Lemma atmm_go_step k o' m1 m' next_ord cursor len : count_true m1 = k ->
  atmm_go (positions_from (repeat false k ++ true :: o') next_ord)
          (positions_from (m1 ++ true :: m') cursor) next_ord cursor len
  = repeat false (length m1) ++ true ::
    atmm_go (positions_from o' (S (next_ord + k))) (positions_from m' (S (cursor + length m1)))
            (S (next_ord + k)) (S (cursor + length m1)) len.
Proof.
  intros <-. rewrite positions_from_app, positions_from_false, repeat_length.
  cbn [app positions_from atmm_go].
  replace (next_ord + count_true m1 - next_ord) with (count_true m1) by lia.
  rewrite skipn_positions. cbn [positions_from app].
  now replace (cursor + length m1 - cursor) with (length m1) by lia.
Qed.

(* by induction on the length of [o]: a step uses up its falses up to and including the first true *)
Lemma atmm_go_spec : forall n o m next_ord cursor,
  length o = n -> count_true m = length o ->
  atmm_go (positions_from o next_ord) (positions_from m cursor) next_ord cursor (cursor + length m)
  = and_then_spec m o.
Proof.
  induction n as [n IHn] using lt_wf_ind. intros o m next_ord cursor En Hc.
  destruct (split_first_true o) as [[H0 Ho]|(k & o' & Ho)].
  - rewrite Ho, positions_from_false. cbn [atmm_go].
    rewrite <- Ho, and_then_spec_all_false by exact H0. f_equal. lia.
  - subst o. rewrite app_length, repeat_length in Hc, En. cbn [length] in Hc, En.
    destruct (split_kth m k) as (m1 & m' & -> & Hk); [lia|].
    rewrite (atmm_go_step k o' m1 m' _ _ _ Hk), <- Hk, and_then_spec_consume. cbn [and_then_spec].
    do 2 f_equal. rewrite count_true_app in Hc. cbn [count_true] in Hc.
    rewrite app_length. cbn [length].
    replace (cursor + (length m1 + S (length m'))) with (S (cursor + length m1) + length m') by lia.
    apply (IHn (length o')); [lia|reflexivity|lia].
Qed.

Lemma and_then_masks_spec mask other res :
  and_then_masks mask other = Some res -> res = and_then_spec mask other.
Proof.
  unfold and_then_masks.
  destruct (Nat.ltb_spec (length other) (count_true mask)) as [H1|H1]; [discriminate|].
  destruct (Nat.ltb_spec (count_true mask) (length other)) as [H2|H2]; [discriminate|].
  assert (Hc : count_true mask = length other) by lia.
  destruct (Nat.eqb_spec (count_true other) 0) as [H0|H0].
  { intros H; inversion H. symmetry. now apply and_then_spec_all_false. }
  destruct (Nat.eqb_spec (count_true other) (count_true mask)) as [Ha|Ha].
  { intros H; inversion H; subst res. symmetry. apply and_then_spec_all_true; [exact Hc|lia]. }
  intros H; inversion H.
  apply (atmm_go_spec (length other) other mask 0 0 eq_refl Hc).
Qed.

Lemma and_then_masks_total mask other :
  count_true mask = length other -> and_then_masks mask other <> None.
Proof.
  intros Hc. unfold and_then_masks. rewrite Hc, Nat.ltb_irrefl.
  destruct (count_true other =? 0); [discriminate|].
  destruct (count_true other =? length other); discriminate.
Qed.
