(* C15: PushBuffers — a successful read returns the file's bytes, whatever was pushed and in
   whatever order; has_range is exactly the success condition of get_bytes. *)
From Coq Require Import List NArith Lia Bool Permutation ZifyBool.
From AV Require Import Base.ListX Model.C15_PushBuf.
Import ListNotations.
Local Open Scope N_scope.

Lemma bslice_length l off len : off + len <= nlen l -> length (bslice l off len) = N.to_nat len.
Proof.
  unfold bslice, nlen. intros H. rewrite firstn_length, skipn_length. lia.
Qed.

Lemma slice_slice file a n s l : a <= s -> s + l <= a + n ->
  bslice (fslice file a n) (s - a) l = fslice file s l.
Proof.
  intros H1 H2. unfold fslice, bslice.
  rewrite skipn_firstn_comm, skipn_skipn, firstn_firstn.
  replace (N.to_nat a + N.to_nat (s - a))%nat with (N.to_nat s) by lia.
  f_equal. lia.
Qed.

Section File.
Variable file : list N.
Notation cons_ := (consistent file).

Lemma find_bytes_reads_file es s l x :
  Forall cons_ es -> find_bytes es s l = Some x -> x = fslice file s l.
Proof.
  induction 1 as [|e es [Hse [Hel Hd]] _ IH]; cbn [find_bytes]; [discriminate|].
  destruct (N.leb_spec (e_st e) s); cbn [andb]; [|exact IH].
  destruct (N.leb_spec (s + l) (e_en e)); [|exact IH].
  intros E; inversion E; subst x. rewrite Hd. apply slice_slice; lia.
Qed.

Theorem get_bytes_reads_file pb s l x :
  Forall cons_ (pb_entries pb) -> get_bytes pb s l = Some x -> x = fslice file s l.
Proof. apply find_bytes_reads_file. Qed.

Theorem read_reads_file pb n x pb' :
  Forall cons_ (pb_entries pb) -> read pb n = (Some x, pb') ->
  x = fslice file (pb_offset pb) n /\ pb_offset pb' = pb_offset pb + n /\ pb_entries pb' = pb_entries pb.
Proof.
  intros Hc. unfold read. destruct (find_bytes _ _ _) eqn:E; [|discriminate].
  intros H; inversion H; subst. cbn. repeat split. eapply find_bytes_reads_file; eauto.
Qed.

Lemma find_bytes_some_iff es s l :
  (exists x, find_bytes es s l = Some x) <-> existsb (fun e => covers e (s, s + l)) es = true.
Proof.
  induction es as [|e es IH]; cbn [find_bytes existsb]; [split; [intros [x Hx]; discriminate|discriminate]|].
  unfold covers at 1; cbn [fst snd].
  destruct ((e_st e <=? s) && (s + l <=? e_en e)); cbn [orb]; [split; eauto|exact IH].
Qed.

Theorem has_range_get_bytes pb s e :
  s <= e -> has_range pb (s, e) = true -> exists x, get_bytes pb s (e - s) = Some x.
Proof.
  intros Hse H. apply find_bytes_some_iff. replace (s + (e - s)) with e by lia. exact H.
Qed.

Theorem get_bytes_has_range pb s l x : get_bytes pb s l = Some x -> has_range pb (s, s + l) = true.
Proof. intros H. apply find_bytes_some_iff. eauto. Qed.

Theorem get_bytes_iff_has_range pb s l :
  Forall cons_ (pb_entries pb) ->
  get_bytes pb s l = if has_range pb (s, s + l) then Some (fslice file s l) else None.
Proof.
  intros Hc. destruct (get_bytes pb s l) as [x|] eqn:E.
  - rewrite (get_bytes_has_range _ _ _ _ E). f_equal. eapply get_bytes_reads_file; eauto.
  - destruct (has_range pb (s, s + l)) eqn:Hh; [|reflexivity].
    apply find_bytes_some_iff in Hh. destruct Hh as [x Hx]. unfold get_bytes in E. congruence.
Qed.

Theorem get_bytes_is_spec pb s l :
  Forall cons_ (pb_entries pb) ->
  get_bytes pb s l = get_bytes_spec file (map (fun e => (e_st e, e_en e)) (pb_entries pb)) s l.
Proof.
  intros Hc. rewrite get_bytes_iff_has_range by exact Hc. unfold get_bytes_spec, has_range.
  assert (forall es, existsb (fun p : range => (fst p <=? s) && (s + l <=? snd p)) (map (fun e => (e_st e, e_en e)) es)
                     = existsb (fun e => covers e (s, s + l)) es) as ->; [|reflexivity].
  induction es as [|e es IH]; [reflexivity|]. cbn [map existsb]. now rewrite IH.
Qed.

(* has_range depends only on the SET of entries; by get_bytes_iff_has_range so does get_bytes *)
Theorem get_bytes_order_independent pb pb' s l :
  Forall cons_ (pb_entries pb) -> Forall cons_ (pb_entries pb') ->
  (forall e, In e (pb_entries pb) <-> In e (pb_entries pb')) ->
  get_bytes pb s l = get_bytes pb' s l.
Proof.
  intros Hc Hc' Hin. rewrite !get_bytes_iff_has_range by assumption.
  assert (has_range pb (s, s + l) = has_range pb' (s, s + l)) as ->; [|reflexivity].
  apply eq_true_iff_eq. unfold has_range. rewrite !existsb_exists.
  split; intros [e [Hi Hcov]]; exists e; split; auto; now apply Hin.
Qed.

Corollary get_bytes_permutation pb pb' s l :
  Forall cons_ (pb_entries pb) -> Permutation (pb_entries pb) (pb_entries pb') ->
  get_bytes pb s l = get_bytes pb' s l.
Proof.
  intros Hc Hp. apply get_bytes_order_independent; [exact Hc| |].
  - eapply Permutation_Forall; eauto.
  - intros e; split; apply Permutation_in; [exact Hp|now apply Permutation_sym].
Qed.

Theorem get_bytes_monotone pb extra s l x :
  get_bytes pb s l = Some x ->
  get_bytes (pb_with_entries pb (pb_entries pb ++ extra)) s l = Some x.
Proof.
  unfold get_bytes; cbn. induction (pb_entries pb) as [|e es IH]; cbn [find_bytes app]; [discriminate|].
  destruct ((e_st e <=? s) && (s + l <=? e_en e)); auto.
Qed.

Lemma has_range_app pb extra r :
  has_range (pb_with_entries pb (pb_entries pb ++ extra)) r = has_range pb r || existsb (fun e => covers e r) extra.
Proof. apply existsb_app. Qed.

Theorem has_range_monotone pb extra r :
  has_range pb r = true -> has_range (pb_with_entries pb (pb_entries pb ++ extra)) r = true.
Proof. rewrite has_range_app. intros ->. reflexivity. Qed.

Theorem superset_satisfies pb st en data s e :
  st <= s -> e <= en -> has_range (pb_with_entries pb (pb_entries pb ++ [{| e_st := st; e_en := en; e_data := data |}])) (s, e) = true.
Proof. intros H1 H2. rewrite has_range_app. unfold covers. cbn [existsb e_st e_en fst snd]. lia. Qed.

(* non-coalescing: two adjacent pieces do not satisfy a request spanning both *)
Example no_coalescing :
  let pb := {| pb_offset := 0; pb_file_len := 8; pb_entries :=
                [{| e_st := 0; e_en := 4; e_data := [1;2;3;4] |}; {| e_st := 4; e_en := 8; e_data := [5;6;7;8] |}] |} in
  has_range pb (0, 8) = false /\ get_bytes pb 2 4 = None /\ get_bytes pb 4 4 = Some [5;6;7;8].
Proof. vm_compute. auto. Qed.

Lemma fslice_length s l : s + l <= nlen file -> nlen (fslice file s l) = l.
Proof. intros H. unfold nlen, fslice. rewrite bslice_length by exact H. lia. Qed.

Theorem push_range_consistent pb st en :
  st <= en -> en <= nlen file -> Forall cons_ (pb_entries pb) ->
  exists pb', push_range pb st en (fslice file st (en - st)) = Some pb' /\ Forall cons_ (pb_entries pb')
    /\ pb_entries pb' = pb_entries pb ++ [{| e_st := st; e_en := en; e_data := fslice file st (en - st) |}].
Proof.
  intros H1 H2 Hc. unfold push_range. rewrite fslice_length by lia. rewrite N.eqb_refl.
  eexists; split; [reflexivity|]. cbn. split; [|reflexivity].
  apply Forall_app; split; [exact Hc|]. constructor; [|constructor]. repeat split; cbn; auto.
Qed.

Theorem clear_ranges_consistent pb rs : Forall cons_ (pb_entries pb) -> Forall cons_ (pb_entries (clear_ranges pb rs)).
Proof.
  intros Hc. cbn. apply Forall_forall. intros e He. apply filter_In in He.
  rewrite Forall_forall in Hc. now apply Hc.
Qed.
End File.
