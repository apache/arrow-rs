(* C02 — arrow-data's struct_equal (Struct ArrayData with offset 0, the form StructArray::to_data
   produces), compositional: IF comparing each pair of field arrays on every range decides equality of
   the windows of their logical columns, THEN struct_equal (whole-range path and per-slot path) holds
   exactly when every valid slot has the same field values on both sides. *)
From Coq Require Import List Arith NArith ZArith Bool Lia.
From AV Require Import Model.C09_Layout Model.C02_Logical Model.C02_Equal.
From AV Require Import Proofs.C02_EqualNulls Proofs.C02_EqualList.
Import ListNotations.

Definition range_ok (ka kb : parr) : Prop :=
  forall s1 s2 m, s1 + m <= p_len ka -> s2 + m <= p_len kb ->
    (equal_nulls ka kb s1 s2 m && equal_values ka kb s1 s2 m = true
     <-> window (logical ka) s1 m = window (logical kb) s2 m).

(* equal_child_values, with the compared range first so that it is literally the loop inside equal_values *)
Definition children_go (s1 s2 m : nat) : list parr -> list parr -> bool :=
  fix go (xs ys : list parr) : bool :=
    match xs, ys with
    | ka :: xs', kb :: ys' => equal_nulls ka kb s1 s2 m && equal_values ka kb s1 s2 m && go xs' ys'
    | _, _ => true
    end.

Lemma children_go_iff xs : forall ys s1 s2 m,
  Forall2 range_ok xs ys ->
  Forall (fun k => s1 + m <= p_len k) xs -> Forall (fun k => s2 + m <= p_len k) ys ->
  (children_go s1 s2 m xs ys = true
   <-> forall i, i < m -> map (fun k => logical_at k (s1 + i)) xs = map (fun k => logical_at k (s2 + i)) ys).
Proof.
  induction xs as [|ka xs IH]; intros ys s1 s2 m H2 Hx Hy.
  - inversion H2; subst. cbn [children_go map]. split; [reflexivity | reflexivity].
  - inversion H2 as [|? kb ? ys' Hok H2']; subst. inversion Hx as [|? ? Hxa Hx']; subst. inversion Hy as [|? ? Hyb Hy']; subst.
    cbn [children_go map]. rewrite !andb_true_iff, <- andb_true_iff, (Hok s1 s2 m Hxa Hyb), (IH ys' s1 s2 m H2' Hx' Hy').
    unfold window. rewrite !window_logical by assumption. rewrite map_seq_ext_iff.
    split.
    + intros [Ha Hr] i Hi. now rewrite (Ha i Hi), (Hr i Hi).
    + intros H. split; intros i Hi; specialize (H i Hi); injection H; tauto.
Qed.

Section StructEq.
  Variables (fs : list (bool * dty)) (alen : nat) (anulls : option nullbuf) (abufs : list (list N)) (akids : list parr).
  Variable b : parr.
  Let a := PArr (TStruct fs) alen 0 anulls abufs akids.
  Hypothesis Hboff : p_off b = 0.
  Hypothesis child_ok : Forall2 range_ok akids (p_kids b).

  Theorem struct_equal_iff ls rs n :
    Forall (fun k => ls + n <= p_len k) akids -> Forall (fun k => rs + n <= p_len k) (p_kids b) ->
    (forall i, i < n -> slot_valid a (ls + i) = slot_valid b (rs + i)) ->
    (equal_values a b ls rs n = true
     <-> forall i, i < n -> slot_valid a (ls + i) = true ->
           map (fun k => logical_at k (ls + i)) akids = map (fun k => logical_at k (rs + i)) (p_kids b)).
  (* [p_off b = 0] is not used below: it is what makes the right-hand side the field values of b's slot rs+i, as the
     literal offset 0 does for a *)
  Proof using Hboff child_ok.
    intros Hx Hy Hv. unfold a at 1. cbn [equal_values].
    apply (null_paths_iff Hv).
    - intros _. now apply (children_go_iff akids (p_kids b) ls rs n).
    - intros ln rn Ea Eb. apply (slot_loop_if_iff Hv Ea Eb). intros i Hi _.
      etransitivity; [apply (children_go_iff akids (p_kids b) (ls + i) (rs + i) 1 child_ok)|].
      + eapply Forall_impl; [|exact Hx]. cbn beta. intros k Hk. lia.
      + eapply Forall_impl; [|exact Hy]. cbn beta. intros k Hk. lia.
      + split; [intros H; specialize (H 0 ltac:(lia)); now rewrite !Nat.add_0_r in H
               | intros H k Hk; replace k with 0 by lia; now rewrite !Nat.add_0_r].
  Qed.
End StructEq.
