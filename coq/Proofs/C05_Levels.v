(* C05 — Dremel shredding / record assembly: assemble is a left inverse of shred, shredding is
   compositional in the rows (batch splits), levels are bounded by the path; and the token flattening through which
   the case interface passes nested values (parse / unparse) loses nothing. *)
From Coq Require Import List ZArith Lia.
From AV Require Import Base.ListX Model.C05_Levels.
Import ListNotations.

(* the entry that follows a complete value belongs to an enclosing list: its repetition level is smaller *)
Definition head_lt (rest : list entry) (k : nat) : Prop :=
  match rest with [] => True | e :: _ => e_rep e < k end.

Lemma shred_hd p : forall d r rl (v : val p), exists e tl, shred p d r rl v = e :: tl /\ e_rep e = r /\ d <= e_def e.
Proof.
  induction p as [|n p IH]; intros d r rl v.
  - cbn. eexists _, _. split; [reflexivity|]. cbn. split; lia.
  - destruct n; cbn [shred].
    + apply IH.
    + cbn in v. destruct v as [x|].
      * destruct (IH (S d) r rl x) as (e & tl & E & Hr & Hd). exists e, tl. rewrite E.
        split; [reflexivity|]. split; [exact Hr|apply Nat.lt_le_incl, Hd].
      * eexists _, _. split; [reflexivity|]. cbn. split; lia.
    + cbn in v. destruct v as [|x xs].
      * eexists _, _. split; [reflexivity|]. cbn. split; lia.
      * destruct (IH (S d) r (S rl) x) as (e & tl & E & Hr & Hd). rewrite E.
        exists e, (tl ++ flat_map (shred p (S d) (S rl) (S rl)) xs).
        split; [reflexivity|]. split; [exact Hr|apply Nat.lt_le_incl, Hd].
Qed.

Lemma shred_hd_app p d r rl (v : val p) rest :
  exists e tl, shred p d r rl v ++ rest = e :: tl /\ e_rep e = r /\ d <= e_def e.
Proof.
  destruct (shred_hd p d r rl v) as (e & tl & -> & H). exists e, (tl ++ rest). split; [reflexivity|exact H].
Qed.

Lemma shred_length_pos p d r rl (v : val p) : 1 <= length (shred p d r rl v).
Proof. destruct (shred_hd p d r rl v) as (e & tl & E & _). rewrite E. cbn. lia. Qed.

Lemma flat_shred_length_le p d r rl (xs : list (val p)) : length xs <= length (flat_map (shred p d r rl) xs).
Proof.
  induction xs as [|y ys IHy]; [apply Nat.le_refl|]. cbn [flat_map length]. rewrite app_length.
  pose proof (shred_length_pos p d r rl y). lia.
Qed.

Lemma head_lt_app_shred p d k rl (x : val p) rest j : k < j -> head_lt (shred p d k rl x ++ rest) j.
Proof. intros H. destruct (shred_hd p d k rl x) as (e & tl & E & Hr & _). rewrite E. cbn. lia. Qed.

Lemma head_lt_flat p d k (xs : list (val p)) rest :
  head_lt rest k -> head_lt (flat_map (shred p d k k) xs ++ rest) (S k).
Proof.
  intros H. destruct xs as [|y ys]; cbn [flat_map app]; [destruct rest; cbn in *; lia|].
  rewrite <- app_assoc. apply head_lt_app_shred. lia.
Qed.

(* the inner loop of shred_assemble_gen at a repeated node; IH is that theorem for the child path.  Every element
   emits at least one entry (flat_shred_length_le), which is where the two fuel bounds come from *)
Lemma many_ok (p : path) fuel' d rl
  (IH : forall r (v : val p) rest, length (shred p d r rl v ++ rest) <= fuel' -> head_lt rest (S rl) ->
        assemble fuel' p d rl (shred p d r rl v ++ rest) = Some (v, rest)) :
  forall (xs : list (val p)) fm rest, length xs < fm ->
    length (flat_map (shred p d rl rl) xs ++ rest) <= fuel' -> head_lt rest rl ->
    many fm (assemble fuel' p d rl) rl (flat_map (shred p d rl rl) xs ++ rest) = Some (xs, rest).
Proof.
  induction xs as [|x xs IHxs]; intros fm rest Hfm Hlen Hh.
  - destruct fm as [|fm]; [lia|]. cbn [flat_map app many].
    destruct rest as [|e rest']; [reflexivity|].
    cbn in Hh. destruct (Nat.eqb_spec (e_rep e) rl); [lia|reflexivity].
  - destruct fm as [|fm]; [cbn in Hfm; lia|].
    cbn [flat_map]. rewrite <- app_assoc.
    destruct (shred_hd_app p d rl rl x (flat_map (shred p d rl rl) xs ++ rest)) as (e & tl & E' & Hr & _).
    rewrite E'. cbn [many]. rewrite Hr, Nat.eqb_refl, <- E'.
    cbn [flat_map] in Hlen. rewrite <- app_assoc in Hlen.
    rewrite IH.
    + rewrite IHxs; [reflexivity| cbn in Hfm; lia | | exact Hh].
      rewrite app_length in Hlen. lia.
    + exact Hlen.
    + apply head_lt_flat, Hh.
Qed.

Theorem shred_assemble_gen (p : path) : forall fuel d r rl (v : val p) rest,
  length (shred p d r rl v ++ rest) <= fuel -> head_lt rest (S rl) ->
  assemble fuel p d rl (shred p d r rl v ++ rest) = Some (v, rest).
Proof.
  induction p as [|n p IH]; intros fuel d r rl v rest Hlen Hh.
  - cbn. rewrite Nat.eqb_refl. reflexivity.
  - destruct n; cbn [shred].
    + cbn [assemble]. apply IH; assumption.
    + cbn in v. destruct v as [x|].
      * destruct (shred_hd_app p (S d) r rl x rest) as (e & tl & E' & Hr & Hd).
        cbn [shred] in Hlen.
        rewrite E'. cbn [assemble].
        destruct (Nat.eqb_spec (e_def e) d); [lia|].
        destruct (Nat.ltb_spec (e_def e) d); [lia|].
        rewrite <- E'.
        rewrite IH by assumption. reflexivity.
      * cbn. rewrite Nat.eqb_refl. reflexivity.
    + cbn in v. destruct v as [|x xs].
      * cbn. rewrite Nat.eqb_refl. reflexivity.
      * cbn [shred] in Hlen. rewrite <- app_assoc in Hlen. rewrite <- app_assoc.
        destruct (shred_hd_app p (S d) r (S rl) x (flat_map (shred p (S d) (S rl) (S rl)) xs ++ rest))
          as (e & tl & E' & Hr & Hd).
        rewrite E'. cbn [assemble].
        destruct (Nat.eqb_spec (e_def e) d); [lia|].
        destruct (Nat.ltb_spec (e_def e) d); [lia|].
        rewrite <- E'.
        rewrite IH.
        -- rewrite (many_ok p fuel (S d) (S rl)).
           ++ reflexivity.
           ++ intros r0 v0 rest0 H1 H2. apply IH; assumption.
           ++ rewrite !app_length in Hlen. pose proof (shred_length_pos p (S d) r (S rl) x) as Hp.
              pose proof (flat_shred_length_le p (S d) (S rl) (S rl) xs). lia.
           ++ rewrite !app_length in Hlen. rewrite app_length. lia.
           ++ exact Hh.
        -- exact Hlen.
        -- apply head_lt_flat, Hh.
Qed.

Lemma shred_rows_cons p (x : val p) xs : shred_rows p (x :: xs) = shred p 0 0 0 x ++ shred_rows p xs.
Proof. reflexivity. Qed.

Lemma rows_length_le p (xs : list (val p)) : length xs <= length (shred_rows p xs).
Proof.
  apply flat_shred_length_le.
Qed.

Lemma assemble_rows_cons fuel p e tl :
  assemble_rows (S fuel) p (e :: tl) =
  match assemble (length (e :: tl)) p 0 0 (e :: tl) with
  | None => None
  | Some (x, r) => match assemble_rows fuel p r with None => None | Some xs => Some (x :: xs) end
  end.
Proof. reflexivity. Qed.

Theorem shred_assemble_rows (p : path) : forall (rows : list (val p)) fuel,
  length rows <= fuel -> assemble_rows fuel p (shred_rows p rows) = Some rows.
Proof.
  induction rows as [|x xs IH]; intros fuel Hf.
  - destruct fuel; reflexivity.
  - destruct fuel as [|fuel]; [cbn in Hf; lia|].
    rewrite shred_rows_cons.
    destruct (shred_hd_app p 0 0 0 x (shred_rows p xs)) as (e & tl & E' & _).
    rewrite E', assemble_rows_cons, <- E'.
    rewrite shred_assemble_gen.
    + rewrite IH by (cbn in Hf; lia). reflexivity.
    + lia.
    + destruct xs as [|y ys]; [exact I|]. rewrite shred_rows_cons. apply head_lt_app_shred. lia.
Qed.

Theorem shred_partition (p : path) (rows1 rows2 : list (val p)) :
  shred_rows p (rows1 ++ rows2) = shred_rows p rows1 ++ shred_rows p rows2.
Proof. unfold shred_rows. apply flat_map_app. Qed.

Lemma filter_length_le {A} (f : A -> bool) l : length (filter f l) <= length l.
Proof. exact (ListX.filter_length_le f l). Qed.

Theorem shred_levels_bounded (p : path) : forall d r rl (v : val p) e,
  In e (shred p d r rl v) ->
  e_def e <= d + max_def p /\ e_rep e <= Nat.max r (rl + max_rep p) /\
  (e_val e <> None <-> e_def e = d + max_def p).
Proof.
  induction p as [|n p IH]; intros d r rl v e Hin.
  - cbn in Hin. destruct Hin as [<-|[]]. cbn. repeat split; try lia. intros _. discriminate.
  - (* an Opt or Rep node adds one to max_def (Rep also to max_rep): move that one to d (and rl), where the
       induction hypothesis for the child has it *)
    destruct n; cbn [shred] in Hin.
    + exact (IH d r rl v e Hin).
    + change (max_def (Opt :: p)) with (S (max_def p)). change (max_rep (Opt :: p)) with (max_rep p).
      rewrite <- !Nat.add_succ_comm. cbn in v. destruct v as [x|]; [exact (IH (S d) r rl x e Hin)|].
      destruct Hin as [<-|[]]. cbn [e_def e_rep e_val]. repeat split; try lia. intros Hc. now destruct Hc.
    + change (max_def (Rep :: p)) with (S (max_def p)). change (max_rep (Rep :: p)) with (S (max_rep p)).
      rewrite <- !Nat.add_succ_comm. cbn in v. destruct v as [|x xs].
      * destruct Hin as [<-|[]]. cbn [e_def e_rep e_val]. repeat split; try lia. intros Hc. now destruct Hc.
      * apply in_app_or in Hin. destruct Hin as [Hin|Hin]; [exact (IH (S d) r (S rl) x e Hin)|].
        apply in_flat_map in Hin. destruct Hin as (y & _ & Hin).
        destruct (IH (S d) (S rl) (S rl) y e Hin) as (A & B & C). split; [exact A|split; [lia|exact C]].
Qed.

(* the token flattening of the case interface is faithful *)
Lemma parse_n_unparse (p : path)
  (IH : forall (v : val p) rest, parse p (unparse p v ++ rest) = Some (v, rest)) :
  forall (xs : list (val p)) rest, parse_n (parse p) (length xs) (flat_map (unparse p) xs ++ rest) = Some (xs, rest).
Proof.
  induction xs as [|x xs IHx]; intros rest; [reflexivity|].
  cbn [length parse_n flat_map]. rewrite <- app_assoc, IH, IHx. reflexivity.
Qed.

Theorem parse_unparse (p : path) : forall (v : val p) rest, parse p (unparse p v ++ rest) = Some (v, rest).
Proof.
  induction p as [|n p IH]; intros v rest.
  - reflexivity.
  - destruct n; cbn [parse unparse].
    + apply IH.
    + cbn in v. destruct v as [x|]; cbn [app]; [|reflexivity].
      cbn [Z.eqb]. rewrite IH. reflexivity.
    + cbn in v. cbn [app]. rewrite Nat2Z.id. apply parse_n_unparse, IH.
Qed.
