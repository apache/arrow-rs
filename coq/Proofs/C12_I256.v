(* C12 — i256 two-limb arithmetic is arithmetic modulo 2^256: every operation is characterised by
   an equation  op a b = rep (F (val a) (val b))  where [rep] maps an integer to its limbs, and the
   checked forms by  checked (F (val a) (val b)).  Only what goes through mulx (mulx, wrapping_mul,
   checked_mul) needs the half-limb B (B*B = 2H); everything else holds for every limb half-modulus
   H > 0 and stands in Section Limb.  Section HalfLimb, over B, holds mulx and wrapping_mul, and the
   uniqueness of the two signed reductions in the form the limb parameters give it. *)
From Coq Require Import ZArith Bool Lia.
From AV Require Import Model.C12_Int Model.C12_I256 Proofs.C12_Int.
Local Open Scope Z_scope.

(* Congruence modulo a limb is Zdiv's [eqm]; with its morphisms declared, a reduction deep inside a
   sum or product is rewritten away by the lemma that it is congruent to its argument. *)
Local Existing Instances eqm_setoid Zplus_eqm Zminus_eqm Zmult_eqm Zopp_eqm.

Lemma eqm_ex N a b : 0 < N -> eqm N a b -> exists k, a = b + k * N.
Proof.
  unfold eqm. intros HN E. exists (a / N - b / N).
  pose proof (Z.div_mod a N ltac:(lia)). pose proof (Z.div_mod b N ltac:(lia)). lia.
Qed.

Lemma dbl_pos H : 0 < H -> 0 < 2 * H.
Proof. lia. Qed.
(* 2^255 = H * W is the half-modulus of i256 *)
Lemma half_pos H : 0 < H -> 0 < H * (2 * H).
Proof. nia. Qed.
Lemma sq_dbl H : 2 * H * (2 * H) = 2 * (H * (2 * H)).
Proof. ring. Qed.

Section Limb.
Variable H : Z.
Hypothesis Hpos : 0 < H.
Let W := 2 * H.

(* kept in the context of every proof of the section, where lia and nia find them *)
Let Wpos : 0 < W := dbl_pos H Hpos.
Let HWpos : 0 < H * W := half_pos H Hpos.
Let WW : W * W = 2 * (H * W) := sq_dbl H.
Let WWpos : 0 < W * W := Z.mul_pos_pos W W Wpos Wpos.

(* the limbs are a u128 and an i128 *)
Definition wf256 (a : i256) : Prop := 0 <= low a < W /\ - H <= high a < H.
Notation wrap256 := (wrap true (H * W)).
Notation in256 := (in_range true (H * W)).
Notation value := (val H).
(* from_digits of the model; as a function on all of Z it is the quotient map onto the limb pairs *)
Notation rep := (of_uval H).

Lemma wraps_range z : - H <= wraps H z < H.
Proof.
  pose proof (wrap_in_range H Hpos true z) as R. apply (in_range_iff H) in R.
  unfold tmin, tmax in R. unfold wraps. lia.
Qed.
Lemma wrapu_range z : 0 <= wrapu H z < W.
Proof.
  pose proof (wrap_in_range H Hpos false z) as R. apply (in_range_iff H) in R.
  unfold tmin, tmax in R. unfold wrapu, W. lia.
Qed.
Lemma wrapu_small z : 0 <= z < W -> wrapu H z = z.
Proof. intros R. apply (wrap_small H false). apply in_range_iff. unfold tmin, tmax. fold W. lia. Qed.
Lemma wraps_small z : - H <= z < H -> wraps H z = z.
Proof. intros R. apply (wrap_small H true). apply in_range_iff. unfold tmin, tmax. lia. Qed.
Lemma wrapu_unique z r k : 0 <= r < W -> r = z + k * W -> r = wrapu H z.
Proof.
  intros R E. apply (wrap_unique H Hpos false z r k); [|exact E].
  apply in_range_iff. unfold tmin, tmax. fold W. lia.
Qed.

Lemma wrapu_eq0 x : - H <= x < H -> (wrapu H x =? 0) = (x =? 0).
Proof.
  intros R. destruct (Z.ltb_spec x 0) as [N|P].
  - rewrite <- (wrapu_unique x (x + W) 1) by lia.
    rewrite (proj2 (Z.eqb_neq x 0)), (proj2 (Z.eqb_neq (x + W) 0)) by lia. reflexivity.
  - rewrite wrapu_small by lia. reflexivity.
Qed.

Lemma wraps_eqm z : eqm W (wraps H z) z.
Proof. apply (wrap_eqm H Hpos). Qed.
Lemma wrapu_eqm z : eqm W (wrapu H z) z.
Proof. apply (wrap_eqm H Hpos). Qed.
Lemma wraps_proper x y : eqm W x y -> wraps H x = wraps H y.
Proof. apply wrap_proper. Qed.
Lemma wrap256_eqm z : eqm (W * W) (wrap256 z) z.
Proof. rewrite WW. apply (wrap_eqm (H * W) HWpos). Qed.

Lemma in256_iff z : in256 z = true <-> - (H * W) <= z < H * W.
Proof. rewrite (in_range_iff (H * W)). unfold tmin, tmax. lia. Qed.

Lemma val_range a : wf256 a -> - (H * W) <= value a < H * W.
Proof. unfold wf256, val. fold W. intros [? ?]. nia. Qed.

Lemma val_sign a : wf256 a -> (high a <? 0) = (value a <? 0).
Proof.
  unfold wf256, val. fold W. intros [? ?].
  destruct (Z.ltb_spec (high a) 0); destruct (Z.ltb_spec (high a * W + low a) 0); try reflexivity; nia.
Qed.

Lemma rep_wf z : wf256 (rep z).
Proof. split; [apply Z.mod_pos_bound, Wpos|apply wraps_range]. Qed.

(* The shape of every result below: a low limb in range under a high limb reduced by wraps.
   If the unreduced high limb is congruent to h, these are the limbs of h * W + lo. *)
Lemma mk256_rep lo x h : 0 <= lo < W -> eqm W x h -> mk256 lo (wraps H x) = rep (h * W + lo).
Proof.
  intros R E. unfold of_uval. fold W.
  rewrite Z.add_comm, Z.mod_add, Z.div_add, Z.mod_small, Z.div_small by lia.
  now rewrite (wraps_proper _ _ E).
Qed.

Lemma rep_val a : wf256 a -> rep (value a) = a.
Proof.
  intros [Rl Rh]. unfold val. fold W. rewrite <- (mk256_rep _ (high a)) by (assumption || reflexivity).
  rewrite wraps_small by assumption. now destruct a.
Qed.
Lemma rep_intro a z : wf256 a -> value a = z -> a = rep z.
Proof. intros Wa <-. symmetry. now apply rep_val. Qed.

(* the operands the driver builds: of_val is rep on the values of the type, hence well-formed by rep_wf *)
Lemma of_val_rep z : in256 z = true -> of_val H z = rep z.
Proof.
  intros I. apply in256_iff in I. unfold of_val, of_uval. fold W. f_equal. symmetry. apply wraps_small.
  split; [apply Z.div_le_lower_bound|apply Z.div_lt_upper_bound]; lia.
Qed.

Lemma rep_eqm x y : eqm (W * W) x y -> rep x = rep y.
Proof.
  intros E. destruct (eqm_ex _ _ _ WWpos E) as [k ->]. unfold of_uval. fold W.
  rewrite Z.mul_assoc, Z.mod_add, Z.div_add by lia. f_equal. apply wraps_proper, Z_mod_plus_full.
Qed.

Lemma val_rep z : value (rep z) = wrap256 z.
Proof.
  pose proof (val_range _ (rep_wf z)) as R.
  destruct (eqm_ex _ _ _ Wpos (wraps_eqm (z / W))) as [k Ek].
  apply (wrap_unique (H * W) HWpos true z _ k); [now apply in256_iff|].
  unfold of_uval, val. cbn [low high]. fold W. rewrite Ek.
  pose proof (Z.div_mod z W ltac:(lia)). lia.
Qed.
Lemma val_rep_small z : in256 z = true -> value (rep z) = z.
Proof. intros I. rewrite val_rep. now apply wrap_small. Qed.

Lemma rep_spec z : wf256 (rep z) /\ value (rep z) = wrap256 z.
Proof. exact (conj (rep_wf z) (val_rep z)). Qed.

Lemma uval_rep z : uval H (rep z) = z mod (W * W).
Proof.
  unfold uval, of_uval. cbn [low high]. fold W. unfold wrapu, wrap at 1. fold W.
  rewrite (wraps_eqm (z / W)), Z.rem_mul_r by lia. ring.
Qed.

Lemma u_add_carry a b : 0 <= a < W -> 0 <= b < W ->
  wrapu H (a + b) = a + b - b2z (W <=? a + b) * W.
Proof.
  intros Ra Rb. destruct (Z.leb_spec W (a + b)); cbn [b2z].
  - symmetry. apply wrapu_unique with (k := -1); lia.
  - rewrite wrapu_small by lia. lia.
Qed.
Lemma u_sub_borrow a b : 0 <= a < W -> 0 <= b < W ->
  wrapu H (a - b) = a - b + b2z (a - b <? 0) * W.
Proof.
  intros Ra Rb. destruct (Z.ltb_spec (a - b) 0); cbn [b2z].
  - symmetry. apply wrapu_unique with (k := 1); lia.
  - rewrite wrapu_small by lia. lia.
Qed.

Theorem wrapping_add_eq a b : wf256 a -> wf256 b -> wrapping_add H a b = rep (value a + value b).
Proof.
  intros [Ral _] [Rbl _]. unfold wrapping_add, u_overflowing_add. fold W.
  rewrite (mk256_rep _ _ (high a + high b + b2z (W <=? low a + low b))).
  - f_equal. rewrite (u_add_carry _ _ Ral Rbl). unfold val. fold W. ring.
  - apply wrapu_range.
  - now rewrite wraps_eqm.
Qed.
Theorem wrapping_sub_eq a b : wf256 a -> wf256 b -> wrapping_sub H a b = rep (value a - value b).
Proof.
  intros [Ral _] [Rbl _]. unfold wrapping_sub, u_overflowing_sub.
  rewrite (mk256_rep _ _ (high a - high b - b2z (low a - low b <? 0))).
  - f_equal. rewrite (u_sub_borrow _ _ Ral Rbl). unfold val. fold W. ring.
  - apply wrapu_range.
  - now rewrite wraps_eqm.
Qed.

(* for operands that are themselves results *)
Lemma add_rep x y : wrapping_add H (rep x) (rep y) = rep (x + y).
Proof. rewrite wrapping_add_eq by apply rep_wf. apply rep_eqm. now rewrite !val_rep, !wrap256_eqm. Qed.
Lemma sub_rep x y : wrapping_sub H (rep x) (rep y) = rep (x - y).
Proof. rewrite wrapping_sub_eq by apply rep_wf. apply rep_eqm. now rewrite !val_rep, !wrap256_eqm. Qed.

Lemma not_rep a : wf256 a -> mk256 (not_u H (low a)) (not_s (high a)) = rep (- value a - 1).
Proof.
  intros [Hl Hh]. apply rep_intro.
  - unfold wf256, not_u, not_s. cbn [low high]. fold W. lia.
  - unfold not_u, not_s, val. cbn [low high]. fold W. ring.
Qed.
Lemma ONE_rep : ONE = rep 1.
Proof. apply rep_intro; [unfold wf256, ONE; cbn [low high]; lia|reflexivity]. Qed.
Lemma ZERO_rep : ZERO = rep 0.
Proof. apply rep_intro; [unfold wf256, ZERO; cbn [low high]; lia|reflexivity]. Qed.
Lemma MINUS_ONE_rep : MINUS_ONE H = rep (-1).
Proof. apply rep_intro; [unfold wf256, MINUS_ONE; cbn [low high]; fold W|unfold MINUS_ONE, val; cbn [low high]]; lia. Qed.
Lemma MIN_rep : MIN H = rep (- (H * W)).
Proof. apply rep_intro; [unfold wf256, MIN; cbn [low high]; lia|unfold MIN, val; cbn [low high]; fold W; ring]. Qed.

Theorem wrapping_neg_eq a : wf256 a -> wrapping_neg256 H a = rep (- value a).
Proof. intros Wa. unfold wrapping_neg256. rewrite (not_rep a Wa), ONE_rep, add_rep. f_equal. ring. Qed.
Lemma neg_rep z : wrapping_neg256 H (rep z) = rep (- z).
Proof. rewrite wrapping_neg_eq by apply rep_wf. apply rep_eqm. now rewrite val_rep, wrap256_eqm. Qed.

(* wrapping_abs: |a| modulo 2^256 (MIN stays MIN) *)
Theorem wrapping_abs_eq a : wf256 a -> wrapping_abs256 H a = rep (Z.abs (value a)).
Proof.
  intros Wa. unfold wrapping_abs256. rewrite (val_sign a Wa).
  destruct (Z.ltb_spec (value a) 0) as [N|N].
  - rewrite (not_rep a Wa), MINUS_ONE_rep, sub_rep. f_equal. lia.
  - rewrite <- (rep_val a Wa) at 1. rewrite ZERO_rep, sub_rep. f_equal. lia.
Qed.
Lemma abs_wf a : wf256 a -> wf256 (wrapping_abs256 H a).
Proof. intros Wa. rewrite (wrapping_abs_eq a Wa). apply rep_wf. Qed.
(* the unsigned reading of |a| is the magnitude, also for MIN *)
Lemma uval_abs a : wf256 a -> uval H (wrapping_abs256 H a) = Z.abs (value a).
Proof.
  intros Wa. pose proof (val_range a Wa). rewrite (wrapping_abs_eq a Wa), uval_rep. apply Z.mod_small. lia.
Qed.

Lemma is_eq_spec a b : wf256 a -> wf256 b -> is_eq a b = (value a =? value b).
Proof.
  intros Wa Wb. unfold is_eq. destruct (Z.eqb_spec (value a) (value b)) as [E|E].
  - rewrite <- (rep_val a Wa), <- (rep_val b Wb), E, !Z.eqb_refl. reflexivity.
  - destruct (Z.eqb_spec (high a) (high b)) as [E1|E1]; [|reflexivity].
    destruct (Z.eqb_spec (low a) (low b)) as [E2|E2]; [|reflexivity].
    exfalso. apply E. unfold val. congruence.
Qed.

Lemma is_eq_rep a z : wf256 a -> in256 z = true -> is_eq a (rep z) = (value a =? z).
Proof. intros Wa I. now rewrite (is_eq_spec a _ Wa (rep_wf z)), val_rep_small. Qed.

(* what every checked operation promises about the exact result z *)
Definition exact_or_none (o : option i256) (z : Z) : Prop :=
  match o with
  | Some r => wf256 r /\ value r = z /\ in256 z = true
  | None => in256 z = false
  end.
(* and how it keeps the promise *)
Definition checked (z : Z) : option i256 := if in256 z then Some (rep z) else None.
Lemma checked_exact z : exact_or_none (checked z) z.
Proof.
  unfold checked, exact_or_none. destruct (in256 z) eqn:I; [|reflexivity].
  split; [apply rep_wf|]. split; [now apply val_rep_small|reflexivity].
Qed.
Lemma checked_in z : in256 z = true -> checked z = Some (rep z).
Proof. unfold checked. now intros ->. Qed.
Lemma checked_out z : in256 z = false -> checked z = None.
Proof. unfold checked. now intros ->. Qed.
Lemma flag_checked z (o : bool) : o = negb (in256 z) -> (if o then None else Some (rep z)) = checked z.
Proof. intros ->. unfold checked. now destruct (in256 z). Qed.

Theorem checked_neg_eq a : wf256 a -> checked_neg256 H a = checked (- value a).
Proof.
  intros Wa. unfold checked_neg256. pose proof (val_range a Wa).
  rewrite MIN_rep, (is_eq_rep a _ Wa) by (apply in256_iff; lia).
  rewrite (wrapping_neg_eq a Wa).
  destruct (Z.eqb_spec (value a) (- (H * W))) as [E|E]; cbn [negb]; symmetry.
  - apply checked_out, not_true_iff_false. rewrite in256_iff. lia.
  - apply checked_in, in256_iff. lia.
Qed.

(* The high limb of overflowing_add/sub goes through u128 bit patterns; it is the same limb. *)
Lemma overflowing_add_eq a b : overflowing_add H a b =
  (wrapping_add H a b,
   Bool.eqb (high a <? 0) (high b <? 0) && negb (Bool.eqb (high (wrapping_add H a b) <? 0) (high a <? 0))).
Proof.
  unfold overflowing_add, wrapping_add, u_overflowing_add. cbn [high]. fold W.
  rewrite (wraps_proper _ (wraps H (high a + high b) + b2z (W <=? low a + low b))); [reflexivity|].
  now rewrite !wrapu_eqm, wraps_eqm.
Qed.
Lemma overflowing_sub_eq a b : overflowing_sub H a b =
  (wrapping_sub H a b,
   negb (Bool.eqb (high a <? 0) (high b <? 0)) && negb (Bool.eqb (high (wrapping_sub H a b) <? 0) (high a <? 0))).
Proof.
  unfold overflowing_sub, wrapping_sub, u_overflowing_sub. cbn [high].
  rewrite (wraps_proper _ (wraps H (high a - high b) - b2z (low a - low b <? 0))); [reflexivity|].
  now rewrite !wrapu_eqm, wraps_eqm.
Qed.

(* one wrap at most: below 2^256 in magnitude, the reduced value has the sign of z iff z is in range *)
Lemma wrap256_sign z : - (W * W) <= z < W * W -> Bool.eqb (wrap256 z <? 0) (z <? 0) = in256 z.
Proof.
  intros R. destruct (in256 z) eqn:I.
  - rewrite (wrap_small _ _ _ I). apply eqb_reflx.
  - assert (N : ~ (- (H * W) <= z < H * W)) by (intros C; apply in256_iff in C; congruence).
    destruct (Z.ltb_spec z 0).
    + rewrite <- (wrap_unique (H * W) HWpos true z (z + W * W) 1); [|apply in256_iff; lia|lia].
      now rewrite (proj2 (Z.ltb_ge _ _)) by lia.
    + rewrite <- (wrap_unique (H * W) HWpos true z (z - W * W) (-1)); [|apply in256_iff; lia|lia].
      now rewrite (proj2 (Z.ltb_lt _ _)) by lia.
Qed.

(* Signed overflow read off the signs: x + d leaves the range iff x and d point the same way and
   the wrapped sum points the other way.  sd is the sign bit attributed to d (free when d = 0),
   so that subtraction is the case d = - y, sd = negb (y <? 0). *)
Lemma add_overflow_sign x d (sd : bool) : - (H * W) <= x < H * W -> - (H * W) <= d <= H * W ->
  (if sd then d <= 0 else 0 <= d) ->
  Bool.eqb (x <? 0) sd && negb (Bool.eqb (wrap256 (x + d) <? 0) (x <? 0)) = negb (in256 (x + d)).
Proof.
  intros Rx Rd Sd. destruct (Bool.eqb (x <? 0) sd) eqn:Same; cbn [andb].
  - (* same direction: the sum has the sign of x *)
    apply eqb_prop in Same. subst sd.
    replace (x <? 0) with (x + d <? 0) at 1
      by (revert Sd; destruct (Z.ltb_spec x 0), (Z.ltb_spec (x + d) 0); try reflexivity; lia).
    now rewrite wrap256_sign by lia.
  - (* opposite directions: the sum lies between them *)
    symmetry. apply negb_false_iff, in256_iff.
    revert Same. destruct (Z.ltb_spec x 0), sd; try discriminate; lia.
Qed.

Theorem checked_add_eq a b : wf256 a -> wf256 b -> checked_add256 H a b = checked (value a + value b).
Proof.
  intros Wa Wb. unfold checked_add256. rewrite overflowing_add_eq, (wrapping_add_eq a b Wa Wb).
  apply flag_checked.
  rewrite (val_sign a Wa), (val_sign b Wb), (val_sign _ (rep_wf _)), val_rep.
  pose proof (val_range b Wb). apply add_overflow_sign; [now apply val_range|lia|].
  destruct (Z.ltb_spec (value b) 0); lia.
Qed.

Theorem checked_sub_eq a b : wf256 a -> wf256 b -> checked_sub256 H a b = checked (value a - value b).
Proof.
  intros Wa Wb. unfold checked_sub256. rewrite overflowing_sub_eq, (wrapping_sub_eq a b Wa Wb).
  apply flag_checked.
  rewrite (val_sign a Wa), (val_sign b Wb), (val_sign _ (rep_wf _)), val_rep.
  replace (negb (Bool.eqb (value a <? 0) (value b <? 0)))
    with (Bool.eqb (value a <? 0) (negb (value b <? 0))) by (destruct (value a <? 0), (value b <? 0); reflexivity).
  pose proof (val_range b Wb). apply (add_overflow_sign _ (- value b)); [now apply val_range|lia|].
  destruct (Z.ltb_spec (value b) 0); cbn [negb]; lia.
Qed.

Theorem cmp256_spec a b : wf256 a -> wf256 b -> cmp256 a b = (value a ?= value b).
Proof.
  unfold wf256, cmp256, val. fold W. intros [Hal Hah] [Hbl Hbh].
  destruct (Z.compare_spec (high a) (high b)) as [E|L|G].
  - rewrite E. destruct (Z.compare_spec (low a) (low b)); symmetry.
    + apply Z.compare_eq_iff. lia.
    + apply Z.compare_lt_iff. lia.
    + apply Z.compare_gt_iff. lia.
  - symmetry. apply Z.compare_lt_iff. nia.
  - symmetry. apply Z.compare_gt_iff. nia.
Qed.

End Limb.

Section HalfLimb.
Variable B : Z.
Variable H : Z.
Hypothesis Bpos : 0 < B.
Hypothesis BB : B * B = 2 * H.
Let W := 2 * H.

Lemma limb_pos : 0 < H.
Proof. nia. Qed.

Notation wrap256 := (wrap true (H * W)).
Notation value := (val H).
Notation rep := (of_uval H).
Notation wf256 := (wf256 H).

Lemma wraps_unique z r k : - H <= r < H -> r = z + k * W -> r = wraps H z.
Proof.
  intros R E. apply (wrap_unique H limb_pos true z r k); [|exact E].
  apply in_range_iff. unfold tmin, tmax. lia.
Qed.
Lemma wrap256_unique z r k : - (H * W) <= r < H * W -> r = z + k * (W * W) -> r = wrap256 z.
Proof.
  intros R E. apply (wrap_unique (H * W) (half_pos H limb_pos) true z r k).
  - now apply in256_iff.
  - rewrite E. unfold W. ring.
Qed.

Lemma WBB : W = B * B.
Proof. unfold W. lia. Qed.

Lemma split_digits x : 0 <= x < B * B ->
  0 <= x mod B < B /\ 0 <= x / B < B /\ x = x / B * B + x mod B.
Proof.
  intros R. split; [apply Z.mod_pos_bound, Bpos|]. split.
  - split; [apply Z.div_pos; lia | apply Z.div_lt_upper_bound; lia].
  - rewrite (Z.mul_comm (x / B)). apply Z.div_mod. lia.
Qed.
Lemma digit_pair l h : 0 <= l < B -> 0 <= h < B ->
  0 <= l + h * B < B * B /\ (l + h * B) / B = h /\ (l + h * B) mod B = l.
Proof.
  intros Rl Rh. split.
  - assert (0 <= h * B <= (B - 1) * B) by (split; [|apply Z.mul_le_mono_nonneg_r]; lia). lia.
  - rewrite Z.div_add, Z.mod_add, Z.div_small, Z.mod_small by lia. lia.
Qed.
(* carry + digit * digit stays below B*B: (B-1) + (B-1)*(B-1) = (B-1)*B *)
Lemma digit_mac c x y : 0 <= c < B -> 0 <= x < B -> 0 <= y < B -> 0 <= c + x * y < B * B.
Proof.
  intros Rc Rx Ry.
  assert (0 <= x * y <= (B - 1) * (B - 1)) by (split; [|apply Z.mul_le_mono_nonneg]; lia). lia.
Qed.

(* the schoolbook product of (ah,al) and (bh,bl), with the carries of mulx:
   al*bl = (c0,l0), c0 + ah*bl = (c1h,c1l), c1l + bh*al = (c3h,c3l) *)
Lemma schoolbook al ah bl bh l0 c0 c1l c1h c3l c3h :
  al * bl = c0 * B + l0 -> c0 + ah * bl = c1h * B + c1l -> c1l + bh * al = c3h * B + c3l ->
  (ah * B + al) * (bh * B + bl) = B * B * (c1h + c3h + ah * bh) + (l0 + c3l * B).
Proof.
  intros E0 E1 E3.
  assert (l0 = al * bl - c0 * B) by lia. assert (c1l = c0 + ah * bl - c1h * B) by lia.
  assert (c3l = c1l + bh * al - c3h * B) by lia. subst l0 c3l c1l. ring.
Qed.

Lemma wrapu_digits z : 0 <= z < B * B -> wrapu H z = z.
Proof. rewrite <- WBB. apply (wrapu_small H). Qed.
Lemma wrapu_add_l x y : wrapu H (wrapu H x + y) = wrapu H (x + y).
Proof. apply Zplus_mod_idemp_l. Qed.

Lemma shl64_spec x : 0 <= x -> shl64 B H x = (x mod B) * B.
Proof.
  intros Hx. unfold shl64, wrapu, wrap. fold W. rewrite WBB.
  apply Z.mul_mod_distr_r; lia.
Qed.

Lemma mul_div_range a b : 0 <= a < W -> 0 <= b < W -> 0 <= a * b / W < W.
Proof.
  intros Ra Rb. pose proof (dbl_pos H limb_pos). split.
  - apply Z.div_pos; [apply Z.mul_nonneg_nonneg|]; lia.
  - apply Z.div_lt_upper_bound; [|apply Z.mul_lt_mono_nonneg]; lia.
Qed.

Theorem mulx_spec a b : 0 <= a < W -> 0 <= b < W ->
  mulx B H a b = ((a * b) mod W, (a * b) / W).
Proof.
  intros Ra Rb. pose proof (mul_div_range a b Ra Rb) as Rq. rewrite WBB in *.
  unfold mulx, split.
  destruct (split_digits a Ra) as (Ral & Rah & Ea). destruct (split_digits b Rb) as (Rbl & Rbh & Eb).
  set (al := a mod B) in *. set (ah := a / B) in *. set (bl := b mod B) in *. set (bh := b / B) in *.
  destruct (split_digits (al * bl)) as (Rl0 & Rc0 & E0); [apply (digit_mac 0); lia|].
  set (low0 := (al * bl) mod B) in *. set (carry0 := (al * bl) / B) in *.
  (* carry1 = carry0 + ah*bl does not wrap; its digits are (c1h, c1l) *)
  pose proof (digit_mac carry0 ah bl Rc0 Rah Rbl) as R1.
  rewrite (wrapu_digits _ R1), shl64_spec by apply R1.
  destruct (split_digits _ R1) as (Rc1l & Rc1h & E1).
  set (c1l := (carry0 + ah * bl) mod B) in *. set (c1h := (carry0 + ah * bl) / B) in *.
  destruct (digit_pair low0 c1l Rl0 Rc1l) as (R & Ed & Em). rewrite (wrapu_digits _ R), Ed, Em.
  clear R Ed Em.
  (* carry3 = c1l + bh*al likewise, digits (c3h, c3l) *)
  pose proof (digit_mac c1l bh al Rc1l Rbh Ral) as R3.
  rewrite (wrapu_digits _ R3), shl64_spec by apply R3.
  destruct (split_digits _ R3) as (Rc3l & Rc3h & E3).
  set (c3l := (c1l + bh * al) mod B) in *. set (c3h := (c1l + bh * al) / B) in *.
  destruct (digit_pair low0 c3l Rl0 Rc3l) as (Rlo & _ & _). rewrite (wrapu_digits _ Rlo).
  (* the two additions into the high word are reduced together, at the end *)
  rewrite wrapu_add_l.
  (* a*b = B*B * high + low with low < B*B: quotient and remainder are unique *)
  pose proof (schoolbook al ah bl bh low0 carry0 c1l c1h c3l c3h E0 E1 E3) as P.
  rewrite <- Ea, <- Eb in P.
  rewrite <- (Z.mod_unique_pos _ _ _ _ Rlo P).
  rewrite <- (Z.div_unique_pos _ _ _ _ Rlo P) in Rq |- *.
  now rewrite (wrapu_digits _ Rq).
Qed.

Theorem wrapping_mul_eq a b : wf256 a -> wf256 b -> wrapping_mul256 B H a b = rep (value a * value b).
Proof.
  intros [Ral _] [Rbl _]. unfold wrapping_mul256.
  rewrite (mulx_spec (low a) (low b) Ral Rbl). pose proof (dbl_pos H limb_pos) as Wp.
  rewrite (mk256_rep H limb_pos _ _ ((low a * low b) / W + high a * low b + low a * high b)).
  - (* the product of the high limbs lies above 2^256 *)
    apply (rep_eqm H limb_pos). fold W. unfold eqm.
    rewrite <- (Z_mod_plus_full _ (high a * high b) (W * W)). f_equal.
    pose proof (Z.div_mod (low a * low b) W ltac:(lia)). unfold val. fold W. lia.
  - apply Z.mod_pos_bound, Wp.
  - now rewrite !(wraps_eqm H limb_pos).
Qed.

End HalfLimb.
