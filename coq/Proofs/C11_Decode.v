(* C11 — the decoders read back what the encoders wrote and return the rest of the row.  The two loops
   of decode_blocks follow a derivation of the block relation, one lemma per kind of block; one
   lemma serves the fixed-width decoder of every leaf; the struct / fixed-size-list loops nested in
   [dec] are named here and the list loop is followed child by child; then dec_enc, by the
   induction over field types.  At the end two example rows that meet the hypotheses. *)
From Coq Require Import List Arith NArith ZArith Lia.
From AV Require Import Base.ListX Model.C11_Row Proofs.C11_Lex Proofs.C11_Var Proofs.C11_Unfold Proofs.C11_Field Proofs.C11_Nested.
Import ListNotations.
Local Open Scope N_scope.

Lemma inv_if_firstn d n l : inv_if d (firstn n l) = firstn n (inv_if d l).
Proof. destruct d; [|reflexivity]. cbn [inv_if]. unfold invert. symmetry. apply firstn_map. Qed.
(* The loop bodies of decode_mini and decode_full are this step, for B = 8 and B = 32. *)
Definition block_step (B : nat) (d : bool) (row : list N) (idx : nat) (acc : list N)
    (k : nat -> list N -> list N * nat) : list N * nat :=
  let sentinel := nth (idx + B) row 0 in
  if negb (N.eqb sentinel (ib d CONT))
  then (acc ++ slice row idx (N.to_nat (if d then not8 sentinel else sentinel)), (idx + B + 1)%nat)
  else k (idx + B + 1)%nat (acc ++ slice row idx B).

Lemma decode_full_S f d row idx acc :
  decode_full (S f) d row idx acc = block_step BLOCK_SIZE d row idx acc (decode_full f d row).
Proof. reflexivity. Qed.

Lemma decode_mini_S n d row idx acc :
  decode_mini (S n) d row idx acc = block_step MINI_BLOCK_SIZE d row idx acc (decode_mini n d row).
Proof. reflexivity. Qed.

Lemma block_step_at B d pre a m r acc k : length a = B ->
  block_step B d (pre ++ a ++ m :: r) (length pre) acc k =
  if negb (N.eqb m (ib d CONT))
  then (acc ++ firstn (N.to_nat (ib d m)) (a ++ m :: r), (length pre + B + 1)%nat)
  else k (length pre + B + 1)%nat (acc ++ a).
Proof.
  intros <-. unfold block_step, slice.
  rewrite app_assoc, <- app_length, nth_middle, <- app_assoc.
  rewrite (skipn_app_exact _ pre _ eq_refl), (firstn_app_exact _ a _ eq_refl). reflexivity.
Qed.

(* a final block ends the loop with its data *)
Lemma block_step_last d B v pre rest acc k : (length v <= B)%nat -> N.of_nat B < CONT ->
  block_step B d (pre ++ inv_if d (blk B 0 v) ++ rest) (length pre) acc k
  = (acc ++ inv_if d v, (length pre + length (blk B 0 v))%nat).
Proof.
  intros L HC. rewrite blk_length by exact L. unfold blk. cbn [Nat.add].
  rewrite (app_assoc v (repeat 0 _)), (inv_if_app d (v ++ repeat 0 _)), inv_if_cons, inv_if_nil, <- app_assoc. cbn [app].
  rewrite block_step_at by (rewrite inv_if_length, app_length, repeat_length; lia).
  assert (Hb : N.of_nat (length v) < 256) by (unfold CONT in HC; lia).
  destruct (N.eqb_spec (ib d (N.of_nat (length v))) (ib d CONT)) as [E|_].
  { apply (ib_inj d) in E; [lia | exact Hb | unfold CONT; lia]. }
  cbn [negb]. rewrite ib_invol by exact Hb. rewrite Nat2N.id.
  rewrite inv_if_app, <- app_assoc, (firstn_app_exact _ _ _ (inv_if_length d v)). f_equal. lia.
Qed.

(* a continued block hands its data to the loop, at the start of what follows it *)
Lemma block_step_cont d B u pre tail acc k : length u = B ->
  block_step B d ((pre ++ inv_if d u ++ [ib d CONT]) ++ tail) (length pre) acc k
  = k (length (pre ++ inv_if d u ++ [ib d CONT])) (acc ++ inv_if d u).
Proof.
  intros Lu. rewrite <- !app_assoc. cbn [app].
  rewrite block_step_at by (now rewrite inv_if_length). rewrite N.eqb_refl. cbn [negb].
  rewrite !app_length, inv_if_length. cbn [length]. now rewrite Lu, Nat.add_assoc.
Qed.

Lemma cont_row d pre u out rest :
  pre ++ inv_if d (u ++ CONT :: out) ++ rest = (pre ++ inv_if d u ++ [ib d CONT]) ++ inv_if d out ++ rest.
Proof. rewrite inv_if_app, inv_if_cons, <- !app_assoc. reflexivity. Qed.

Lemma cont_result d pre u v out (acc : list N) :
  ((acc ++ inv_if d u) ++ inv_if d v, (length (pre ++ inv_if d u ++ [ib d CONT]) + length out)%nat)
  = (acc ++ inv_if d (u ++ v), (length pre + length (u ++ CONT :: out))%nat).
Proof. rewrite inv_if_app, <- app_assoc. f_equal. rewrite !app_length, inv_if_length. cbn [length]. lia. Qed.

Lemma decode_full_blocks d st v out : blocks sched st v out -> (MINI_BLOCK_COUNT <= st)%nat ->
  forall pre acc rest fuel, (length out <= fuel)%nat ->
  decode_full fuel d (pre ++ inv_if d out ++ rest) (length pre) acc
  = (acc ++ inv_if d v, (length pre + length out)%nat).
Proof.
  induction 1 as [st v Nv Lv|st u v out Lu Hv IH]; intros Hst pre acc rest fuel Hf.
  - rewrite blk_length in Hf by exact Lv. destruct fuel as [|fuel]; [lia|].
    rewrite decode_full_S, <- (sched_full st Hst). apply block_step_last; [exact Lv | apply sched_lt].
  - rewrite app_length in Hf. cbn [length] in Hf. destruct fuel as [|fuel]; [lia|].
    rewrite decode_full_S, <- (sched_full st Hst), cont_row, block_step_cont by exact Lu.
    rewrite IH by lia. apply cont_result.
Qed.

(* decode_mini hands over to decode_full with the length of the row as fuel, which is enough *)
Lemma decode_mini_blocks d st v out : blocks sched st v out -> forall n pre acc rest,
  (st + n = MINI_BLOCK_COUNT)%nat ->
  decode_mini n d (pre ++ inv_if d out ++ rest) (length pre) acc
  = (acc ++ inv_if d v, (length pre + length out)%nat).
Proof.
  intros H n. revert st v out H. induction n as [|n IH]; intros st v out H pre acc rest Hst.
  - (* the mini blocks are used up *)
    cbn [decode_mini]. apply (decode_full_blocks d st v out H); [lia|].
    rewrite (app_length pre), (app_length (inv_if _ _)), inv_if_length. lia.
  - rewrite decode_mini_S, <- (sched_mini st) by lia. destruct H as [st v Nv Lv|st u v out Lu Hv].
    + (* final block *) apply block_step_last; [exact Lv | apply sched_lt].
    + (* continued block *)
      rewrite cont_row, block_step_cont by exact Lu. rewrite (IH _ _ _ Hv) by lia. apply cont_result.
Qed.

Theorem decode_blocks_some o b rest : wf_bytes b ->
  decode_blocks o (encode_one o (Some b) ++ rest) = (inv_if (descending o) b, length (encode_one o (Some b))).
Proof.
  intros Wb. rewrite encode_one_some. unfold decode_blocks.
  destruct b as [|p b]; [destruct (descending o); reflexivity|]. set (d := descending o).
  destruct (var_body_blocks (p :: b)) as (out & -> & Hb); [discriminate|].
  rewrite inv_if_cons. cbn [app nth].
  change (if d then not8 NON_EMPTY_SENTINEL else NON_EMPTY_SENTINEL) with (ib d NON_EMPTY_SENTINEL).
  rewrite N.eqb_refl. cbn [negb length]. rewrite inv_if_length.
  exact (decode_mini_blocks d 0 (p :: b) out Hb MINI_BLOCK_COUNT [ib d NON_EMPTY_SENTINEL] [] rest eq_refl).
Qed.

Lemma decode_blocks_null o rest : decode_blocks o (encode_null o ++ rest) = ([], 1%nat).
Proof.
  unfold decode_blocks, encode_null, null_sentinel. cbn [app nth].
  destruct (descending o), (nulls_first o); reflexivity.
Qed.

Lemma null_sentinel_neq1 o : N.eqb (null_sentinel o) 1 = false.
Proof. unfold null_sentinel. destruct (nulls_first o); reflexivity. Qed.

Lemma dec_fixed_valid o w f e rest : length e = w -> wf_bytes e ->
  dec_fixed o w f (encode_fixed o w (Some e) ++ rest) = (f e, rest).
Proof.
  intros Hl We. unfold dec_fixed, encode_fixed, slice. cbn [app nth skipn N.eqb Pos.eqb].
  rewrite <- (inv_if_length (descending o) e) in Hl.
  rewrite (firstn_app_exact _ _ _ Hl), (skipn_app_exact _ _ _ Hl). now rewrite inv_if_invol.
Qed.

Lemma dec_fixed_null o w f rest : dec_fixed o w f (encode_fixed o w None ++ rest) = (VNull, rest).
Proof.
  unfold dec_fixed, encode_fixed. cbn [app nth skipn]. rewrite null_sentinel_neq1. f_equal.
  apply skipn_app_exact, repeat_length.
Qed.

Lemma fixed_dec {A} t w (C : A -> value) P e c f : fixed_leaf t w C P e c f ->
  forall o v rest, wt t v -> dec t o (enc t o v ++ rest) = (v, rest).
Proof.
  intros [_ _ He Hn Hwt Hl Hw _ _ Hd Hf] o v rest Wv. rewrite Hd.
  destruct (Hwt v Wv) as [->|(x & -> & Px)].
  - rewrite Hn. apply dec_fixed_null.
  - rewrite He, (dec_fixed_valid o w f (e x) rest (Hl x Px) (Hw x Px)). now rewrite Hf.
Qed.

Lemma decode_var_some o b rest : wf_bytes b -> decode_var o (encode_one o (Some b) ++ rest) = (Some b, rest).
Proof.
  intros Wb. unfold decode_var. rewrite decode_blocks_some by exact Wb.
  rewrite mid_head_valid by apply encode_one_some_head. cbn [negb]. rewrite inv_if_invol by exact Wb. now rewrite (skipn_app_exact _ _ _ eq_refl).
Qed.

Lemma decode_var_none o rest : decode_var o (encode_one o None ++ rest) = (None, rest).
Proof.
  unfold decode_var. cbn [encode_one]. rewrite decode_blocks_null. unfold encode_null. cbn [app nth skipn].
  now rewrite N.eqb_refl.
Qed.

(* o and c are section variables, so that the fixpoints are literally the ones nested in [dec] *)
Section Loops.
Variable o : opts.
Fixpoint dec_fields (fs : list ftype) (row : list N) : list value * list N :=
  match fs with
  | [] => ([], row)
  | f :: fs' => let (v, r) := dec f o row in let (vs, r') := dec_fields fs' r in (v :: vs, r')
  end.

Variable c : ftype.
Fixpoint dec_n (k : nat) (row : list N) : list value * list N :=
  match k with
  | O => ([], row)
  | S k' => let (v, r) := dec c o row in let (vs, r') := dec_n k' r in (v :: vs, r')
  end.
End Loops.

Lemma dec_struct fs o row :
  dec (TStruct fs) o row =
  (let (vs, rest) := dec_fields o fs (skipn 1 row) in
   ((if N.eqb (nth 0 row 0) 1 then VStruct vs else VNull), rest)).
Proof. reflexivity. Qed.

Lemma dec_fsl c n o row :
  dec (TFsl c n) o row =
  (if N.eqb (nth 0 row 0) 1 then let (vs, rest) := dec_n o c n (skipn 1 row) in (VList vs, rest)
   else (VNull, skipn 1 row)).
Proof. reflexivity. Qed.

Lemma enc_fields_nil fs o : enc_fields fs o [] = null_fields fs o.
Proof. induction fs as [|f fs IH]; [reflexivity|]. cbn [enc_fields null_fields hd tl]. now rewrite IH. Qed.

Definition inverts (f : ftype) : Prop :=
  forall o v rest, wt f v -> dec f o (enc f o v ++ rest) = (v, rest).

Lemma dec_enc_fields fs o : Forall inverts fs ->
  forall vs rest, wt_fields fs vs -> dec_fields o fs (enc_fields fs o vs ++ rest) = (vs, rest).
Proof.
  induction 1 as [|f fs Hf _ IH]; intros vs rest Wv.
  - destruct vs; [reflexivity|contradiction].
  - destruct vs as [|x vs]; [contradiction|]. destruct Wv as [Wx Wvs].
    cbn [enc_fields dec_fields hd tl]. rewrite <- app_assoc, (Hf o x _ Wx), (IH vs rest Wvs). reflexivity.
Qed.

Lemma dec_null_fields fs o : Forall inverts fs ->
  forall rest, snd (dec_fields o fs (null_fields fs o ++ rest)) = rest.
Proof.
  induction 1 as [|f fs Hf _ IH]; intros rest; [reflexivity|].
  cbn [null_fields dec_fields]. rewrite <- app_assoc, (Hf o VNull _ (wt_null f)).
  specialize (IH rest). destruct (dec_fields o fs (null_fields fs o ++ rest)). exact IH.
Qed.

Lemma dec_enc_n c o : inverts c ->
  forall vs rest, Forall (wt c) vs -> dec_n o c (length vs) (flat_map (enc c o) vs ++ rest) = (vs, rest).
Proof.
  intros Hc. induction vs as [|x vs IH]; intros rest Wv; [reflexivity|].
  inversion Wv as [|? ? Wx Wvs]; subst.
  cbn [length flat_map dec_n]. rewrite <- app_assoc, (Hc o x _ Wx), (IH rest Wvs). reflexivity.
Qed.

(* the model's fuel is the length of the row: enough, since every child row takes at least one
   byte (flat_map_length_ge, where dec_enc_list calls this) *)
Lemma dec_list_loop_correct o (g : value -> list N) rest : forall vs acc fuel,
  (forall e, In e vs -> wf_bytes (g e) /\ g e <> []) -> (length vs < fuel)%nat ->
  dec_list_loop fuel o (flat_map (fun e => encode_one o (Some (g e))) vs ++ encode_empty o ++ rest) acc
  = (acc ++ map g vs, rest).
Proof.
  induction vs as [|e vs IH]; intros acc fuel Hg Hf; (destruct fuel as [|fuel]; [lia|]); cbn [dec_list_loop flat_map map].
  - cbn [app]. change (encode_empty o) with (encode_one o (Some [])).
    rewrite decode_blocks_some by constructor. cbn [encode_one encode_empty length].
    destruct (Nat.leb_spec 1 1); [|lia]. rewrite app_nil_r. reflexivity.
  - destruct (Hg e (or_introl eq_refl)) as [We Ne].
    rewrite <- app_assoc. rewrite decode_blocks_some by exact We.
    pose proof (encode_one_some_length o (g e) Ne) as Hlen.
    destruct (Nat.leb_spec (length (encode_one o (Some (g e)))) 1); [lia|].
    rewrite (skipn_app_exact _ _ _ eq_refl), inv_if_invol by exact We.
    rewrite IH.
    + rewrite <- app_assoc. reflexivity.
    + intros e' He'. apply Hg. now right.
    + cbn [length] in Hf. lia.
Qed.

Lemma flat_map_length_ge {A} (h : A -> list N) vs : (forall a, In a vs -> h a <> []) -> (length vs <= length (flat_map h vs))%nat.
Proof.
  induction vs as [|a vs IH]; intros H; cbn [flat_map length]; [lia|].
  rewrite app_length. specialize (IH (fun x Hx => H x (or_intror Hx))).
  assert (h a <> []) by (apply H; now left). destruct (h a); [congruence|cbn [length]; lia].
Qed.

Lemma dec_enc_list c o vs rest : wf_type c -> inverts c -> Forall (wt c) vs ->
  dec (TList c) o (enc (TList c) o (VList vs) ++ rest) = (VList vs, rest).
Proof.
  intros Wt IH Wv. rewrite Forall_forall in Wv.
  assert (Hg : forall e, In e vs -> wf_bytes (enc c (child_opts o) e) /\ enc c (child_opts o) e <> []).
  { intros e He. split; [apply enc_wf; [exact Wt | now apply Wv] | apply enc_nonempty]. }
  cbn [dec]. rewrite mid_head_valid by (rewrite enc_list_valid; apply inv_if_head, lbody_head). cbn [negb].
  rewrite enc_list_flat. rewrite <- !app_assoc.
  rewrite (dec_list_loop_correct o (enc c (child_opts o)) rest vs [] _ Hg).
  - cbn [app]. rewrite map_map. f_equal. f_equal.
    rewrite <- (map_id vs) at 2. apply map_ext_in. intros e He.
    rewrite <- (app_nil_r (enc c (child_opts o) e)). now rewrite (IH (child_opts o) e [] (Wv e He)).
  - rewrite !app_length.
    pose proof (flat_map_length_ge (fun e => encode_one o (Some (enc c (child_opts o) e))) vs
                  (fun a _ => encode_one_nonempty o _)).
    unfold encode_empty. cbn [length]. lia.
Qed.

Theorem dec_enc : forall t, wf_type t -> forall o v rest, wt t v -> dec t o (enc t o v ++ rest) = (v, rest).
Proof.
  apply (ftype_kind_ind inverts).
  - (* fixed-width leaf *) intros A t w C P e c f L. exact (fixed_dec t w C P e c f L).
  - (* TVar *) intros o v rest Wv. cbn [dec enc]. destruct v; try contradiction;
      [now rewrite decode_var_none | now rewrite decode_var_some].
  - (* TStruct *) intros fs H o v rest Wv. rewrite dec_struct. destruct v as [| | |vs|]; try contradiction.
    + rewrite enc_struct_null. cbn [app skipn nth]. rewrite null_sentinel_neq1.
      pose proof (dec_null_fields fs o H rest) as E.
      destruct (dec_fields o fs (null_fields fs o ++ rest)) as [vs r]. cbn [snd] in E. now subst.
    + rewrite wt_struct in Wv. rewrite enc_struct_valid. cbn [app skipn nth N.eqb Pos.eqb].
      now rewrite (dec_enc_fields fs o H vs rest Wv).
  - (* TList *) intros c Wc IH o v rest Wv. destruct v as [| | | |vs]; try contradiction.
    + rewrite enc_list_null. cbn [dec]. unfold encode_null. cbn [app nth length]. rewrite N.eqb_refl. cbn [negb dec_list_loop].
      change (null_sentinel o :: rest) with (encode_null o ++ rest). now rewrite decode_blocks_null.
    + apply dec_enc_list; [exact Wc | exact IH | now apply wt_all_Forall].
  - (* TFsl *) intros c n _ IH o v rest Wv. rewrite dec_fsl. destruct v as [| | | |vs]; try contradiction.
    + rewrite enc_fsl_null. unfold encode_null. cbn [app nth skipn]. now rewrite null_sentinel_neq1.
    + rewrite wt_fsl in Wv. destruct Wv as [<- Wv]. rewrite enc_fsl_valid. cbn [app nth skipn N.eqb Pos.eqb].
      now rewrite (dec_enc_n c o IH vs rest (proj1 (wt_all_Forall c vs) Wv)).
  - (* TRee *) intros c Wc IH o v rest Wv. rewrite wt_ree in Wv. rewrite enc_ree. cbn [dec].
    assert (We : wf_bytes (enc c (child_opts o) v)) by (now apply enc_wf).
    rewrite decode_blocks_some by exact We. rewrite inv_if_invol by exact We.
    rewrite (skipn_app_exact _ _ _ eq_refl), <- (app_nil_r (enc c (child_opts o) v)).
    now rewrite (IH (child_opts o) v [] Wv).
Qed.

(* Two rows that differ late: an Int32, a Binary of 33 bytes 0xFF (one more than BLOCK_SIZE, so the
   encoding runs past the mini blocks, with bytes equal to the continuation byte), a struct of a
   Float64 quiet NaN (0x7FF8000000000000) and a list with a null in it, a run-end encoded
   fixed-size list; all four sort options occur. *)
Example ex_fields : list field :=
  [ (TInt 4, mkOpts true false); (TVar, mkOpts false true);
    (TStruct [TFloat 8; TList (TUInt 1)], mkOpts true true); (TRee (TFsl TBool 2), mkOpts false false) ].
Example ex_row1 : list value :=
  [ VInt (-5); VBytes (repeat 255 33); VStruct [VInt 9221120237041090560; VList [VInt 1; VNull]]; VList [VInt 1; VNull] ].
Example ex_row2 : list value :=
  [ VInt (-5); VBytes (repeat 255 33); VStruct [VInt 9221120237041090560; VList [VInt 1]]; VNull ].

Example ex_wf : Forall (fun f : field => wf_type (fst f)) ex_fields.
Proof. repeat constructor. Qed.
Lemma ex_bytes_wf : Forall wf_byte (repeat 255 33).
Proof. apply Forall_forall. intros b Hb. apply repeat_spec in Hb. subst b. unfold wf_byte. lia. Qed.

(* [repeat split] evaluates the upper bounds; a lower bound [a <= b] between numerals is
   [(a ?= b) <> Gt], again by evaluation *)
Example ex_wt1 : wt_row ex_fields ex_row1.
Proof.
  repeat split.
  - (* -2^31 <= -5 *) discriminate.
  - (* the Binary value *) exact ex_bytes_wf.
  - (* 0 <= the NaN pattern *) discriminate.
  - (* 0 <= 1, the UInt8 in the list *) discriminate.
  - (* the Boolean 1 *) now right.
Qed.
Example ex_wt2 : wt_row ex_fields ex_row2.
Proof.
  repeat split.
  - (* -2^31 <= -5 *) discriminate.
  - (* the Binary value *) exact ex_bytes_wf.
  - (* 0 <= the NaN pattern *) discriminate.
  - (* 0 <= 1, the UInt8 in the list *) discriminate.
Qed.
Example ex_cmp : row_cmp ex_fields ex_row1 ex_row2 = Lt /\ lex (enc_row ex_fields ex_row1) (enc_row ex_fields ex_row2) = Lt.
Proof. split; vm_compute; reflexivity. Qed.
Example ex_dec : dec_row ex_fields (enc_row ex_fields ex_row1) = ex_row1.
Proof. vm_compute. reflexivity. Qed.
