(* C19: the step of BitIndexIterator —  pos = trailing_zeros(w); w &= w - 1 — clears exactly the lowest set bit: for a
   word written (2m+1) * 2^t, and hence for any word whose lowest set bit is t.  That trailing_zeros finds that bit, and
   the loop, are in C19_IndexIter.v. *)
From Coq Require Import NArith Lia Bool.
From AV Require Import Base.Bits.
Local Open Scope N_scope.

Lemma testbit_odd_shift m t i :
  N.testbit ((2 * m + 1) * 2^t) i = if i <? t then false else if i =? t then true else N.testbit m (i - t - 1).
Proof.
  rewrite N.mul_comm.
  replace (2^t * (2 * m + 1)) with (0 + 2^t * (2 * m + 1)) by lia.
  rewrite testbit_add_shift by (apply N.neq_0_lt_0, N.pow_nonzero; discriminate).
  destruct (N.ltb_spec i t); [apply N.bits_0|].
  destruct (N.eqb_spec i t) as [->|Hne].
  - rewrite N.sub_diag. apply N.testbit_odd_0.
  - assert (E : i - t = N.succ (i - t - 1)) by lia. rewrite E at 1. rewrite N.testbit_odd_succ by lia. reflexivity.
Qed.

Lemma testbit_pred_odd_shift m t i :
  N.testbit ((2 * m + 1) * 2^t - 1) i = if i <? t then true else if i =? t then false else N.testbit m (i - t - 1).
Proof.
  assert (Hp : 0 < 2^t) by (apply N.neq_0_lt_0, N.pow_nonzero; discriminate).
  replace ((2 * m + 1) * 2^t - 1) with ((2^t - 1) + 2^t * (2 * m)) by nia.
  rewrite testbit_add_shift by lia.
  destruct (N.ltb_spec i t).
  - rewrite ones_pred. now apply N.ones_spec_low.
  - destruct (N.eqb_spec i t) as [->|Hne].
    + rewrite N.sub_diag. apply N.testbit_even_0.
    + assert (E : i - t = N.succ (i - t - 1)) by lia. rewrite E at 1. rewrite N.testbit_even_succ by lia. reflexivity.
Qed.

Theorem clear_lowest m t i :
  let w := (2 * m + 1) * 2^t in
  N.testbit (N.land w (w - 1)) i = N.testbit w i && negb (i =? t).
Proof.
  cbv zeta. rewrite N.land_spec, testbit_odd_shift, testbit_pred_odd_shift.
  destruct (i <? t); [reflexivity|]. destruct (i =? t); [reflexivity|]. cbn. now rewrite andb_diag, andb_true_r.
Qed.

Theorem lowest_is_min m t i : N.testbit ((2 * m + 1) * 2^t) i = true -> t <= i.
Proof. rewrite testbit_odd_shift. destruct (N.ltb_spec i t); [discriminate|lia]. Qed.

(* a word whose lowest set bit is t is (2m+1) * 2^t *)
Lemma odd_shift_form w t : N.testbit w t = true -> (forall i, i < t -> N.testbit w i = false) ->
  exists m, w = (2 * m + 1) * 2^t.
Proof.
  intros Ht Hlow. exists (w / 2^(t+1)). apply N.bits_inj. intro i.
  rewrite testbit_odd_shift.
  destruct (N.ltb_spec i t) as [Hl|Hl]; [now apply Hlow|].
  destruct (N.eqb_spec i t) as [->|Hne]; [exact Ht|].
  rewrite <- N.shiftr_div_pow2, N.shiftr_spec'. f_equal. lia.
Qed.

Lemma clear_lowest_gen w t i : N.testbit w t = true -> (forall j, j < t -> N.testbit w j = false) ->
  N.testbit (N.land w (w - 1)) i = N.testbit w i && negb (i =? t).
Proof.
  intros Ht Hlow. destruct (odd_shift_form w t Ht Hlow) as [m ->]. apply clear_lowest.
Qed.
