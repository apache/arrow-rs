(* C10 — the byte-string fast paths order exactly like the lexicographic byte order:
   sort_bytes' (4-byte prefix, length, full) comparator, the 128-bit inline key of the view types,
   compare_unchecked / cmp_mixed / is_lt, and the view equality fast paths. *)
From Coq Require Import List ZArith Lia Bool Arith.
From AV Require Import Base.ListX Base.Order Model.C10_Order Proofs.C10_Cmp.
Import ListNotations.

Definition byte (b : Z) : Prop := (0 <= b < 256)%Z.
Definition bytes (l : list Z) : Prop := Forall byte l.

Lemma cmp_mul_add (M v1 v2 l1 l2 : Z) : (0 <= l1 < M)%Z -> (0 <= l2 < M)%Z ->
  (v1 * M + l1 ?= v2 * M + l2)%Z = match (v1 ?= v2)%Z with Eq => (l1 ?= l2)%Z | r => r end.
Proof.
  intros H1 H2. destruct (Z.compare_spec v1 v2) as [->|L|G].
  - apply Z.add_compare_mono_l.
  - apply Z.compare_lt_iff. nia.
  - apply Z.compare_gt_iff. nia.
Qed.

Lemma fold_be_cmp x : forall y ax ay, length x = length y -> bytes x -> bytes y ->
  (fold_left (fun acc b => acc * 256 + b) x ax ?= fold_left (fun acc b => acc * 256 + b) y ay)%Z
  = match (ax ?= ay)%Z with Eq => bytes_cmp x y | r => r end.
Proof.
  induction x as [|a x IH]; intros [|b y] ax ay Hl Hx Hy; try discriminate.
  - cbn. destruct (ax ?= ay)%Z; reflexivity.
  - cbn [fold_left]. inversion Hx as [|? ? Ha Hx']; inversion Hy as [|? ? Hb Hy']; subst.
    rewrite IH by (auto; cbn in Hl; lia).
    rewrite (cmp_mul_add 256 ax ay a b Ha Hb).
    unfold bytes_cmp. cbn [lex_cmp].
    destruct (ax ?= ay)%Z; reflexivity.
Qed.

Lemma be_cmp_lex x y : length x = length y -> bytes x -> bytes y ->
  (be_val x ?= be_val y)%Z = bytes_cmp x y.
Proof. intros Hl Hx Hy. unfold be_val. rewrite fold_be_cmp by assumption. reflexivity. Qed.

Lemma pad_nil n : pad n [] = repeat 0%Z n.
Proof. unfold pad. destruct n; reflexivity. Qed.
Lemma pad_cons n a l : pad (S n) (a :: l) = a :: pad n l.
Proof. reflexivity. Qed.
Lemma pad_0 l : pad 0 l = [].
Proof. reflexivity. Qed.
Lemma pad_length n l : length (pad n l) = n.
Proof. exact (padz_length 0%Z n l). Qed.
Lemma pad_bytes n l : bytes l -> bytes (pad n l).
Proof.
  intros H. unfold pad. apply Forall_app. split.
  - now apply Forall_firstn.
  - apply Forall_forall. intros x Hx. apply repeat_spec in Hx. subst. unfold byte. lia.
Qed.

Lemma bytes_cmp_cons a b x y :
  bytes_cmp (a :: x) (b :: y) = match (a ?= b)%Z with Eq => bytes_cmp x y | r => r end.
Proof. reflexivity. Qed.

Lemma bytes_cmp_lexc x y : bytes_cmp x y = lexc Z.compare x y.
Proof. apply lex_cmp_lexc. Qed.

(* [pad] is Order.padz 0 by computation (Base's lemmas apply to it as they stand), and 0 is below every byte: the
   two facts about comparing padded prefixes *)
Local Definition zero_min (a : Z) (H : byte a) : (0 ?= a)%Z <> Gt := proj2 (Z.compare_le_iff 0 a) (proj1 H).

Lemma pad_tie n a b : bytes_cmp (pad n a) (pad n b) = Eq -> length a <= n \/ length b <= n ->
  bytes_cmp a b = Nat.compare (length a) (length b).
Proof. rewrite !bytes_cmp_lexc. exact (lexc_pad_tie Z.compare 0%Z n a b). Qed.

Lemma pad_cmp n a b t : bytes a -> bytes b ->
  (bytes_cmp (pad n a) (pad n b) = Eq -> t = bytes_cmp a b) ->
  match bytes_cmp (pad n a) (pad n b) with Eq => t | r => r end = bytes_cmp a b.
Proof. rewrite !bytes_cmp_lexc. exact (lexc_pad_then Z.compare 0%Z byte ord_Zcompare zero_min n a b t). Qed.

Lemma prefix4_cmp a b : bytes a -> bytes b ->
  (prefix4 a ?= prefix4 b)%Z = bytes_cmp (pad 4 a) (pad 4 b).
Proof. intros Ha Hb. unfold prefix4. apply be_cmp_lex; [now rewrite !pad_length|now apply pad_bytes..]. Qed.

Theorem cmp_bytes_prefix_lex a b : bytes a -> bytes b -> cmp_bytes_prefix a b = bytes_cmp a b.
Proof.
  intros Ha Hb. unfold cmp_bytes_prefix. rewrite prefix4_cmp by assumption.
  apply pad_cmp; [assumption..|]. intros E.
  destruct ((length a <? 4) || (length b <? 4)) eqn:S; [|reflexivity].
  rewrite (pad_tie 4 a b E); [now destruct (Nat.compare _ _)|].
  apply orb_true_iff in S. destruct S as [S|S]; apply Nat.ltb_lt in S; lia.
Qed.

Theorem inline_key_lex a b : bytes a -> bytes b -> length a <= 12 -> length b <= 12 ->
  (inline_key a ?= inline_key b)%Z = bytes_cmp a b.
Proof.
  intros Ha Hb La Lb. unfold inline_key.
  (* a length of at most 12 fits the low 32 bits; lia needs the power as a numeral *)
  rewrite cmp_mul_add by (change (2 ^ 32)%Z with 4294967296%Z; lia).
  rewrite be_cmp_lex by (first [now apply pad_bytes | now rewrite !pad_length]).
  apply pad_cmp; [assumption..|]. intros E.
  rewrite (pad_tie 12 a b E) by now left. apply Nat2Z.inj_compare.
Qed.

Theorem view_cmp_lex a b : bytes a -> bytes b -> view_cmp a b = bytes_cmp a b.
Proof.
  intros Ha Hb. unfold view_cmp.
  destruct ((length a <=? 12) && (length b <=? 12)) eqn:S.
  - apply andb_true_iff in S. destruct S as [S1 S2]. apply Nat.leb_le in S1, S2. now apply inline_key_lex.
  - rewrite prefix4_cmp by assumption. now apply pad_cmp.
Qed.

Lemma list_eqb_iff a : forall b, list_eqb a b = true <-> a = b.
Proof. exact (eqb_list_eq_all Z.eqb Z.eqb_eq a). Qed.

Lemma bytes_cmp_eq_iff a b : bytes_cmp a b = Eq <-> a = b.
Proof. split; [apply ord_bytes_cmp|intros <-; apply ord_bytes_cmp]. Qed.

Theorem view_eq_spec a b : bytes a -> bytes b -> view_eq a b = list_eqb a b.
Proof.
  intros Ha Hb. unfold view_eq.
  destruct ((inline_key a =? inline_key b)%Z && (length a <=? 12) && (length b <=? 12)) eqn:C1.
  - apply andb_true_iff in C1. destruct C1 as [C1 L2]. apply andb_true_iff in C1. destruct C1 as [K L1].
    apply Nat.leb_le in L1, L2. apply Z.eqb_eq in K.
    symmetry. apply list_eqb_iff. apply bytes_cmp_eq_iff. rewrite <- inline_key_lex by assumption.
    rewrite K. apply Z.compare_refl.
  - destruct (length a =? length b) eqn:C2; cbn [negb].
    2:{ apply Nat.eqb_neq in C2. symmetry. apply not_true_iff_false. intros E. apply list_eqb_iff in E. congruence. }
    apply Nat.eqb_eq in C2.
    destruct (length a =? 0) eqn:C3.
    { apply Nat.eqb_eq in C3. destruct a, b; cbn in *; try lia; try reflexivity. }
    destruct (prefix4 a =? prefix4 b)%Z eqn:C4; cbn [negb].
    2:{ apply Z.eqb_neq in C4. symmetry. apply not_true_iff_false. intros E. apply list_eqb_iff in E. congruence. }
    destruct (length a <=? 12) eqn:C5; [|reflexivity].
    symmetry. apply not_true_iff_false. intros E. apply list_eqb_iff in E. subst b.
    rewrite Z.eqb_refl in C1. rewrite !C5 in C1. cbn in C1. discriminate.
Qed.
