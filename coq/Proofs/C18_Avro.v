(* C18 - Avro OCF blocks as an instance of Section Cut of Proofs/C18_Frame.v.  The varint decoder is incremental (any
   input shorter than what a successful call consumed asks for more), so a block cut anywhere reads as a clean end. *)
From Coq Require Import List ZArith Bool Lia.
From AV Require Import Base.ListX Model.C18_Frame Model.C18_Avro Proofs.C18_Frame.
Import ListNotations.
Local Open Scope Z_scope.

Lemma zz_dec_even z : zz_dec (2 * z) = z.
Proof.
  unfold zz_dec. replace (Z.even (2 * z)) with true by (rewrite Z.even_mul; reflexivity).
  rewrite Z.mul_comm. apply Z.div_mul. discriminate.
Qed.

Lemma septet_split_Z v s : 0 <= s -> (v mod 128) * 2 ^ s + (v / 128) * 2 ^ (s + 7) = v * 2 ^ s.
Proof.
  intros Hs. rewrite Z.pow_add_r by (assumption || discriminate). change (2 ^ 7) with 128.
  rewrite (Z.div_mod v 128) at 3 by discriminate. ring.
Qed.

(* a final byte ends the varint; only at shift 63 is its value restricted *)
Lemma vlq_last v rest sh acc : 0 <= v < 128 -> (sh = 63 -> v < 2) ->
  vlq (v :: rest) sh acc = VOk (zz_dec (acc + v * 2 ^ sh)) rest.
Proof.
  intros Hv H63. cbn [vlq]. rewrite Z.mod_small, (proj2 (Z.ltb_lt v 128)) by apply Hv.
  destruct (Z.eqb_spec sh 63) as [E|_]; [|reflexivity].
  rewrite (proj2 (Z.leb_gt 2 v) (H63 E)). reflexivity.
Qed.

Lemma vlq_cont x t sh acc : 0 <= x < 128 -> sh <> 63 ->
  vlq ((x + 128) :: t) sh acc = vlq t (sh + 7) (acc + x * 2 ^ sh).
Proof.
  intros Hx Hs. cbn [vlq]. rewrite (proj2 (Z.eqb_neq sh 63) Hs), (proj2 (Z.ltb_ge (x + 128) 128)) by lia.
  replace ((x + 128) mod 128) with x; [reflexivity|].
  symmetry. rewrite <- (Z.mul_1_l 128) at 1. rewrite Z.mod_add by discriminate. apply Z.mod_small, Hx.
Qed.

Lemma venc_cons f v : venc (S f) v = if v <? 128 then [v] else (v mod 128 + 128) :: venc f (v / 128).
Proof. reflexivity. Qed.

(* The shifts are 0, 7, ..., 63 and v has the 64 - shift bits that are left: the tenth byte is 0 or 1. *)
Lemma vlq_venc : forall fuel v shift acc rest,
  0 <= v < 2 ^ (64 - shift) -> 0 <= shift -> shift + 7 * Z.of_nat fuel = 63 ->
  vlq (venc (S fuel) v ++ rest) shift acc = VOk (zz_dec (acc + v * 2 ^ shift)) rest.
Proof.
  induction fuel as [|fuel IH]; intros v shift acc rest Hv Hs Hf; rewrite venc_cons.
  - assert (shift = 63) as -> by lia. change (2 ^ (64 - 63)) with 2 in Hv.
    rewrite (proj2 (Z.ltb_lt v 128)) by lia. apply vlq_last; lia.
  - assert (Hs56 : shift <= 56) by lia.
    destruct (Z.ltb_spec v 128) as [Hlt|Hge]; [apply vlq_last; lia|]. cbn [app].
    rewrite vlq_cont by (try apply Z.mod_pos_bound; lia).
    rewrite IH; [rewrite <- Z.add_assoc, septet_split_Z by exact Hs; reflexivity| |lia|lia].
    replace (64 - shift) with (7 + (64 - (shift + 7))) in Hv by lia.
    rewrite Z.pow_add_r in Hv by lia. change (2 ^ 7) with 128 in Hv.
    split; [apply Z.div_pos; lia|apply Z.div_lt_upper_bound; lia].
Qed.

Lemma zz_enc_nonneg z : 0 <= z -> zz_enc z = 2 * z.
Proof. intros H. unfold zz_enc. destruct (Z.leb_spec 0 z); [reflexivity|lia]. Qed.

(* ten bytes carry 64 bits at shifts 0, 7, ..., 63, so any zig-zag 2 z below 2^64 would do; 2^62 is the bound wf_block
   puts on counts and sizes *)
Lemma vlq_long_enc z rest : 0 <= z < 2 ^ 62 -> vlq (long_enc z ++ rest) 0 0 = VOk z rest.
Proof.
  intros H. unfold long_enc. rewrite zz_enc_nonneg by apply H.
  rewrite vlq_venc; [|change (2 ^ (64 - 0)) with (4 * 2 ^ 62); lia|apply Z.le_refl|reflexivity].
  cbn [Z.add]. rewrite Z.pow_0_r, Z.mul_1_r, zz_dec_even. reflexivity.
Qed.

Lemma vlq_shrinks : forall bs s a v r, vlq bs s a = VOk v r -> (length r < length bs)%nat.
Proof.
  induction bs as [|b bs IH]; intros s a v r H; cbn [vlq] in H; [discriminate|].
  destruct ((s =? 63) && (2 <=? b)); [discriminate|].
  destruct (b <? 128).
  - inversion H; subst. cbn [length]. lia.
  - apply IH in H. cbn [length]. lia.
Qed.

(* the decoder is incremental: any input shorter than what a successful call consumed asks for more *)
Lemma vlq_prefix_more : forall bs s a v r j, vlq bs s a = VOk v r -> (j < length bs - length r)%nat ->
  vlq (firstn j bs) s a = VMore.
Proof.
  induction bs as [|b bs IH]; intros s a v r j H Hj; [discriminate|].
  destruct j as [|j]; [reflexivity|]. cbn [vlq firstn] in *.
  destruct ((s =? 63) && (2 <=? b)); [discriminate|]. destruct (b <? 128).
  - inversion H; subst. cbn [length] in Hj. lia.
  - apply (IH _ _ v r); [exact H|]. apply vlq_shrinks in H. cbn [length] in Hj. lia.
Qed.

Lemma vlq_long_cut z j : 0 <= z < 2 ^ 62 -> (j < length (long_enc z))%nat -> vlq (firstn j (long_enc z)) 0 0 = VMore.
Proof.
  intros H Hj. apply (vlq_prefix_more _ _ _ z []); [rewrite <- (app_nil_r (long_enc z)); apply vlq_long_enc, H|].
  cbn [length]. lia.
Qed.

Section Blocks.
  Variable sync : list Z.
  Hypothesis sync_len : length sync = 16%nat.

  Lemma enc_block_length b : length (enc_block sync b) =
    (length (long_enc (fst b)) + length (long_enc (Z.of_nat (length (snd b)))) + length (snd b) + 16)%nat.
  Proof. unfold enc_block. rewrite !app_length, sync_len. lia. Qed.

  Lemma wf_block_len b : wf_block b -> 0 <= Z.of_nat (length (snd b)) < 2 ^ 62.
  Proof. intros [_ H]. split; [apply Nat2Z.is_nonneg|exact H]. Qed.

  Lemma size_nonneg (data : list Z) : (Z.of_nat (length data) <? 0) = false.
  Proof. apply Z.ltb_ge, Nat2Z.is_nonneg. Qed.

  Lemma next_block_full b rest : wf_block b -> next_block sync (enc_block sync b ++ rest) = BBlock b rest.
  Proof.
    intros W. pose proof (wf_block_len b W) as Hd. destruct W as [Hc _]. destruct b as [c data]. cbn [fst snd] in *.
    unfold next_block, enc_block. cbn [fst snd]. rewrite <- !app_assoc.
    rewrite vlq_long_enc, (proj2 (Z.ltb_ge c 0)), vlq_long_enc, size_nonneg by (assumption || apply Hc).
    rewrite !app_length, sync_len.
    destruct (Z.ltb_spec (Z.of_nat (length data + (16 + length rest))) (Z.of_nat (length data) + 16)) as [H|_]; [lia|].
    rewrite Nat2Z.id, firstn_app_exact, skipn_app_exact, <- sync_len, firstn_app_exact, skipn_app_exact by reflexivity.
    destruct (list_eq_dec Z.eq_dec sync sync) as [_|N]; [reflexivity|congruence].
  Qed.

  (* a block cut anywhere: nothing is decoded from it and the reader reports a clean end *)
  Lemma next_block_cut b k : wf_block b -> (k < length (enc_block sync b))%nat ->
    next_block sync (firstn k (enc_block sync b)) = BEnd.
  Proof.
    intros W Hk. pose proof (wf_block_len b W) as Hd. destruct W as [Hc _]. rewrite enc_block_length in Hk.
    destruct b as [c data]. cbn [fst snd] in *. unfold next_block, enc_block. cbn [fst snd].
    set (L1 := long_enc c) in *. set (L2 := long_enc (Z.of_nat (length data))) in *.
    destruct (Nat.lt_ge_cases k (length L1)) as [H1|H1].
    - rewrite firstn_app_le by apply Nat.lt_le_incl, H1. unfold L1. now rewrite vlq_long_cut.
    - rewrite firstn_app_ge by exact H1. unfold L1 at 1. rewrite vlq_long_enc, (proj2 (Z.ltb_ge c 0)) by (assumption || apply Hc).
      destruct (Nat.lt_ge_cases (k - length L1) (length L2)) as [H2|H2].
      + rewrite firstn_app_le by apply Nat.lt_le_incl, H2. unfold L2. now rewrite vlq_long_cut.
      + rewrite firstn_app_ge by exact H2. unfold L2 at 1. rewrite vlq_long_enc, size_nonneg by exact Hd.
        rewrite firstn_length, app_length, sync_len.
        destruct (Z.ltb_spec (Z.of_nat (Nat.min (k - length L1 - length L2) (length data + 16))) (Z.of_nat (length data) + 16)) as [_|H]; [reflexivity|lia].
  Qed.

  Lemma next_block_shrinks bs b rest : next_block sync bs = BBlock b rest -> (length rest < length bs)%nat.
  Proof.
    unfold next_block. destruct (vlq bs 0 0) as [| |c r1] eqn:E1; try discriminate.
    destruct (c <? 0); [discriminate|].
    destruct (vlq r1 0 0) as [| |sz r2] eqn:E2; try discriminate.
    destruct (sz <? 0); [discriminate|]. destruct (_ <? sz + 16); [discriminate|].
    destruct (list_eq_dec _ _ _); [|discriminate].
    intros H. replace rest with (skipn 16 (skipn (Z.to_nat sz) r2)) by congruence.
    apply vlq_shrinks in E1, E2. rewrite !skipn_length. lia.
  Qed.

  (* read_blocks over next_block is to Avro what decode over next_message is to the IPC stream: this lemma and the two
     after it are decode_fuel, decode_all_frame, decode_all_cut of Proofs/C18_Frame.v for the other Fixpoint *)
  Lemma read_blocks_fuel : forall f1 f2 bs, (length bs < f1)%nat -> (length bs < f2)%nat ->
    read_blocks f1 sync bs = read_blocks f2 sync bs.
  Proof.
    induction f1 as [|f1 IH]; intros f2 bs H1 H2; [lia|]. destruct f2 as [|f2]; [lia|].
    cbn [read_blocks]. destruct (next_block sync bs) as [| |b rest] eqn:E; try reflexivity.
    apply next_block_shrinks in E. now rewrite (IH f2 rest) by lia.
  Qed.

  Lemma read_all_full b rest : wf_block b ->
    read_all_blocks sync (enc_block sync b ++ rest) = let '(bl, t) := read_all_blocks sync rest in (b :: bl, t).
  Proof.
    intros W. unfold read_all_blocks. cbn [read_blocks]. rewrite next_block_full by exact W.
    rewrite (read_blocks_fuel (length (enc_block sync b ++ rest)) (S (length rest))); [reflexivity| |lia].
    rewrite app_length, enc_block_length. lia.
  Qed.

  Lemma read_all_cut b k : wf_block b -> (k < length (enc_block sync b))%nat ->
    read_all_blocks sync (firstn k (enc_block sync b)) = ([], End).
  Proof. intros W Hk. unfold read_all_blocks. cbn [read_blocks]. now rewrite next_block_cut. Qed.

  (* nothing follows the last block: the law run_tl of Section Cut at tl = [] *)
  Lemma read_all_nil j : read_all_blocks sync (firstn j []) = ([], End).
  Proof. now rewrite firstn_nil. Qed.

  Theorem blocks_truncation : forall bl k,
    Forall wf_block bl -> (k <= length (enc_blocks sync bl))%nat ->
    exists n,
      read_all_blocks sync (firstn k (enc_blocks sync bl)) = (firstn n bl, End) /\
      (n <= length bl)%nat /\ (length (enc_blocks sync (firstn n bl)) <= k)%nat /\
      (n = length bl \/ (k < length (enc_blocks sync (firstn (S n) bl)))%nat) /\
      (k = length (enc_blocks sync bl) -> n = length bl).
  Proof.
    intros bl k W Hk.
    (* enc_blocks sync is encs (enc_block sync) by definition; nothing is written behind the last block, and a cut
       anywhere, inside a block or not, reads as a clean end *)
    rewrite <- (app_nil_r (enc_blocks sync bl)) in Hk |- *.
    destruct (run_truncated (enc_block sync) wf_block (read_all_blocks sync) [] (fun _ => End) (fun _ => End)
                read_all_full read_all_cut (fun j _ => read_all_nil j) bl k W Hk)
      as (n & t & Hrun & Hn & Hbefore & Hmax & Hall & ->).
    exists n. split; [|exact (conj Hn (conj Hbefore (conj Hmax Hall)))].
    refine (eq_trans Hrun _). destruct (n <? length bl)%nat; reflexivity.
  Qed.
End Blocks.

Example avro_example :
  let sync := [9;9;9;9;9;9;9;9;9;9;9;9;9;9;9;9] in
  let bl := [(2, [5; 6; 7]); (0, []); (300, [1])] in
  read_all_blocks sync (firstn 25 (enc_blocks sync bl)) = (firstn 1 bl, End) /\
  read_all_blocks sync (enc_blocks sync bl) = (bl, End).
Proof. vm_compute. split; reflexivity. Qed.
