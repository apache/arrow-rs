(* C11 — a row is the concatenation of its fields, so it is strong and decodes because they are
   (enc_row_strong, dec_enc_row); order, prefix-freeness, injectivity and "Eq only on equal rows"
   are read off these two.  Then, apart from that, the boolean equality of values decides equality. *)
From Coq Require Import List NArith ZArith.
From AV Require Import Base.ListX Model.C11_Row Proofs.C11_Lex Proofs.C11_Nested Proofs.C11_Decode.
Import ListNotations.

Fixpoint wf_fields (fs : list field) : Prop :=
  match fs with [] => True | (t, _) :: r => wf_type t /\ wf_fields r end.

Lemma wf_fields_Forall fs : wf_fields fs -> Forall (fun f : field => wf_type (fst f)) fs.
Proof. induction fs as [|[t o] fs IH]; intros H; constructor; [apply H | apply IH, H]. Qed.

Theorem enc_row_strong fs : Forall (fun f : field => wf_type (fst f)) fs -> strong (wt_row fs) (enc_row fs) (row_cmp fs).
Proof.
  induction 1 as [|[t o] fs Wt _ IH]; intros a b x y Wa Wb.
  - reflexivity.
  - destruct a as [|xa ra], b as [|xb rb]; cbn [wt_row] in Wa, Wb; try contradiction.
    cbn [enc_row row_cmp hd tl]. rewrite <- !app_assoc.
    rewrite (enc_strong t Wt o xa xb _ _ (proj1 Wa) (proj1 Wb)).
    destruct (cmp_field t o xa xb); try reflexivity. apply IH; tauto.
Qed.

Theorem row_order_thm fs r1 r2 : Forall (fun f : field => wf_type (fst f)) fs -> wt_row fs r1 -> wt_row fs r2 ->
  lex (enc_row fs r1) (enc_row fs r2) = row_cmp fs r1 r2.
Proof. intros Wf W1 W2. exact (strong_order _ _ _ (enc_row_strong fs Wf) r1 r2 W1 W2). Qed.

Theorem dec_enc_row fs r rest : Forall (fun f : field => wf_type (fst f)) fs -> wt_row fs r -> dec_row fs (enc_row fs r ++ rest) = r.
Proof.
  intros Wf. revert r rest. induction Wf as [|[t o] fs Wt _ IH]; intros r rest Wr.
  - destruct r; [reflexivity|contradiction].
  - destruct r as [|x r]; [contradiction|]. destruct Wr as [Wx Wr].
    cbn [enc_row dec_row hd tl]. rewrite <- app_assoc, (dec_enc t Wt o x _ Wx).
    f_equal. now apply IH.
Qed.

Theorem row_injective_thm fs r1 r2 : Forall (fun f : field => wf_type (fst f)) fs -> wt_row fs r1 -> wt_row fs r2 ->
  (enc_row fs r1 = enc_row fs r2 <-> r1 = r2).
Proof.
  intros Wf W1 W2. split; [|intros ->; reflexivity]. intros E.
  rewrite <- (dec_enc_row fs r1 [] Wf W1), <- (dec_enc_row fs r2 [] Wf W2), E. reflexivity.
Qed.

Theorem row_cmp_eq_iff fs r1 r2 : Forall (fun f : field => wf_type (fst f)) fs -> wt_row fs r1 -> wt_row fs r2 ->
  (row_cmp fs r1 r2 = Eq <-> r1 = r2).
Proof.
  intros Wf W1 W2. rewrite <- row_order_thm by assumption. split; [|intros ->; apply lex_refl].
  intros E. apply (row_injective_thm fs); try assumption. now apply lex_eq.
Qed.

Lemma row_cmp_eq fs r1 r2 : wf_fields fs -> wt_row fs r1 -> wt_row fs r2 -> row_cmp fs r1 r2 = Eq -> r1 = r2.
Proof. intros Wf W1 W2. apply row_cmp_eq_iff; try assumption. now apply wf_fields_Forall. Qed.

Lemma value_ind' (P : value -> Prop)
  (HNull : P VNull) (HInt : forall z, P (VInt z)) (HBytes : forall b, P (VBytes b))
  (HStruct : forall vs, Forall P vs -> P (VStruct vs)) (HList : forall vs, Forall P vs -> P (VList vs)) :
  forall v, P v.
Proof.
  fix IH 1. intros [|z|b|vs|vs].
  - exact HNull. - apply HInt. - apply HBytes.
  - apply HStruct. induction vs as [|x vs IHvs]; constructor; [apply IH | exact IHvs].
  - apply HList. induction vs as [|x vs IHvs]; constructor; [apply IH | exact IHvs].
Qed.

(* the three list comparisons nested in value_eqb, and row_eqb, are ListX.eqb_list by computation *)

Lemma value_eqb_struct xs ys : value_eqb (VStruct xs) (VStruct ys) = eqb_list value_eqb xs ys.
Proof. reflexivity. Qed.
Lemma value_eqb_list xs ys : value_eqb (VList xs) (VList ys) = eqb_list value_eqb xs ys.
Proof. reflexivity. Qed.
Lemma value_eqb_bytes x y : value_eqb (VBytes x) (VBytes y) = eqb_list N.eqb x y.
Proof. reflexivity. Qed.

Theorem value_eqb_eq : forall a b, value_eqb a b = true <-> a = b.
Proof.
  induction a as [|z|x|xs IH|xs IH] using value_ind'; intros b.
  - destruct b; cbn [value_eqb]; split; try discriminate; reflexivity.
  - destruct b; cbn [value_eqb]; split; try discriminate.
    + intros H. apply Z.eqb_eq in H. now subst.
    + intros E. injection E as ->. apply Z.eqb_refl.
  - destruct b; try (cbn [value_eqb]; split; discriminate).
    rewrite value_eqb_bytes, (eqb_list_eq_all N.eqb N.eqb_eq). split; [now intros -> | now intros [= ->]].
  - destruct b; try (cbn [value_eqb]; split; discriminate).
    rewrite value_eqb_struct, (eqb_list_eq value_eqb xs IH). split; [now intros -> | now intros [= ->]].
  - destruct b; try (cbn [value_eqb]; split; discriminate).
    rewrite value_eqb_list, (eqb_list_eq value_eqb xs IH). split; [now intros -> | now intros [= ->]].
Qed.

Theorem row_eqb_eq r1 r2 : row_eqb r1 r2 = true <-> r1 = r2.
Proof. exact (eqb_list_eq_all value_eqb value_eqb_eq r1 r2). Qed.
