(* C10 — compare_op's null handling (its case analysis on the two null buffers and scalar flags, with
   the word formulas taken bit by bit) returns per row what the comparator says: comparisons are null
   when a side is null, DISTINCT / NOT DISTINCT never are. *)
From Coq Require Import List ZArith Lia Bool Arith.
From AV Require Import Base.ListX Model.C10_Order Model.C10_Rank Proofs.C10_Cmp.

Lemma zip3_map {A} f (fa fb fc : A -> bool) s :
  zip3 f (map fa s) (map fb s) (map fc s) = map (fun i => f (fa i) (fb i) (fc i)) s.
Proof. induction s as [|x s IH]; [reflexivity|]. cbn. now rewrite IH. Qed.
Lemma zip2_map {A} f (fa fb : A -> bool) s :
  zip2 f (map fa s) (map fb s) = map (fun i => f (fa i) (fb i)) s.
Proof. induction s as [|x s IH]; [reflexivity|]. cbn. now rewrite IH. Qed.
Lemma with_nulls_map {A} (fv fn : A -> bool) s :
  with_nulls (map fv s) (map fn s) = map (fun i => if fn i then Some (fv i) else None) s.
Proof. unfold with_nulls. induction s as [|x s IH]; [reflexivity|]. cbn. now rewrite IH. Qed.

Definition slot_valid (o : oval) : bool := match o with None => false | Some _ => true end.

Lemma valid_bits_map a : valid_bits a = map slot_valid a.
Proof. reflexivity. Qed.

Lemma valid_bits_seq a : valid_bits a = map (fun i => slot_valid (slot a i)) (seq 0 (length a)).
Proof.
  rewrite valid_bits_map. unfold slot. rewrite <- (map_nth_seq a None) at 1. now rewrite map_map.
Qed.

Lemma nulls_opt_none a : nulls_opt a = None -> forall i, i < length a -> slot_valid (slot a i) = true.
Proof.
  unfold nulls_opt. destruct (existsb negb (valid_bits a)) eqn:E; [discriminate|]. intros _ i Hi.
  apply not_false_iff_true. intros V. apply not_true_iff_false in E. apply E, existsb_exists.
  exists false. split; [|reflexivity]. rewrite <- V. apply (in_map slot_valid), nth_In, Hi.
Qed.
Lemma nulls_opt_some a n : nulls_opt a = Some n -> n = valid_bits a /\ exists i, i < length a /\ slot_valid (slot a i) = false.
Proof.
  unfold nulls_opt. destruct (existsb negb (valid_bits a)) eqn:E; [|discriminate]. intros [= <-].
  split; [reflexivity|]. apply existsb_exists in E. destruct E as ([|] & Hb & Nb); [discriminate|].
  apply in_map_iff in Hb. destruct Hb as (o & Ho & Hin). destruct (In_nth a o None Hin) as (i & Hi & <-). now exists i.
Qed.

(* A side is an array or a scalar (a one-element array read at index 0 for every row). *)
Definition side_idx (s : bool) (i : nat) : nat := if s then 0 else i.

Lemma side_bits s a len : (s = true -> length a = 1) -> length a = len ->
  valid_bits a = map (fun i => slot_valid (slot a (side_idx s i))) (seq 0 len).
Proof. intros H <-. rewrite valid_bits_seq. destruct s; [|reflexivity]. now rewrite (H eq_refl). Qed.

Lemma side_null s a n i : (s = true -> length a = 1) -> nulls_opt a = Some n -> s = true ->
  slot_valid (slot a (side_idx s i)) = false.
Proof.
  intros H Hn ->. apply nulls_opt_some in Hn. destruct Hn as (_ & j & Hj & Hv). rewrite H in Hj by reflexivity.
  now replace j with 0 in Hv by lia.
Qed.

(* What one row of the result is, from the validity of the two slots and the bit x of values():
   the formulas of the branch where both sides have a null buffer.  Every other branch of compare_op is
   this one with a validity constantly true (no null buffer) or constantly false (a null scalar). *)
Definition kernel_row (op : cop) (lv rv x : bool) : option bool :=
  match op with
  | ODistinct => Some (xorb lv rv || (lv && rv && x))
  | ONotDistinct => Some (negb (lv || rv) || (lv && rv && x))
  | _ => if lv && rv then Some x else None
  end.

(* what values() reads under a null: val_of's placeholder *)
Definition slot_val (o : oval) : val := match o with Some v => v | None => VInt 0 end.
Lemma val_of_slot a i : val_of a i = slot_val (slot a i).
Proof. reflexivity. Qed.

Lemma kernel_row_cases {A} op (lv rv x : A -> bool) s D N O :
  D = map (fun i => kernel_row ODistinct (lv i) (rv i) (x i)) s ->
  N = map (fun i => kernel_row ONotDistinct (lv i) (rv i) (x i)) s ->
  O = map (fun i => kernel_row OEq (lv i) (rv i) (x i)) s ->
  match op with ODistinct => D | ONotDistinct => N | _ => O end = map (fun i => kernel_row op (lv i) (rv i) (x i)) s.
Proof. intros -> -> ->. now destruct op. Qed.

(* For each of the three arms of compare_op's result (DISTINCT, NOT DISTINCT, the six orderings): the bit lists are
   maps over the rows, so the arm becomes one map over the rows and the goal one row.  Which lemma serves which
   expression of the model: zip3_map the word formulas over both null buffers, zip2_map `ln & rn` and the formulas
   over one buffer, with_nulls_map an ordering with a null buffer, repeat_map_seq the constant columns of a null
   scalar, map_map the all_some around them. *)
Ltac by_rows :=
  apply kernel_row_cases; unfold all_some; rewrite ?zip3_map, ?zip2_map, ?with_nulls_map, ?(repeat_map_seq _ _ 0), ?map_map;
  apply map_ext_in; intros i Hi.

Section Kernels.
  Variable is_eq is_lt : val -> val -> bool.
  Variable ok : val -> Prop.
  Hypothesis Heq : forall a b, ok a -> ok b -> is_eq a b = is_eq_c (vcmp false a b).
  Hypothesis Hlt : forall a b, ok a -> ok b -> is_lt a b = is_lt_c (vcmp false a b).

  Lemma apply_op_spec op a b : ok a -> ok b ->
    kernel_spec op (Some a) (Some b) = Some (apply_op is_eq is_lt op a b).
  Proof.
    intros Ha Hb. unfold apply_op. rewrite (Heq a b Ha Hb), (Hlt a b Ha Hb), (Hlt b a Hb Ha), (tpo_antisym _ (vcmp_tpo false) a b).
    unfold kernel_spec. change (cmp_opts false false (Some a) (Some b)) with (vcmp false a b).
    now destruct op, (vcmp false a b).
  Qed.

  Lemma kernel_spec_row op p q : oP ok p -> oP ok q ->
    kernel_spec op p q = kernel_row op (slot_valid p) (slot_valid q) (apply_op is_eq is_lt op (slot_val p) (slot_val q)).
  Proof.
    destruct p as [a|], q as [b|]; cbn [oP slot_valid slot_val]; intros Ha Hb; [|now destruct op..].
    rewrite apply_op_spec by assumption. now destruct op.
  Qed.

  Definition ok_col (a : list oval) : Prop := forall i v, slot a i = Some v -> ok v.

  Section Rows.
    Variables (op : cop) (l_s r_s : bool) (l r : list oval).
    Hypothesis Okl : ok_col l.
    Hypothesis Okr : ok_col r.
    Hypothesis Hls : l_s = true -> length l = 1.
    Hypothesis Hrs : r_s = true -> length r = 1.
    Hypothesis Hlen : l_s = false -> r_s = false -> length l = length r.

    Let len := kernel_rows l_s r_s l r.
    Let vl i := slot_valid (slot l (side_idx l_s i)).
    Let vr i := slot_valid (slot r (side_idx r_s i)).
    Let vf i := apply_op is_eq is_lt op (val_of l (side_idx l_s i)) (val_of r (side_idx r_s i)).

    Lemma len_l : (l_s = true -> r_s = true) -> length l = len.
    Proof. unfold len, kernel_rows. destruct l_s; [|reflexivity]. intros H. now rewrite Hls, (Hrs (H eq_refl)). Qed.
    Lemma len_r : (r_s = true -> l_s = true) -> length r = len.
    Proof.
      unfold len, kernel_rows. destruct l_s; [reflexivity|]. destruct r_s; [intros H; discriminate (H eq_refl)|].
      now rewrite (Hlen eq_refl eq_refl).
    Qed.
    Lemma side_idx_l i : i < len -> side_idx l_s i < length l.
    Proof. unfold len, kernel_rows, side_idx. destruct l_s; [rewrite Hls by reflexivity; constructor|trivial]. Qed.
    Lemma side_idx_r i : i < len -> side_idx r_s i < length r.
    Proof.
      pose proof len_r as L. unfold side_idx. destruct r_s; [rewrite Hrs by reflexivity; constructor|].
      rewrite L by discriminate. trivial.
    Qed.

    (* side_idx is the model's inline `if scalar then 0 else i`, val_of a i is slot_val (slot a i) *)
    Lemma values_rows : values_m is_eq is_lt op l_s r_s l r len = map vf (seq 0 len).
    Proof. reflexivity. Qed.

    Lemma kernels_spec_rows : kernels_spec op l_s r_s l r = map (fun i => kernel_row op (vl i) (vr i) (vf i)) (seq 0 len).
    Proof.
      apply map_ext_in. intros i Hi. apply in_seq in Hi. unfold bcast. fold (side_idx l_s i) (side_idx r_s i).
      rewrite (slot_nth_error l), (slot_nth_error r) by (apply side_idx_l || apply side_idx_r; apply Hi).
      unfold vf. rewrite !val_of_slot. apply kernel_spec_row.
      - destruct (slot l (side_idx l_s i)) eqn:E; [exact (Okl _ _ E)|exact I].
      - destruct (slot r (side_idx r_s i)) eqn:E; [exact (Okr _ _ E)|exact I].
    Qed.

    (* A null buffer is the validity of the rows when its side is not broadcast (or both are); a side
       without one is valid in every row, a scalar with one is null. *)
    Theorem compare_op_spec : compare_op is_eq is_lt op l_s r_s l r = Some (kernels_spec op l_s r_s l r).
    Proof.
      assert (Tl : nulls_opt l = None -> forall i, In i (seq 0 len) -> vl i = true).
      { intros H i Hi. apply in_seq in Hi. apply (nulls_opt_none l H), side_idx_l, Hi. }
      assert (Tr : nulls_opt r = None -> forall i, In i (seq 0 len) -> vr i = true).
      { intros H i Hi. apply in_seq in Hi. apply (nulls_opt_none r H), side_idx_r, Hi. }
      assert (Al : (l_s = true -> r_s = true) -> valid_bits l = map vl (seq 0 len)) by (intros H; apply side_bits, len_l, H; exact Hls).
      assert (Ar : (r_s = true -> l_s = true) -> valid_bits r = map vr (seq 0 len)) by (intros H; apply side_bits, len_r, H; exact Hrs).
      assert (Fl : forall n i, nulls_opt l = Some n -> l_s = true -> vl i = false) by (intros n i; apply side_null, Hls).
      assert (Fr : forall n i, nulls_opt r = Some n -> r_s = true -> vr i = false) by (intros n i; apply side_null, Hrs).
      rewrite kernels_spec_rows. unfold compare_op.
      replace (negb (length l =? length r) && negb l_s && negb r_s) with false
        by (destruct l_s, r_s; rewrite ?andb_false_r; try reflexivity; now rewrite (Hlen eq_refl eq_refl), Nat.eqb_refl).
      f_equal. change (if l_s then length r else length l) with len. rewrite values_rows.
      destruct (nulls_opt l) as [ln|] eqn:Nl, (nulls_opt r) as [rn|] eqn:Nr; cbv beta iota zeta.
      - (* both sides have a null buffer *)
        destruct (nulls_opt_some l ln Nl) as (-> & _). destruct (nulls_opt_some r rn Nr) as (-> & _).
        destruct (Bool.eqb l_s r_s) eqn:Es.
        + (* two arrays or two scalars *) apply eqb_prop in Es. rewrite Al, Ar by congruence. by_rows; reflexivity.
        + apply eqb_false_iff in Es. destruct l_s eqn:E1, r_s eqn:E2; try congruence.
          * (* null scalar on the left *) rewrite Ar by discriminate. by_rows; rewrite (Fl _ i eq_refl eq_refl); now destruct (vr i).
          * (* null scalar on the right *) rewrite Al by discriminate. by_rows; rewrite (Fr _ i eq_refl eq_refl); now destruct (vl i).
      - (* only the left side has one: a null scalar, or a nullable array *)
        destruct (nulls_opt_some l ln Nl) as (-> & _). destruct l_s eqn:E1.
        + by_rows; now rewrite (Fl _ i eq_refl eq_refl), (Tr eq_refl i Hi).
        + rewrite Al by discriminate. by_rows; rewrite (Tr eq_refl i Hi); now destruct (vl i).
      - (* only the right side has one *)
        destruct (nulls_opt_some r rn Nr) as (-> & _). destruct r_s eqn:E2.
        + by_rows; now rewrite (Fr _ i eq_refl eq_refl), (Tl eq_refl i Hi).
        + rewrite Ar by discriminate. by_rows; rewrite (Tl eq_refl i Hi); now destruct (vr i).
      - (* no null buffer *) unfold all_some. rewrite map_map. apply map_ext_in. intros i Hi.
        rewrite (Tl eq_refl i Hi), (Tr eq_refl i Hi). now destruct op.
    Qed.
  End Rows.
End Kernels.
