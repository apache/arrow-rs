(* C02 — read-back: the column denoted by a builder-made array is the column that was appended. *)
From Coq Require Import List Arith NArith ZArith Lia.
From AV Require Import Base.ListX Base.Bytes Model.C09_Layout Model.C02_Logical Proofs.C02_EqualNulls.
Import ListNotations.

(* byte_of_bools and pack_bits are Bytes.bits_val and Bytes.pack_bytes, by computation *)
Lemma byte_of_bools_testbit l : forall j, N.testbit (byte_of_bools l) (N.of_nat j) = nth j l false.
Proof. exact (bits_val_testbit l). Qed.
Lemma bit_at_pack_bits fuel : forall l i, length l <= 8 * fuel -> bit_at (pack_bits fuel l) i = nth i l false.
Proof. exact (bit_at_pack_bytes fuel). Qed.
Lemma bit_at_pack l i : bit_at (pack l) i = nth i l false.
Proof. unfold pack. apply bit_at_pack_bits. lia. Qed.

Lemma build_nulls_valid vs i : i < length vs ->
  match build_nulls vs with None => true | Some nb => nb_valid nb i end = is_valid_l (nth i vs LNull).
Proof.
  intros Hi. unfold build_nulls.
  destruct (forallb (fun b : bool => b) (map is_valid_l vs)) eqn:E.
  - rewrite forallb_forall in E. symmetry. apply E.
    change (is_valid_l (nth i vs LNull)) with ((fun v => is_valid_l v) (nth i vs LNull)).
    apply in_map. now apply nth_In.
  - unfold nb_valid; cbn [nb_bytes nb_off Nat.add]. rewrite bit_at_pack.
    change false with (is_valid_l LNull). apply map_nth.
Qed.

Lemma le_bytes_of_length w z : length (le_bytes_of w z) = w.
Proof. unfold le_bytes_of. now rewrite map_length, seq_length. Qed.

(* the shift-and-mask form of to_le_bytes writes the base-256 digits *)
Lemma le_bytes_of_digits w : forall z, le_bytes_of w z = digits w z.
Proof.
  induction w as [|w IH]; intros z; [reflexivity|]. cbn [digits]. rewrite <- IH.
  unfold le_bytes_of. cbn [seq map]. f_equal.
  - change (N.of_nat (8 * 0)) with 0%N. rewrite N.shiftr_0_r. change 255%N with (N.ones 8). apply N.land_ones.
  - rewrite <- seq_shift, map_map. apply map_ext. intros k. change 256%N with (2^8)%N.
    rewrite <- N.shiftr_div_pow2, N.shiftr_shiftr. do 2 f_equal. lia.
Qed.
Lemma le_val_le_bytes_of w z : le_val (le_bytes_of w z) = (z mod 2 ^ N.of_nat (8 * w))%N.
Proof. rewrite le_bytes_of_digits, le_val_digits. do 2 f_equal. lia. Qed.

Lemma readback_by_value (a : parr) vs (val : nat -> lval) :
  p_len a = length vs ->
  (forall i, i < length vs -> logical_at a i = if is_valid_l (nth i vs LNull) then val i else LNull) ->
  (forall i, i < length vs -> is_valid_l (nth i vs LNull) = true -> val i = nth i vs LNull) ->
  logical a = vs.
Proof.
  intros Hl Hat Hval. unfold logical. rewrite Hl. rewrite <- (map_nth_seq vs LNull) at 2. apply map_seq_ext_iff. intros i Hi.
  rewrite (Hat i Hi). destruct (is_valid_l (nth i vs LNull)) eqn:Ev; [now apply Hval | now destruct (nth i vs LNull)].
Qed.

(* a valid value of a column is the one payload constructor of its type *)
Lemma prim_col_nth w vs i : prim_col w vs -> i < length vs -> is_valid_l (nth i vs LNull) = true ->
  exists z, nth i vs LNull = LInt z /\ (z < 2 ^ N.of_nat (8 * w))%N.
Proof.
  intros Hc Hi Hv. pose proof (proj1 (Forall_forall _ _) Hc _ (nth_In _ LNull Hi)) as H.
  destruct (nth i vs LNull); try contradiction; [discriminate Hv | eauto].
Qed.
Lemma bool_col_nth vs i : bool_col vs -> i < length vs -> is_valid_l (nth i vs LNull) = true -> exists b, nth i vs LNull = LBool b.
Proof.
  intros Hc Hi Hv. pose proof (proj1 (Forall_forall _ _) Hc _ (nth_In _ LNull Hi)) as H.
  destruct (nth i vs LNull); try contradiction; [discriminate Hv | eauto].
Qed.
Lemma fixedbin_col_nth n vs i : fixedbin_col n vs -> i < length vs -> is_valid_l (nth i vs LNull) = true ->
  exists l, nth i vs LNull = LBytes l /\ length l = n.
Proof.
  intros Hc Hi Hv. pose proof (proj1 (Forall_forall _ _) Hc _ (nth_In _ LNull Hi)) as H.
  destruct (nth i vs LNull); try contradiction; [discriminate Hv | destruct H; eauto].
Qed.
Lemma bin_col_nth vs i : bin_col vs -> i < length vs -> is_valid_l (nth i vs LNull) = true -> exists l, nth i vs LNull = LBytes l.
Proof.
  intros Hc Hi Hv. pose proof (proj1 (Forall_forall _ _) Hc _ (nth_In _ LNull Hi)) as H.
  destruct (nth i vs LNull); try contradiction; [discriminate Hv | eauto].
Qed.

Theorem readback_prim w vs : prim_col w vs -> logical (build_prim w vs) = vs.
Proof.
  intros Hc. eapply (readback_by_value (build_prim w vs) vs _ eq_refl).
  - intros i Hi. cbn [logical_at build_prim nth Nat.add]. now rewrite (build_nulls_valid vs i Hi).
  - intros i Hi Hv. destruct (prim_col_nth w vs i Hc Hi Hv) as (z & E & Hz). rewrite E. cbn beta. f_equal. unfold le_at.
    assert (HF : Forall (fun v => length (match v with LInt z => le_bytes_of w z | _ => repeat 0%N w end) = w) vs)
      by (apply Forall_forall; intros [| | | | |] _; try apply le_bytes_of_length; apply repeat_length).
    now rewrite (flat_map_chunk _ w vs LNull HF i Hi), E, le_val_le_bytes_of, N.mod_small.
Qed.

Theorem readback_bool vs : bool_col vs -> logical (build_bool vs) = vs.
Proof.
  intros Hc. eapply (readback_by_value (build_bool vs) vs _ eq_refl).
  - intros i Hi. cbn [logical_at build_bool nth Nat.add]. now rewrite (build_nulls_valid vs i Hi).
  - intros i Hi Hv. destruct (bool_col_nth vs i Hc Hi Hv) as (b & E). rewrite E. cbn beta. rewrite bit_at_pack.
    change false with ((fun v => match v with LBool b0 => b0 | _ => false end) LNull). now rewrite map_nth, E.
Qed.

Theorem readback_fixedbin n vs : fixedbin_col n vs -> logical (build_fixedbin n vs) = vs.
Proof.
  intros Hc. eapply (readback_by_value (build_fixedbin n vs) vs _ eq_refl).
  - intros i Hi. cbn [logical_at build_fixedbin nth Nat.add]. now rewrite (build_nulls_valid vs i Hi).
  - intros i Hi Hv. destruct (fixedbin_col_nth n vs i Hc Hi Hv) as (l & E & _). rewrite E. cbn beta. f_equal. unfold fixed_bytes.
    assert (HF : Forall (fun v => length (match v with LBytes l => l | _ => repeat 0%N n end) = n) vs)
      by (eapply Forall_impl; [|exact Hc]; intros [| | | | |]; try contradiction; [intros _; apply repeat_length | tauto]).
    now rewrite Nat2Z.id, (flat_map_chunk _ n vs LNull HF i Hi), E.
Qed.

Fixpoint total_len (vs : list lval) : nat := match vs with [] => 0 | v :: r => length (payload v) + total_len r end.

Lemma offsets_from_length vs : forall cur, length (offsets_from cur vs) = S (length vs).
Proof. induction vs as [|v r IH]; intros cur; cbn [offsets_from length]; [reflexivity | now rewrite IH]. Qed.

Lemma offsets_from_nth vs : forall cur i, i <= length vs ->
  nth i (offsets_from cur vs) 0 = cur + total_len (firstn i vs).
Proof.
  induction vs as [|v r IH]; intros cur i Hi.
  - cbn [length] in Hi. replace i with 0 by lia. cbn. lia.
  - destruct i as [|i]; cbn [offsets_from nth firstn total_len]; [lia|].
    rewrite IH by (cbn [length] in Hi; lia). lia.
Qed.

Lemma total_len_firstn_le vs i : total_len (firstn i vs) <= total_len vs.
Proof. revert i. induction vs as [|v r IH]; intros [|i]; cbn [firstn total_len]; try lia. specialize (IH i). lia. Qed.

Lemma flat_map_payload_length vs : length (flat_map payload vs) = total_len vs.
Proof. induction vs as [|v r IH]; cbn [flat_map total_len]; [reflexivity | now rewrite app_length, IH]. Qed.

Lemma signed_of_small w x : (x < 2 ^ N.of_nat (8 * w - 1))%N -> signed_of w x = Z.of_N x.
Proof. intros H. unfold signed_of. apply N.ltb_lt in H. now rewrite H. Qed.

Lemma firstn_S_total vs i : i < length vs ->
  total_len (firstn (S i) vs) = total_len (firstn i vs) + length (payload (nth i vs LNull)).
Proof.
  revert i. induction vs as [|v r IH]; intros i Hi; [cbn [length] in Hi; lia|].
  destruct i as [|i]; [cbn [firstn total_len nth]; lia|].
  rewrite !firstn_cons. cbn [total_len nth]. rewrite (IH i) by (cbn [length] in Hi; lia). lia.
Qed.

(* an offsets buffer written by a builder reads back as the offsets, for any offsets that fit the signed width *)
Lemma sle_at_offsets_buffer (w : nat) (offs : list nat) (j : nat) : j < length offs ->
  (N.of_nat (nth j offs 0%nat) < 2 ^ N.of_nat (8 * w - 1))%N ->
  sle_at (flat_map (fun o => le_bytes_of w (N.of_nat o)) offs) w j = Z.of_nat (nth j offs 0%nat).
Proof.
  intros Hj Hlt. unfold sle_at, le_at.
  rewrite (flat_map_chunk (fun o => le_bytes_of w (N.of_nat o)) w offs 0)
    by first [apply Forall_forall; intros; apply le_bytes_of_length | exact Hj].
  rewrite le_val_le_bytes_of, N.mod_small.
  - rewrite signed_of_small by exact Hlt. lia.
  - eapply N.lt_le_trans; [exact Hlt|]. apply N.pow_le_mono_r; lia.
Qed.

Theorem readback_bin large utf8 vs : bin_col vs ->
  (N.of_nat (total_len vs) < 2 ^ N.of_nat (8 * offw large - 1))%N ->
  logical (build_bin large utf8 vs) = vs.
Proof.
  intros Hc Hsmall. set (w := offw large) in *.
  (* the offsets buffer holds the running totals of the payload lengths *)
  assert (Hoff : forall j, j <= length vs ->
            sle_at (flat_map (fun o => le_bytes_of w (N.of_nat o)) (offsets_from 0 vs)) w j
            = Z.of_nat (total_len (firstn j vs))).
  { intros j Hj. pose proof (total_len_firstn_le vs j) as Hle.
    rewrite sle_at_offsets_buffer; rewrite ?offsets_from_length, ?offsets_from_nth by exact Hj; cbn [Nat.add]; (reflexivity || lia). }
  eapply (readback_by_value (build_bin large utf8 vs) vs _ eq_refl).
  - intros i Hi. cbn [logical_at build_bin nth Nat.add]. now rewrite (build_nulls_valid vs i Hi).
  - intros i Hi Hv. destruct (bin_col_nth vs i Hc Hi Hv) as (l & E). rewrite E. cbn beta. fold w.
    rewrite (Hoff i) by lia. rewrite Nat.add_1_r, (Hoff (S i)) by lia. f_equal.
    rewrite bytes_between_nat;
      [|rewrite (firstn_S_total vs i Hi); lia | rewrite flat_map_payload_length; apply total_len_firstn_le].
    rewrite (firstn_S_total vs i Hi), (Nat.add_comm (total_len (firstn i vs))), Nat.add_sub.
    rewrite <- (flat_map_payload_length (firstn i vs)), (flat_map_window payload LNull vs i Hi).
    now rewrite E.
Qed.

Example readback_nonvacuous :
  logical (build_prim 2 [LInt 513; LNull; LInt 65535]) = [LInt 513; LNull; LInt 65535]
  /\ logical (build_bin false true [LBytes [97; 98]%N; LNull; LBytes []; LBytes [99]%N])
     = [LBytes [97; 98]%N; LNull; LBytes []; LBytes [99]%N].
Proof. split; vm_compute; reflexivity. Qed.
