(* C17 — Avro long / int: read_varint is the LEB128 reader of Base/Leb128 on each of its three paths, write_vlq its
   encoder, so what write_long emits (zig-zag, 7-bit groups) is read back by read_varint and get_long / get_int. *)
From Coq Require Import List NArith ZArith Lia.
From AV Require Import Base.Bits Base.Leb128 Model.C17_Avro.
Import ListNotations.
Local Open Scope N_scope.

Lemma write_vlq_enc fuel z : write_vlq fuel z = leb_enc fuel z.
Proof.
  revert z. induction fuel as [|f IH]; intros z; [reflexivity|].
  cbn [write_vlq leb_enc]. rewrite ldiff_127, land_127.
  destruct (N.ltb_spec z 128) as [H|H].
  - now rewrite N.mod_small by exact H.
  - rewrite lor_128 by (apply N.mod_lt; lia). rewrite N.shiftr_div_pow2. change (2^7) with 128. now rewrite IH.
Qed.

(* vlq::read_varint is transcribed three times, here handing back the rest of the input (in C08_Avro and C14_Avro the
   number of bytes consumed, in N and in nat); nothing of the three is convertible, so Proofs/C08_Avro.v and
   Proofs/C14_Avro.v repeat the three lemmas below for their transcriptions.  Here they ask for bytes only among the
   bytes looked at, because the round trip is stated with any rest behind the number. *)

(* The slow path from group k on, with the 10 - k bytes it may still inspect.  Its test for the tenth byte sits in
   the last-byte branch; a continuation byte in tenth place runs out of bytes to inspect instead. *)
Lemma rv_slow_run : forall bs k a, leb_inv true k a ->
  rv_slow (10 - k) (N.of_nat k) bs a = value_rest (leb_run true bs k a).
Proof.
  apply (leb_run_reads_any true (fun o x => x = value_rest o) (fun k a bs => rv_slow (10 - k) (N.of_nat k) bs a)).
  - (* the input ends *)
    intros k a _. destruct (10 - k)%nat; reflexivity.
  - (* one byte *)
    intros k a b r [Ha Hk]. specialize (Hk eq_refl). replace (10 - k)%nat with (S (10 - S k)) by lia.
    cbn [rv_slow]. cbv zeta. rewrite land_127, (N.mul_comm (N.of_nat k)), (lor_shift_add a _ _ Ha), leb_127, of_nat_9.
    replace (N.of_nat k + 1) with (N.of_nat (S k)) by lia. unfold over_limit. cbn [andb]. rewrite N.leb_antisym.
    destruct (Nat.eqb_spec k 9) as [->|H9]; cbn [negb orb andb]; [|destruct (b <? 128); reflexivity].
    (* the tenth byte *)
    destruct (N.ltb_spec b 2); cbn [negb]; [now rewrite (proj2 (N.ltb_lt b 128)) by lia|]. destruct (b <? 128); reflexivity.
Qed.

(* The array path from group k on: 9 - k bytes in the loop, then the tenth.  It adds the whole byte, so the bytes it
   looks at have to be bytes. *)
Lemma rv_array_run : forall bs k a, leb_inv true k a -> head_wf bs ->
  rv_array (9 - k) (N.of_nat k) bs a = value_rest (leb_run true bs k a).
Proof.
  apply (leb_run_reads true (fun _ => head_wf) (fun o x => x = value_rest o)
           (fun k a bs => rv_array (9 - k) (N.of_nat k) bs a) (fun _ => head_wf_next)).
  - (* the input ends *)
    intros k a _ _. destruct (9 - k)%nat; reflexivity.
  - (* one byte *)
    intros k a b r [Ha Hk] Hb. apply head_wf_hd in Hb. specialize (Hk eq_refl). unfold over_limit. cbn [andb].
    destruct (Nat.eqb_spec k 9) as [->|H9]; cbn [andb].
    + (* the tenth byte: only 0 and 1 are accepted *)
      cbn [Nat.sub rv_array]. rewrite N.leb_antisym. change (leb_shift 9) with 63.
      destruct (N.ltb_spec b 2); cbn [negb]; [|reflexivity]. now rewrite (proj2 (N.ltb_lt b 128)), N.mod_small by lia.
    + replace (9 - k)%nat with (S (9 - S k)) by lia. cbn [rv_array]. cbv zeta. fold (leb_shift k).
      destruct (N.ltb_spec b 128) as [Hlt|Hge]; [now rewrite N.mod_small|].
      replace (N.of_nat k + 1) with (N.of_nat (S k)) by lia. now rewrite cont_sub.
Qed.

(* whichever path is taken, and whatever follows the bytes looked at *)
Theorem read_varint_run bs : head_wf bs -> read_varint bs = value_rest (leb_run true bs 0 0).
Proof.
  intros Hw. destruct bs as [|b r]; [reflexivity|]. unfold read_varint. destruct (N.ltb_spec b 128) as [Hb|Hb].
  - (* one byte *)
    cbn [leb_run over_limit Nat.eqb andb]. cbv zeta. now rewrite (proj2 (N.ltb_lt b 128) Hb), N.mod_small, N.mul_1_r.
  - destruct (at_least 10 (b :: r)).
    + exact (rv_array_run (b :: r) 0 0 (leb_inv_0 true) Hw).
    + exact (rv_slow_run (b :: r) 0 0 (leb_inv_0 true)).
Qed.

(* ten groups carry 7 * 9 + 1 = 64 bits *)
Theorem read_varint_write v rest : v < 2^64 ->
  read_varint (write_vlq 10 v ++ rest) = Some (v, rest).
Proof.
  intros Hv. assert (H70 : v < 2^leb_shift 10) by now apply N.lt_trans with (2^64).
  rewrite write_vlq_enc, read_varint_run, leb_run_enc; [cbn [value_rest]; now rewrite N.mul_1_r|exact H70|now rewrite N.mul_1_r|].
  unfold head_wf. rewrite leb_head_enc by exact H70. apply leb_enc_bytes.
Qed.

Lemma read_varint_byte b r : b < 128 -> read_varint (b :: r) = Some (b, r).
Proof. intros H. cbn [read_varint]. now rewrite (proj2 (N.ltb_lt b 128) H). Qed.

Local Open Scope Z_scope.

Lemma zz_dec_zz val : zz_dec val = zz val.
Proof. exact (zz_lxor val). Qed.

Lemma zz_enc64_unzz v : - 2^63 <= v < 2^63 -> zz_enc64 v = unzz v.
Proof. exact (unzz_shift_xor v). Qed.

Lemma zz_enc64_lt P v : P <= 2^63 -> - P <= v < P -> Z.of_N (zz_enc64 v) < 2 * P.
Proof. intros HP Hv. rewrite zz_enc64_unzz by lia. apply unzz_lt, Hv. Qed.

Lemma zz_roundtrip v : - 2^63 <= v < 2^63 -> zz_dec (zz_enc64 v) = v.
Proof. intros Hv. rewrite zz_dec_zz, zz_enc64_unzz by exact Hv. apply zz_unzz. Qed.

Theorem get_long_write v rest : - 2^63 <= v < 2^63 -> get_long (write_long v ++ rest) = Some (v, rest).
Proof.
  intros Hv. unfold get_long, write_long. pose proof (zz_enc64_lt (2^63) v ltac:(lia) Hv) as Hlt.
  now rewrite read_varint_write, zz_roundtrip by lia.
Qed.

Theorem get_int_write v rest : - 2^31 <= v < 2^31 -> get_int (write_long v ++ rest) = Some (v, rest).
Proof.
  intros Hv. unfold get_int, write_long. pose proof (zz_enc64_lt (2^31) v ltac:(lia) Hv) as Hlt.
  now rewrite read_varint_write, (proj2 (N.ltb_lt _ (2^32))), zz_roundtrip by lia.
Qed.

Lemma write_long_nonempty v : write_long v <> [].
Proof. unfold write_long. rewrite write_vlq_enc, leb_enc_S. destruct (_ <? 128)%N; discriminate. Qed.

Lemma write_long_bytes v : Forall (fun b => (b < 256)%N) (write_long v).
Proof. unfold write_long. rewrite write_vlq_enc. apply leb_enc_bytes. Qed.
