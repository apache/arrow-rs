(* C18 - truncation.  Section Cut: a reader of self-delimiting frames that (run_frame) decodes a whole frame to itself
   and goes on behind it, (run_cut) gives a fixed verdict on a proper prefix of a frame and (run_tl) on a prefix of what
   the writer puts behind the last frame; then a cut at k yields the frames wholly in front of k and the verdict on what
   follows them.  For the IPC stream the three are decode_all_frame, decode_all_cut, decode_all_tail; they come from
   next_message on a whole frame and on a cut one, and from the fact that next_message shrinks its input, which makes the
   fuel of decode_all irrelevant.  The footers are a different matter: the last bytes of a cut file are bytes of the
   original, so a cut is accepted exactly where the original looks like a footer. *)
From Coq Require Import List Arith ZArith Bool Lia.
From AV Require Import Base.ListX Model.C18_Frame.
Import ListNotations.
Local Open Scope Z_scope.

(* A reader of self-delimiting frames on a truncated input.  The reader is any function from the whole input to the
   items it delivers and a closing verdict; what is asked of it is said per frame. *)
Section Cut.
  Local Open Scope nat_scope.
  Context {byte item verdict : Type}.
  Variable enc : item -> list byte.
  Variable wf : item -> Prop.
  Variable run : list byte -> list item * verdict.
  Variable tl : list byte.                       (* what the writer puts behind the last frame *)
  Variables in_frame in_tl : nat -> verdict.     (* the verdict j bytes into a frame, j bytes into tl *)

  Hypothesis run_frame : forall x rest, wf x -> run (enc x ++ rest) = let '(xs, t) := run rest in (x :: xs, t).
  Hypothesis run_cut : forall x j, wf x -> j < length (enc x) -> run (firstn j (enc x)) = ([], in_frame j).
  Hypothesis run_tl : forall j, j <= length tl -> run (firstn j tl) = ([], in_tl j).

  Definition encs (xs : list item) : list byte := concat (map enc xs).

  Lemma encs_cons x xs : encs (x :: xs) = enc x ++ encs xs.
  Proof. reflexivity. Qed.

  (* n whole frames lie in front of the cut; the verdict is that on the bytes behind them: a proper prefix of frame
     n + 1, or what the cut leaves of tl *)
  Theorem run_truncated : forall xs k, Forall wf xs -> k <= length (encs xs ++ tl) ->
    exists n t,
      run (firstn k (encs xs ++ tl)) = (firstn n xs, t) /\
      n <= length xs /\ length (encs (firstn n xs)) <= k /\
      (n = length xs \/ k < length (encs (firstn (S n) xs))) /\
      (k = length (encs xs ++ tl) -> n = length xs) /\
      t = (if n <? length xs then in_frame else in_tl) (k - length (encs (firstn n xs))).
  Proof.
    induction xs as [|x xs IH]; intros k W Hk.
    - (* no frame: k bytes of tl *)
      exists 0, (in_tl k). rewrite Nat.sub_0_r. refine (conj _ (conj _ (conj _ (conj _ (conj _ _))))).
      + apply run_tl, Hk.
      + apply Nat.le_refl.
      + apply Nat.le_0_l.
      + left. reflexivity.
      + reflexivity.
      + reflexivity.
    - apply Forall_cons_iff in W as [Wx Wxs]. rewrite encs_cons, <- app_assoc in *.
      rewrite app_length, Nat.add_comm in Hk.
      destruct (Nat.lt_ge_cases k (length (enc x))) as [Hc|Hc].
      + (* the cut falls inside the first frame *)
        exists 0, (in_frame k). rewrite firstn_app_le, Nat.sub_0_r by apply Nat.lt_le_incl, Hc.
        refine (conj _ (conj _ (conj _ (conj _ (conj _ _))))).
        * apply run_cut; assumption.
        * apply Nat.le_0_l.
        * apply Nat.le_0_l.
        * (* k lies before the end of frame 1 *)
          right. rewrite (firstn_cons 0), encs_cons. cbn [firstn encs map concat]. rewrite app_nil_r. exact Hc.
        * (* k is not the whole input *) rewrite app_length. lia.
        * reflexivity.
      + (* k = k' + |enc x|: the first frame, then the rest cut at k' *)
        apply Nat.le_exists_sub in Hc as (k' & -> & _). apply Nat.add_le_mono_r in Hk.
        destruct (IH k' Wxs Hk) as (n & t & Hrun & Hn & Hbefore & Hmax & Hall & Ht).
        exists (S n), t. rewrite firstn_app_ge, Nat.add_sub, run_frame, Hrun by (assumption || apply Nat.le_add_l).
        rewrite !firstn_cons, !encs_cons, !(app_length (enc x)). cbn [length]. change (S n <? S (length xs)) with (n <? length xs).
        rewrite Nat.sub_add_distr, Nat.add_sub.
        (* each conjunct is the one of the rest of the input, with |enc x| added on both sides *)
        refine (conj eq_refl (conj _ (conj _ (conj _ (conj _ Ht))))); lia.
  Qed.
End Cut.

Lemma split_at_app (a b : list Z) : split_at (length a) (a ++ b) = Some (a, b).
Proof. unfold split_at. now rewrite ltb_app_exact, firstn_app_exact, skipn_app_exact by reflexivity. Qed.
Lemma split_at_short n (l : list Z) : (length l < n)%nat -> split_at n l = None.
Proof. intros H. unfold split_at. destruct (Nat.ltb_spec (length l) n); [reflexivity|lia]. Qed.
Lemma split_at_some n (l a b : list Z) : split_at n l = Some (a, b) -> l = a ++ b /\ length a = n.
Proof.
  unfold split_at. destruct (Nat.ltb_spec (length l) n) as [|H]; [discriminate|].
  intros [= <- <-]. split; [now rewrite firstn_skipn|rewrite firstn_length; lia].
Qed.

Lemma byte_split x : x mod 256 + 256 * (x / 256) = x.
Proof. rewrite Z.add_comm. symmetry. apply Z.div_mod. discriminate. Qed.

(* the top byte is n / 2^24 itself; then each byte rejoins the quotient above it *)
Lemma le_le32 n : 0 <= n < 2 ^ 32 -> le (le32 n) = n.
Proof.
  intros H. change (2 ^ 32) with (16777216 * 256) in H. unfold le32. cbn [le].
  rewrite (Z.mod_small (n / 16777216)) by (split; [apply Z.div_pos|apply Z.div_lt_upper_bound]; lia).
  change 16777216 with (256 * 256 * 256). change 65536 with (256 * 256).
  rewrite <- !Z.div_div by (discriminate || reflexivity).
  rewrite Z.mul_0_r, Z.add_0_r, !byte_split. reflexivity.
Qed.
Lemma signed_le_le32 n : 0 <= n < 2 ^ 31 -> signed 32 (le (le32 n)) = n.
Proof.
  intros H. rewrite le_le32 by (split; [apply H|]; eapply Z.lt_trans; [apply H|reflexivity]).
  unfold signed. change (32 - 1) with 31. destruct (Z.ltb_spec n (2 ^ 31)); [reflexivity|lia].
Qed.
Lemma le32_not_marker n : 0 <= n < 2 ^ 31 -> le32 n <> marker.
Proof.
  intros H E. apply signed_le_le32 in H as E'. rewrite E in E'. subst n. destruct H as [H _]. exact (H eq_refl).
Qed.

Section Stream.
  Variable body_len : list Z -> option Z.
  Notation next_message := (next_message body_len).
  Notation decode := (decode body_len).
  Notation decode_all := (decode_all body_len).
  Notation wf_msg := (wf_msg body_len).

  (* what next_message does with the input r that follows the metadata length: not a model function but the tail of
     Model next_message written out here, so that lemmas can speak of it (next_message_eq) *)
  Definition after_len (meta_len : Z) (r : list Z) : step :=
    if meta_len =? 0 then SEnd
    else if meta_len <? 0 then SErr
    else if Z.of_nat (length r) <? meta_len then SErr
    else
      let n := Z.to_nat meta_len in
      match body_len (firstn n r) with
      | None => SErr
      | Some bl =>
        if Z.of_nat (length (skipn n r)) <? bl then SErr
        else let b := Z.to_nat bl in SMsg (firstn n r, firstn b (skipn n r)) (skipn b (skipn n r))
      end.

  Lemma next_message_eq bs : next_message bs =
    match split_at 4 bs with
    | None => SEnd
    | Some (w, r) =>
      match (if list_eq_dec Z.eq_dec w marker then split_at 4 r else Some (w, r)) with
      | None => SErr
      | Some (w, r) => after_len (signed 32 (le w)) r
      end
    end.
  Proof. reflexivity. Qed.

  Lemma next_message_framed n p : 0 <= n < 2 ^ 31 -> next_message (marker ++ le32 n ++ p) = after_len n p.
  Proof.
    intros Hn. rewrite next_message_eq, (split_at_app marker).
    destruct (list_eq_dec Z.eq_dec marker marker) as [_|N]; [|congruence].
    now rewrite (split_at_app (le32 n)), signed_le_le32.
  Qed.

  Lemma after_len_shrinks ml r m rest : after_len ml r = SMsg m rest -> (length rest <= length r)%nat.
  Proof.
    unfold after_len. destruct (ml =? 0); [discriminate|]. destruct (ml <? 0); [discriminate|].
    destruct (_ <? ml); [discriminate|]. cbv zeta. destruct (body_len _) as [bl|]; [|discriminate].
    destruct (_ <? bl); [discriminate|]. intros [= _ <-]. rewrite !skipn_length. lia.
  Qed.

  Lemma after_len_full meta body rest : wf_msg (meta, body) ->
    after_len (Z.of_nat (length meta)) (meta ++ body ++ rest) = SMsg (meta, body) rest.
  Proof.
    intros (Hpos & _ & Hbl). cbn [fst snd] in *. unfold after_len.
    destruct (Z.eqb_spec (Z.of_nat (length meta)) 0); [lia|].
    destruct (Z.ltb_spec (Z.of_nat (length meta)) 0); [lia|].
    destruct (Z.ltb_spec (Z.of_nat (length (meta ++ body ++ rest))) (Z.of_nat (length meta))) as [E|_];
      [rewrite app_length in E; lia|].
    cbv zeta. rewrite Nat2Z.id, firstn_app_exact, skipn_app_exact, Hbl, Nat2Z.id, firstn_app_exact, skipn_app_exact by reflexivity.
    destruct (Z.ltb_spec (Z.of_nat (length (body ++ rest))) (Z.of_nat (length body))) as [E|_];
      [rewrite app_length in E; lia|reflexivity].
  Qed.

  (* the payload cut anywhere before its end: short metadata or short body *)
  Lemma after_len_cut meta body j : wf_msg (meta, body) -> (j < length meta + length body)%nat ->
    after_len (Z.of_nat (length meta)) (firstn j (meta ++ body)) = SErr.
  Proof.
    intros (Hpos & _ & Hbl) Hj. cbn [fst snd] in *. unfold after_len.
    destruct (Z.eqb_spec (Z.of_nat (length meta)) 0); [lia|].
    destruct (Z.ltb_spec (Z.of_nat (length meta)) 0); [lia|].
    destruct (Nat.lt_ge_cases j (length meta)) as [Hm|Hm].
    - rewrite firstn_app_le, firstn_length by lia.
      destruct (Z.ltb_spec (Z.of_nat (Nat.min j (length meta))) (Z.of_nat (length meta))); [reflexivity|lia].
    - rewrite firstn_app_ge by exact Hm.
      destruct (Z.ltb_spec (Z.of_nat (length (meta ++ firstn (j - length meta) body))) (Z.of_nat (length meta))) as [E|_];
        [rewrite app_length in E; lia|].
      cbv zeta. rewrite Nat2Z.id, firstn_app_exact, skipn_app_exact, Hbl, firstn_length by reflexivity.
      destruct (Z.ltb_spec (Z.of_nat (Nat.min (j - length meta) (length body))) (Z.of_nat (length body))); [reflexivity|lia].
  Qed.

  Lemma frame_length m : length (frame m) = (8 + length (fst m) + length (snd m))%nat.
  Proof. unfold frame. rewrite !app_length. cbn [length marker le32]. lia. Qed.

  Lemma wf_msg_len m : wf_msg m -> 0 <= Z.of_nat (length (fst m)) < 2 ^ 31.
  Proof. intros (_ & H & _). split; [apply Nat2Z.is_nonneg|exact H]. Qed.

  Lemma next_message_frame m rest : wf_msg m -> next_message (frame m ++ rest) = SMsg m rest.
  Proof.
    intros W. unfold frame. rewrite <- !app_assoc, next_message_framed by apply wf_msg_len, W.
    destruct m. now apply after_len_full.
  Qed.

  (* a message cut anywhere: no message is produced; a clean end is reported only inside the first
     4 bytes of the frame, everything else is an error *)
  Lemma next_message_cut m k : wf_msg m -> (k < length (frame m))%nat ->
    next_message (firstn k (frame m)) = if (k <? 4)%nat then SEnd else SErr.
  Proof.
    intros W Hk. rewrite frame_length in Hk. unfold frame.
    destruct (Nat.ltb_spec k 4) as [H4|H4].
    - rewrite next_message_eq, split_at_short; [reflexivity|]. rewrite firstn_length. lia.
    - rewrite firstn_app_ge by exact H4. destruct (Nat.lt_ge_cases k 8) as [H8|H8].
      + rewrite next_message_eq, (split_at_app marker).
        destruct (list_eq_dec Z.eq_dec marker marker) as [_|N]; [|congruence].
        rewrite split_at_short; [reflexivity|]. rewrite firstn_length. cbn [length marker]. lia.
      + rewrite firstn_app_ge, next_message_framed by (apply wf_msg_len, W || (cbn [length marker le32]; lia)).
        destruct m. apply after_len_cut; [exact W|]. cbn [length marker le32 fst snd] in *. lia.
  Qed.

  Lemma next_message_shrinks bs m rest : next_message bs = SMsg m rest -> (length rest < length bs)%nat.
  Proof.
    rewrite next_message_eq. destruct (split_at 4 bs) as [[w r]|] eqn:E1; [|discriminate].
    apply split_at_some in E1 as [-> L1]. rewrite app_length, L1.
    destruct (list_eq_dec Z.eq_dec w marker) as [_|_].
    - destruct (split_at 4 r) as [[w2 r2]|] eqn:E2; [|discriminate].
      apply split_at_some in E2 as [-> _]. intros H. apply after_len_shrinks in H. rewrite app_length. lia.
    - intros H. apply after_len_shrinks in H. lia.
  Qed.

  Lemma decode_fuel : forall f1 f2 bs, (length bs < f1)%nat -> (length bs < f2)%nat -> decode f1 bs = decode f2 bs.
  Proof.
    induction f1 as [|f1 IH]; intros f2 bs H1 H2; [lia|]. destruct f2 as [|f2]; [lia|].
    cbn [C18_Frame.decode]. destruct (next_message bs) as [| |m rest] eqn:E; try reflexivity.
    apply next_message_shrinks in E. now rewrite (IH f2 rest) by lia.
  Qed.

  Lemma decode_all_frame m rest : wf_msg m ->
    decode_all (frame m ++ rest) = let '(ms, t) := decode_all rest in (m :: ms, t).
  Proof.
    intros W. unfold C18_Frame.decode_all. cbn [C18_Frame.decode]. rewrite next_message_frame by exact W.
    rewrite (decode_fuel (length (frame m ++ rest)) (S (length rest))); [reflexivity| |lia].
    rewrite app_length, frame_length. lia.
  Qed.

  Lemma decode_all_cut m k : wf_msg m -> (k < length (frame m))%nat ->
    decode_all (firstn k (frame m)) = ([], if (k <? 4)%nat then End else Err).
  Proof.
    intros W Hk. unfold C18_Frame.decode_all. cbn [C18_Frame.decode]. rewrite next_message_cut by assumption.
    destruct (k <? 4)%nat; reflexivity.
  Qed.

  (* the nine cuts of the end-of-stream marker *)
  Lemma decode_all_eos_cut k : (k <= 8)%nat ->
    decode_all (firstn k eos) = ([], if (k <? 4)%nat || (k =? 8)%nat then End else Err).
  Proof. intros H. do 9 (destruct k as [|k]; [reflexivity|]). lia. Qed.

  (* behind the last frame: the end-of-stream marker cut anywhere, or nothing at all *)
  Lemma decode_all_tail (e : bool) j : (j <= length (if e then eos else []))%nat ->
    decode_all (firstn j (if e then eos else [])) =
    ([], if e then (if (j <? 4)%nat || (j =? 8)%nat then End else Err) else End).
  Proof. destruct e; [apply decode_all_eos_cut|]. intros _. now rewrite firstn_nil. Qed.

  Lemma encode_no_eos ms : encode ms false = encs frame ms.
  Proof. apply app_nil_r. Qed.

  Lemma encode_length ms (e : bool) : length (encode ms e) = (length (encs frame ms) + length (if e then eos else []))%nat.
  Proof. apply app_length. Qed.

  (* the conjuncts of Props.C18.ipc_stream_truncation, and as the fourth, which the property does not state, that
     frame n + 1 is not whole before the cut *)
  Theorem stream_truncation : forall ms with_eos k,
    Forall wf_msg ms -> (k <= length (encode ms with_eos))%nat ->
    exists n t,
      decode_all (firstn k (encode ms with_eos)) = (firstn n ms, t) /\
      (n <= length ms)%nat /\ (length (encode (firstn n ms) false) <= k)%nat /\
      (n = length ms \/ (k < length (encode (firstn (S n) ms) false))%nat) /\
      (t = End -> (k < length (encode (firstn n ms) false) + 4)%nat \/
                  (n = length ms /\ with_eos = true /\ k = length (encode ms with_eos))) /\
      (k = length (encode ms with_eos) -> n = length ms /\ t = End).
  Proof.
    intros ms e k W Hk.
    (* inside a frame: a clean end within its first 4 bytes, else an error; behind the last frame: the cuts of the
       end-of-stream marker, or the empty input *)
    destruct (run_truncated frame wf_msg decode_all (if e then eos else [])
                (fun j => if (j <? 4)%nat then End else Err)
                (fun j => if e then (if (j <? 4)%nat || (j =? 8)%nat then End else Err) else End)
                decode_all_frame decode_all_cut (decode_all_tail e) ms k W Hk)
      as (n & t & Hrun & Hn & Hbefore & Hmax & Hall & Ht).
    exists n, t. rewrite !encode_no_eos.
    split; [exact Hrun|]. split; [exact Hn|]. split; [exact Hbefore|]. split; [exact Hmax|].
    destruct (Nat.ltb_spec n (length ms)) as [Hlt|Hge].
    - (* the cut is inside frame n + 1: a clean end only within its first 4 bytes, and k is not the end of the stream *)
      split; [intros ->; left|intros Ek; specialize (Hall Ek); exfalso; lia].
      destruct (Nat.ltb_spec (k - length (encs frame (firstn n ms))) 4); [lia|discriminate].
    - (* all frames are whole, and k - |frames| bytes of the marker follow, if there is one *)
      assert (n = length ms) as -> by lia. rewrite firstn_all in Hbefore, Ht |- *. rewrite encode_length in Hk |- *.
      destruct e; [change (length eos) with 8%nat in Hk |- *|cbn [length] in Hk |- *].
      + split; intros ->.
        * destruct (Nat.ltb_spec (k - length (encs frame ms)) 4); [left; lia|].
          destruct (Nat.eqb_spec (k - length (encs frame ms)) 8); [right|discriminate].
          split; [reflexivity|]. split; [reflexivity|lia].
        * split; [reflexivity|]. rewrite Ht, Nat.add_comm, Nat.add_sub. reflexivity.
      + split; [intros _; left; lia|intros _; split; [reflexivity|exact Ht]].
  Qed.
End Stream.

(* Both footers end in a 4-byte length followed by a magic of b bytes.  The last 4 + b bytes of a file cut at k are
   bytes of the original file, and they split into the length field at k - (4 + b) and the magic at k - b. *)
Lemma last_n_firstn (file : list Z) k n : (n <= k)%nat -> (k <= length file)%nat ->
  last_n n (firstn k file) = sub file (k - n) n.
Proof.
  intros Hn Hk. unfold last_n, sub. rewrite firstn_length, Nat.min_l by exact Hk.
  replace k with ((k - n) + n)%nat at 2 by lia. symmetry. apply firstn_skipn_comm.
Qed.

Lemma sub_magic (file : list Z) k b : (4 + b <= k)%nat ->
  skipn 4 (sub file (k - (4 + b)) (4 + b)) = sub file (k - b) b.
Proof.
  intros H. unfold sub. rewrite <- firstn_skipn_comm, skipn_skipn. f_equal. f_equal. lia.
Qed.
Lemma sub_length_field (file : list Z) from n : (4 <= n)%nat -> firstn 4 (sub file from n) = sub file from 4.
Proof. intros H. unfold sub. rewrite firstn_firstn, Nat.min_l by exact H. reflexivity. Qed.

Theorem pq_footer_cut_iff : forall file k, (k <= length file)%nat ->
  pq_footer_ok (firstn k file) = true <-> pq_coincidence file k.
Proof.
  intros file k Hk. unfold pq_footer_ok, pq_coincidence. rewrite firstn_length, Nat.min_l by exact Hk.
  destruct (Nat.ltb_spec k 8) as [H8|H8]; [split; [discriminate|intros [H _]; lia]|].
  rewrite last_n_firstn by lia. unfold pq_tail. change (sub file (k - 8) 8) with (sub file (k - (4 + 4)) (4 + 4)).
  rewrite sub_magic, sub_length_field by lia. change (4 + 4)%nat with 8%nat.
  destruct (list_eq_dec Z.eq_dec (sub file (k - 4) 4) pare) as [Ee|Ne]; [rewrite Z.leb_le; tauto|].
  destruct (list_eq_dec Z.eq_dec (sub file (k - 4) 4) par1) as [E1|N1]; [rewrite Z.leb_le; tauto|].
  split; [discriminate|tauto].
Qed.

Theorem ipc_footer_cut_iff : forall file k, (k <= length file)%nat ->
  ipc_footer_ok (firstn k file) = true <-> ipc_coincidence file k.
Proof.
  intros file k Hk. unfold ipc_footer_ok, ipc_coincidence. rewrite firstn_length, Nat.min_l by exact Hk.
  destruct (Nat.ltb_spec k 10) as [H10|H10]; [split; [discriminate|intros [H _]; lia]|].
  rewrite last_n_firstn by lia. unfold ipc_footer_len. change (sub file (k - 10) 10) with (sub file (k - (4 + 6)) (4 + 6)).
  rewrite sub_magic, sub_length_field by lia. change (4 + 6)%nat with 10%nat.
  destruct (list_eq_dec Z.eq_dec (sub file (k - 6) 6) arrow1) as [Ee|Ne]; [|split; [discriminate|tauto]].
  destruct (Z.ltb_spec (signed 32 (le (sub file (k - 10) 4))) 0) as [Hn|Hn].
  - split; [discriminate|intros (_ & _ & H & _); lia].
  - rewrite Z.leb_le. tauto.
Qed.

Corollary pq_no_embedded_footer : forall file,
  (forall k, (k < length file)%nat -> sub file (k - 4) 4 <> par1 /\ sub file (k - 4) 4 <> pare) ->
  forall k, (k < length file)%nat -> pq_footer_ok (firstn k file) = false.
Proof.
  intros file H k Hk. destruct (pq_footer_ok (firstn k file)) eqn:E; [|reflexivity].
  apply pq_footer_cut_iff in E; [|lia]. destruct E as (_ & [E|E] & _); destruct (H k Hk); contradiction.
Qed.
Corollary ipc_no_embedded_footer : forall file,
  (forall k, (k < length file)%nat -> sub file (k - 6) 6 <> arrow1) ->
  forall k, (k < length file)%nat -> ipc_footer_ok (firstn k file) = false.
Proof.
  intros file H k Hk. destruct (ipc_footer_ok (firstn k file)) eqn:E; [|reflexivity].
  apply ipc_footer_cut_iff in E; [|lia]. destruct E as (_ & E & _). now destruct (H k Hk).
Qed.

(* non-vacuity: two messages, under a toy body_len that reads the body length from the first metadata byte *)
Example stream_example :
  let bl := fun meta : list Z => Some (hd 0 meta) in
  let ms := [([2; 9; 9; 9; 9; 9; 9; 9], [7; 8]); ([0; 1; 1; 1; 1; 1; 1; 1], [])] in
  decode_all bl (firstn 27 (encode ms true)) = (firstn 1 ms, Err) /\
  decode_all bl (firstn 19 (encode ms true)) = (firstn 1 ms, End) /\
  decode_all bl (encode ms true) = (ms, End).
Proof. vm_compute. repeat split. Qed.
