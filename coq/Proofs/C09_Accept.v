(* C09: acceptance by the transcribed arrow-rs validator implies acceptance by the independent
   specification validator: node by node for the covered data types, then for whole array trees.
   The file opens with the facts about [parr], [tree_all] and [kid] that Model/C09_Layout.v defines without lemmas
   (Proofs/C01_Bounds.v imports the file for these).  The theorem has two hypotheses that are neither validator nor
   specification, so they are defined here and not in Model/: [covered], the data types for which the node step is
   proved (the others are refuted in C09_Refuted.v or left to the correspondence run), and [addressable], every data
   buffer shorter than usize::MAX (without it a size computation of the validator that saturated at usize::MAX still fits
   a buffer of that length).
   [phys] is [addressable] plus the same bound on the validity bitmap, which no proof uses; it is what holds of any
   array in memory, and the theorems of Props/ and the witnesses of C09_Refuted.v are stated with it
   ([phys_addressable] leads from it to what the proofs need). *)
From Coq Require Import List Arith NArith ZArith Lia Bool ZifyNat ZifyBool.
From AV Require Import Base.ListX Model.C09_Layout Model.C09_Validate.
Import ListNotations.
(* Array trees: their induction principle, [tree_all], children, and two projections of the specification; nothing
   down to [forallb_imp] is about the validator. *)

Lemma parr_ind' (R : parr -> Prop) : (forall a, Forall R (p_kids a) -> R a) -> forall a, R a.
Proof.
  intros step. fix IH 1. intros [ty len off nulls bufs kids]. apply step. cbn [p_kids].
  induction kids as [|k ks IHk]; constructor; [apply IH | exact IHk].
Qed.

Lemma tree_all_unfold P a :
  tree_all P a = P a && forallb (tree_all P) (p_kids a).
Proof. destruct a; reflexivity. Qed.

Lemma tree_all_head P a : tree_all P a = true -> P a = true.
Proof. rewrite tree_all_unfold. intros [H _]%andb_true_iff. exact H. Qed.

Lemma forallb_kid (P : parr -> bool) a j c : forallb P (p_kids a) = true -> kid a j = Some c -> P c = true.
Proof. rewrite forallb_forall. intros H E. exact (H c (nth_error_In _ _ E)). Qed.

Lemma kid_len_some a j k : kid a j = Some k -> kid_len a j = p_len k.
Proof. unfold kid_len. now intros ->. Qed.

Lemma tree_all_kid P a j c : tree_all P a = true -> kid a j = Some c -> tree_all P c = true.
Proof. rewrite tree_all_unfold. intros [_ H]%andb_true_iff. exact (forallb_kid _ a j c H). Qed.

Lemma tree_all_impl (P Q : parr -> bool) : (forall a, P a = true -> Q a = true) ->
  forall a, tree_all P a = true -> tree_all Q a = true.
Proof.
  intros PQ. induction a as [a IH] using parr_ind'. rewrite !tree_all_unfold.
  intros [Ha Hk]%andb_true_iff. apply andb_true_iff. rewrite forallb_forall in *. rewrite Forall_forall in IH.
  split; [exact (PQ a Ha) | intros k Hin; exact (IH k Hin (Hk k Hin))].
Qed.

(* were spec_nulls false, the first conjunct of every layout (spec_nulls itself, or "no validity bitmap") would be
   false, and H would compute to false = true *)
Lemma spec_node_nulls a : spec_node a = true -> spec_nulls a = true.
Proof.
  unfold spec_node. cbv zeta. intros [_ H]%andb_true_iff. destruct (spec_nulls a) eqn:En; [reflexivity|].
  unfold spec_nulls in En. destruct (p_nulls a); [|discriminate En]. destruct (p_ty a); exact H.
Qed.

Lemma spec_valid_node a : spec_valid a = true -> spec_node a = true.
Proof. intros [H _]%tree_all_head%andb_true_iff. exact H. Qed.

Lemma forallb_combine_nth {A B} (P : A * B -> bool) : forall (l : list A) (r : list B) i x y,
  forallb P (List.combine l r) = true -> nth_error l i = Some x -> nth_error r i = Some y -> P (x, y) = true.
Proof.
  induction l as [|x' l IH]; intros r i x y H Hx Hy; [destruct i; discriminate|].
  destruct r as [|y' r]; [destruct i; discriminate|]. cbn [List.combine forallb] in H. apply andb_true_iff in H as [H0 H].
  destruct i as [|i]; cbn [nth_error] in Hx, Hy; [congruence | eauto].
Qed.

Lemma forallb_imp {A} (f g : A -> bool) l :
  (forall x, f x = true -> g x = true) -> forallb f l = true -> forallb g l = true.
Proof. rewrite !forallb_forall. auto. Qed.

(* physical realisability: every buffer is shorter than the address space *)
Definition phys (a : parr) : bool :=
  forallb (fun b => (blen b <? usize_max)%N) (p_bufs a) &&
  match p_nulls a with Some nb => (blen (nb_bytes nb) <? usize_max)%N | None => true end.

(* the part of [phys] that acceptance => validity rests on: the data buffers; a validity bitmap of any length will do *)
Definition addressable (a : parr) : bool := forallb (fun b => (blen b <? usize_max)%N) (p_bufs a).

Lemma phys_addressable a : phys a = true -> addressable a = true.
Proof. now intros [H _]%andb_true_iff. Qed.

Lemma checked_add_some a b c : checked_add a b = Some c -> c = (a + b)%N.
Proof. unfold checked_add. destruct (a + b <=? usize_max)%N; now intros [= <-]. Qed.
Lemma checked_mul_some a b c : checked_mul a b = Some c -> c = (a * b)%N.
Proof. unfold checked_mul. destruct (a * b <=? usize_max)%N; now intros [= <-]. Qed.

(* a saturated product can only fit a realisable buffer when it did not saturate *)
Lemma sat_mul_le lpo w b : (b < usize_max)%N -> (saturating_mul lpo w <=? b)%N = true -> (lpo * w <= b)%N.
Proof.
  unfold saturating_mul. intros Hb [H|H]%N.leb_le%N.min_le; [exact H|].
  destruct (N.lt_irrefl _ (N.lt_le_trans _ _ _ Hb H)).
Qed.

Lemma typed_buffer_ok_size a idx len w : typed_buffer_ok a idx len w = true ->
  ((len + N.of_nat (p_off a)) * N.of_nat w <= N.of_nat (length (buf a idx)))%N.
Proof.
  unfold typed_buffer_ok.
  destruct (checked_add len (N.of_nat (p_off a))) as [req|] eqn:E1; [|discriminate].
  destruct (checked_mul req (N.of_nat w)) as [bytes|] eqn:E2; [|discriminate].
  intros H%N.leb_le. apply checked_add_some in E1 as ->. apply checked_mul_some in E2 as ->. exact H.
Qed.

(* the conclusion repeats the conjunction of [node_validate] in its order; accept_spec_nulls, accept_buffer and
   accept_spec_node take their conjuncts BY POSITION (the sixth; the third and fifth; all but three), so a conjunct
   added to [node_validate] has to be added here and shifts those patterns *)
Lemma node_validate_inv a : node_validate a = true ->
  let lpo := (N.of_nat (p_len a) + N.of_nat (p_off a))%N in
  let specs := fst (fst (layout_of (p_ty a))) in
  let can_null := snd (fst (layout_of (p_ty a))) in
  let variadic := snd (layout_of (p_ty a)) in
  (N.of_nat (p_off a) + N.of_nat (p_len a) <=? usize_max)%N = true /\
  (can_null || match p_nulls a with None => true | Some _ => false end) = true /\
  (length specs <=? length (p_bufs a))%nat = true /\
  (variadic || Nat.eqb (length (p_bufs a)) (length specs)) = true /\
  forallb (fun p : list N * bspec =>
             match snd p with
             | BFixed w => (saturating_mul lpo w <=? blen (fst p))%N
             | BBitmap => (nceil8 lpo <=? blen (fst p))%N
             | BVar => true
             end) (List.combine (p_bufs a) specs) = true /\
  match p_nulls a with
  | None => true
  | Some nb =>
      (nb_count nb <=? p_len a)%nat && (nceil8 lpo <=? blen (nb_bytes nb))%N && Nat.eqb (nb_len nb) (p_len a) &&
      (nb_off nb + nb_len nb <=? 8 * length (nb_bytes nb))%nat
  end = true /\
  validate_child_data a = true /\
  match p_ty a with
  | TFixedBin n => (0 <=? n)%Z
  | TBin large _ => validate_offsets a (offw large) (length (buf a 1))
  | TRee rw _ => (Nat.eqb rw 2 || Nat.eqb rw 4 || Nat.eqb rw 8)
  | TDict kw _ _ => (Nat.eqb kw 1 || Nat.eqb kw 2 || Nat.eqb kw 4 || Nat.eqb kw 8)
  | _ => true
  end = true.
Proof.
  unfold node_validate, checked_add.
  destruct (N.leb_spec (N.of_nat (p_len a) + N.of_nat (p_off a)) usize_max) as [Hr|]; [|discriminate].
  destruct (layout_of (p_ty a)) as [[specs can_null] variadic]. cbv beta iota zeta. cbn [fst snd].
  intros [[[[[[H1 H2]%andb_true_iff H3]%andb_true_iff H4]%andb_true_iff H5]%andb_true_iff H6]%andb_true_iff H7]%andb_true_iff.
  repeat split; try assumption. apply N.leb_le. now rewrite N.add_comm.
Qed.

(* the bitmap holds 8 * bytes >= offset + length bits, hence ceil((offset + length) / 8) bytes *)
Lemma accept_spec_nulls a : node_validate a = true -> node_nulls a = true -> spec_nulls a = true.
Proof.
  unfold node_nulls, spec_nulls. intros (_ & _ & _ & _ & _ & Hnb & _)%node_validate_inv [Hc _]%andb_true_iff.
  destruct (p_nulls a) as [nb|]; [|reflexivity]. lia.
Qed.

(* the one place where [addressable] is used: a product that fits a buffer shorter than usize::MAX did not saturate,
   so it is the exact product the specification asks for *)
Lemma accept_buffer a i s : addressable a = true -> node_validate a = true ->
  nth_error (fst (fst (layout_of (p_ty a)))) i = Some s ->
  match s with
  | BFixed w => ((p_off a + p_len a) * N.to_nat w <=? length (buf a i))%nat
  | BBitmap => ((p_off a + p_len a + 7) / 8 <=? length (buf a i))%nat
  | BVar => true
  end = true.
Proof.
  intros Hp (_ & _ & Hlen & _ & Hb & _)%node_validate_inv Hs.
  destruct (nth_error (p_bufs a) i) as [b|] eqn:Eb.
  2:{ apply nth_error_None in Eb. pose proof (proj1 (nth_error_Some (fst (fst (layout_of (p_ty a)))) i) ltac:(congruence)). lia. }
  pose proof (forallb_combine_nth _ _ _ _ _ _ Hb Eb Hs) as Hw. cbn [fst snd] in Hw.
  unfold buf. rewrite (nth_error_nth _ _ _ Eb).
  assert (Hlt : (blen b < usize_max)%N).
  { unfold addressable in Hp. rewrite forallb_forall in Hp. exact (proj1 (N.ltb_lt _ _) (Hp b (nth_error_In _ _ Eb))). }
  destruct s as [w| |].
  - apply (sat_mul_le _ _ _ Hlt) in Hw. unfold blen in Hw. clear - Hw. lia.
  - unfold nceil8, blen in Hw. clear - Hw. lia.
  - reflexivity.
Qed.

Lemma each_offset_spec limit check : forall offs start first, (start <= limit)%Z ->
  each_offset limit check start first offs = true ->
  monotone_from start offs = true /\ (last offs start <= limit)%Z.
Proof.
  induction offs as [|x r IH]; intros start first Hs H; cbn [each_offset monotone_from] in *; [now split|].
  destruct ((0 <=? x)%Z && (x <=? limit)%Z && (start <=? x)%Z)%bool eqn:Eg; [|discriminate].
  apply andb_true_iff in H as [_ H]. destruct (IH x false ltac:(lia) H) as [M L].
  rewrite last_cons, M. split; [lia|exact L].
Qed.

Lemma typed_offsets_some a w offs : typed_offsets a w = Some offs ->
  (Nat.eqb (p_len a) 0 && Nat.eqb (length (buf a 0)) 0)%bool = false ->
  offs = offsets_of a w /\ ((p_off a + p_len a + 1) * w <= length (buf a 0))%nat.
Proof.
  unfold typed_offsets. intros H Ee. rewrite Ee in H.
  destruct (checked_add (N.of_nat (p_len a)) 1) as [l|] eqn:E1; [|discriminate].
  destruct (typed_buffer_ok a 0 l w) eqn:E2; [|discriminate].
  apply typed_buffer_ok_size in E2. apply checked_add_some in E1 as ->. inversion H. split; [reflexivity|lia].
Qed.

Lemma spec_offsets_of_impl a w limit check :
  validate_each_offset a w limit check = true -> spec_offsets a w limit = true.
Proof.
  unfold validate_each_offset, spec_offsets.
  destruct (typed_offsets a w) as [offs|] eqn:Et; [|discriminate]. intros H.
  destruct (Nat.eqb (p_len a) 0 && Nat.eqb (length (buf a 0)) 0)%bool eqn:Ee; [reflexivity|].
  destruct (typed_offsets_some a w offs Et Ee) as [-> Hsz].
  destruct (each_offset_spec (Z.of_nat limit) _ _ 0%Z _ ltac:(lia) H) as [M L].
  rewrite M, andb_true_r. apply andb_true_iff. split; [apply Nat.leb_le|apply Z.leb_le]; assumption.
Qed.

(* on the first run end the validator tests 0 < x and skips prev < x, while the specification's chain starts at 0:
   the two agree because prev = 0 there *)
Lemma run_ends_ok_spec : forall l prev first z,
  run_ends_ok prev first l = (true, z) -> (first = true -> prev = 0%Z) ->
  strictly_increasing_pos prev l = true /\ z = last l prev.
Proof.
  induction l as [|x r IH]; intros prev first z H Hf; cbn [run_ends_ok strictly_increasing_pos] in *.
  - inversion H. auto.
  - destruct ((0 <? x)%Z && (first || (prev <? x)%Z))%bool eqn:E; [|discriminate].
    destruct (IH x false z H ltac:(discriminate)) as [S ->]. rewrite last_cons, S. split; [|reflexivity].
    destruct first; [rewrite (Hf eq_refl)|]; lia.
Qed.

Lemma count_false_0_all l : count_false l = 0%nat -> forall m,
  forallb (fun p : bool * bool => negb (fst p) || snd p) (List.combine m l) = true.
Proof.
  unfold count_false. induction l as [|b l IH]; intros H m; [destruct m; reflexivity|].
  destruct m as [|x m]; [reflexivity|]. cbn [List.combine forallb fst snd].
  destruct b; cbn [filter negb] in H; [|discriminate].
  rewrite orb_true_r. cbn [andb]. apply IH. exact H.
Qed.

Lemma node_ok_inv a : node_ok a = true -> node_validate a = true /\ node_nulls a = true /\ node_values a = true.
Proof. unfold node_ok. intros [[Hv Hn]%andb_true_iff Hw]%andb_true_iff. auto. Qed.

(* the child's own validation makes its cached null count the true one, so "null count 0" means "no unset bit" *)
Lemma non_nullable_spec mask k : node_ok k = true ->
  validate_non_nullable mask k = true -> child_nulls_within 0 mask k = true.
Proof.
  unfold validate_non_nullable, child_nulls_within. intros (_ & Hn & _)%node_ok_inv H.
  unfold node_nulls in Hn. apply andb_true_iff in Hn as [Hc _].
  destruct (p_nulls k) as [nb|]; [|reflexivity]. apply Nat.eqb_eq in Hc.
  destruct mask as [m|]; cbn [skipn].
  - apply orb_true_iff in H as [H%Nat.eqb_eq|H]; [apply count_false_0_all; lia | exact H].
  - rewrite Hc. exact H.
Qed.

(* data types for which acceptance => specification validity is proved at node level *)
Definition covered (a : parr) : bool :=
  match p_ty a with
  | TNull | TBool | TFixed _ | TFixedBin _ => true
  | TBin _ utf8 => negb utf8
  | TList _ _ _ | TListView _ _ _ | TDict _ _ _ | TRee _ _ => true
  | TFixedList _ nullable _ => nullable || Nat.eqb (p_off a) 0
  | TStruct _ => Nat.eqb (p_off a) 0
  | _ => false
  end.

Lemma accept_spec_node a : addressable a = true -> forallb node_ok (p_kids a) = true -> node_ok a = true ->
  covered a = true -> spec_node a = true.
Proof.
  intros Hp Hkids (Hv & Hn & Hw)%node_ok_inv Hc.
  pose proof (accept_spec_nulls a Hv Hn) as Hsn. pose proof (fun i s => accept_buffer a i s Hp Hv) as Hb.
  destruct (node_validate_inv a Hv) as (Hr & Hcn & _ & Hbc & _ & _ & Hk & Ht).
  unfold spec_node. rewrite Hr, Hsn. cbv zeta. cbn [andb].
  unfold covered in Hc. unfold node_values in Hw. unfold node_nulls in Hn.
  unfold validate_child_data, num_children, child_ok in Hk.
  destruct (p_ty a) as [ | | w | s | large [|] | | large nullable c | large nullable c | s nullable c | fs | kw ks v | rw v | ];
    try discriminate Hc; cbn [layout_of fst snd orb length] in Hcn, Hbc, Hb; rewrite Hbc.
  (* per data type: each conjunct of the specification is rewritten to true by the validator's check that implies it.
     The intro patterns over [p_ty a] here and in accept_nullability, and the bullets under them, follow the order of
     [dty]'s constructors: a constructor added anywhere but last shifts them without an error.  The types outside
     [covered] (Utf8, views, unions) have left by [discriminate Hc] *)
  - (* TNull *) now rewrite Hcn, Hk.
  - (* TBool *) now rewrite Hk, (Hb 0%nat _ eq_refl).
  - (* TFixed *) specialize (Hb 0%nat _ eq_refl). cbv iota in Hb. rewrite Nat2N.id in Hb. now rewrite Hk, Hb.
  - (* TFixedBin *) specialize (Hb 0%nat _ eq_refl). cbv iota in Hb. rewrite Z_N_nat in Hb. now rewrite Ht, Hk, Hb.
  - (* TBin: validate()'s own validate_offsets (Ht here, the last conjunct of Hk for TList) looks at the first and last
       offset only and is not used: the scan validate_each_offset of validate_values subsumes it, and validate() alone
       does not give spec_offsets *)
    apply spec_offsets_of_impl in Hw. now rewrite Hk, Hw.
  - (* TList: a non-nullable child has no nulls at all *)
    apply andb_true_iff in Hk as [[Hk1 Hk2]%andb_true_iff _]. apply spec_offsets_of_impl in Hw. rewrite Hk1, Hk2, Hw. cbn [andb].
    destruct nullable; [reflexivity|]. apply andb_true_iff in Hn as [_ Hn].
    destruct (kid a 0) as [k|] eqn:Ek; [|discriminate]. exact (non_nullable_spec None k (forallb_kid _ a 0 k Hkids Ek) Hn).
  - (* TListView *) apply andb_true_iff in Hk as [[Hk1 Hk2]%andb_true_iff [_ Hos]%andb_true_iff].
    pose proof (Hb 0%nat _ eq_refl) as Hb0. specialize (Hb 1%nat _ eq_refl). cbv iota in Hb0, Hb. rewrite Nat2N.id in Hb0, Hb.
    rewrite Hk1, Hk2, Hb0, Hb. cbn [andb]. refine (forallb_imp _ _ _ _ Hos). intros i. cbv beta zeta. clear. lia.
  - (* TFixedList *) apply andb_true_iff in Hk as [[[Hk1 Hk2]%andb_true_iff Hs]%andb_true_iff Hsz].
    destruct (checked_add (N.of_nat (p_len a)) (N.of_nat (p_off a))) as [lpo|] eqn:E1; [|discriminate].
    destruct (checked_mul lpo (Z.to_N s)) as [ex|] eqn:E2; [|discriminate].
    apply checked_add_some in E1 as ->. apply checked_mul_some in E2 as ->.
    rewrite Hs, Hk1, Hk2. cbn [andb]. clear - Hs Hsz. lia.
  - (* TStruct: the validator compares the children with len, the specification with offset + len *)
    apply andb_true_iff in Hk as [Hk1 Hk2]. apply Nat.eqb_eq in Hc. rewrite Hk1, Hc. exact Hk2.
  - (* TDict *) apply andb_true_iff in Hk as [Hk1 Hk2]. specialize (Hb 0%nat _ eq_refl). cbv iota in Hb. rewrite Nat2N.id in Hb.
    rewrite Hk1, Hk2, Hb. cbn [andb]. refine (forallb_imp _ _ _ _ Hw). intros i. unfold key_in_range. cbv beta zeta.
    intros [->|H]%orb_true_iff; [reflexivity|]. apply orb_true_iff. right. clear - H. destruct ks; lia.
  - (* TRee *) apply andb_true_iff in Hk as [[[[Hk1 Hk2]%andb_true_iff Hk3]%andb_true_iff Hlen]%andb_true_iff Hrn].
    destruct (kid a 0) as [r|] eqn:Er; [|discriminate]. rewrite (kid_len_some _ _ _ Er) in Hlen.
    rewrite Hcn, Hk1, Hk2, Hk3, Hrn, Hlen. cbn [andb].
    unfold check_run_ends in Hw. apply andb_true_iff in Hw as [_ Hw]. cbv zeta in Hw.
    destruct (run_ends_ok 0 true (map _ _)) as [ok lst] eqn:Ere. apply andb_true_iff in Hw as [-> Hl].
    destruct (run_ends_ok_spec _ _ _ _ Ere (fun _ => eq_refl)) as [S ->]. rewrite S. exact Hl.
Qed.

(* non-nullable children of fixed-size lists and structs: the validator's mask ignores the parent's offset *)
Lemma accept_nullability a : covered a = true -> forallb node_ok (p_kids a) = true -> node_nulls a = true ->
  spec_nullability a = true.
Proof.
  unfold covered, spec_nullability, node_nulls. intros Hc Hkids [_ Hn]%andb_true_iff.
  destruct (p_ty a) as [ | | | | | | | | s [|] c | fs | | | ]; try reflexivity; apply Nat.eqb_eq in Hc; rewrite Hc.
  - destruct (kid a 0) as [k|] eqn:Ek; [|reflexivity]. exact (non_nullable_spec _ k (forallb_kid _ a 0 k Hkids Ek) Hn).
  - rewrite forallb_forall in *. intros [f k] Hin. apply orb_true_iff.
    destruct (orb_prop _ _ (Hn _ Hin)) as [H|H]; [now left|right].
    exact (non_nullable_spec _ k (Hkids k (in_combine_r _ _ _ _ Hin)) H).
Qed.

Lemma node_accept a :
  addressable a = true -> forallb node_ok (p_kids a) = true -> node_ok a = true -> covered a = true ->
  spec_node a && spec_nullability a = true.
Proof.
  intros Hp Hk Ho Hc. rewrite (accept_spec_node a Hp Hk Ho Hc). apply accept_nullability; [| |apply node_ok_inv]; assumption.
Qed.

Theorem accept_implies_valid_tree a :
  tree_all addressable a = true -> tree_all covered a = true -> impl_validate_full a = true -> spec_valid a = true.
Proof.
  unfold impl_validate_full, spec_valid. induction a as [a IH] using parr_ind'. rewrite !tree_all_unfold.
  intros [Hp Hpk]%andb_true_iff [Hc Hck]%andb_true_iff [Ho Hok]%andb_true_iff. rewrite forallb_forall in *.
  rewrite Forall_forall in IH. apply andb_true_iff. split; [|rewrite forallb_forall; auto].
  apply node_accept; try assumption. apply forallb_forall. intros k Hin. exact (tree_all_head _ k (Hok k Hin)).
Qed.

Lemma length2 {A} (l : list A) : length l = 2%nat -> exists x y, l = [x; y].
Proof. destruct l as [|x [|y [|z r]]]; cbn; intros H; try lia. eauto. Qed.
Lemma length0 {A} (l : list A) : length l = 0%nat -> l = [].
Proof. destruct l; cbn; intros; [reflexivity|lia]. Qed.

