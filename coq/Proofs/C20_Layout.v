(* C20 — offsets/values layouts.  The windows of a laid-out array are its values in place, so the array denotes them
   (values_of_layout); length and bit_length map a function over the window widths, which are the value lengths
   (map_window_widths); the loop of concat_elements keeps "offsets and data so far are the layout of the rows done"
   (concat_loop_spec), which gives its result for arbitrary input offsets (concat_elements_values). *)
From Coq Require Import List NArith ZArith Lia.
From AV Require Import Base.ListX Base.Utf8 Model.C20_Like Model.C20_Substr Proofs.C20_Utf8.
Import ListNotations.
(* `map2` is the model's (Model.C20_Substr, loaded after Base.ListX, whose map2 has the same body). *)

Lemma slice_app_mid {A} (pre v post : list A) :
  slice (pre ++ v ++ post) (length pre) (length pre + length v) = v.
Proof.
  unfold slice. rewrite skipn_app_exact by reflexivity. apply firstn_app_exact. lia.
Qed.

Lemma windows_offsets_from o v r :
  windows (offsets_from o (v :: r)) = (o, (o + Z.of_nat (length v))%Z) :: windows (offsets_from (o + Z.of_nat (length v)) r).
Proof. cbn [offsets_from windows]. destruct r; reflexivity. Qed.
Lemma windows_offsets_nil o : windows (offsets_from o []) = [].
Proof. reflexivity. Qed.

Lemma zslice_layout (pre v post : list N) :
  zslice (pre ++ v ++ post) (Z.of_nat (length pre)) (Z.of_nat (length pre) + Z.of_nat (length v)) = v.
Proof.
  unfold zslice. rewrite <- Nat2Z.inj_add, !Nat2Z.id. apply slice_app_mid.
Qed.

Theorem values_of_layout vs : forall pre post,
  values_of (layout_offsets pre vs) (layout_data pre vs post) = vs.
Proof.
  unfold values_of, layout_offsets, layout_data.
  induction vs as [|v r IH]; intros pre post; [reflexivity|].
  rewrite windows_offsets_from. cbn [map fst snd concat]. rewrite <- app_assoc.
  rewrite zslice_layout. f_equal.
  specialize (IH (pre ++ v) post). rewrite app_length, Nat2Z.inj_add in IH.
  rewrite <- app_assoc in IH. exact IH.
Qed.

Lemma wrap_id bits z : (1 <= bits)%Z -> (- 2 ^ (bits - 1) <= z < 2 ^ (bits - 1))%Z -> wrap bits z = z.
Proof.
  intros Hb Hz. unfold wrap.
  assert (E : (2 ^ bits = 2 * 2 ^ (bits - 1))%Z).
  { replace bits with (Z.succ (bits - 1)) at 1 by lia. apply Z.pow_succ_r. lia. }
  rewrite E. rewrite Z.mod_small by lia. lia.
Qed.

(* both kernels map a function over the window widths, which are the value lengths *)
Lemma map_window_widths {B} (F : Z -> B) vs : forall o,
  map (fun w : Z * Z => F (snd w - fst w)%Z) (windows (offsets_from o vs)) = map (fun v => F (Z.of_nat (length v))) vs.
Proof.
  induction vs as [|v r IH]; intros o; [reflexivity|].
  rewrite windows_offsets_from. cbn [map fst snd]. rewrite IH. do 2 f_equal. lia.
Qed.

Lemma length_m_layout bits vs pre : (1 <= bits)%Z ->
  Forall (fun v => (Z.of_nat (length v) < 2 ^ (bits - 1))%Z) vs ->
  length_m bits (layout_offsets pre vs) = map (fun v => Z.of_nat (length v)) vs.
Proof.
  intros Hb F. unfold length_m, layout_offsets. rewrite (map_window_widths (wrap bits)).
  apply map_ext_in. intros v Hv. rewrite Forall_forall in F. specialize (F v Hv). apply wrap_id; lia.
Qed.

Theorem length_spec_thm bits ss pre : (1 <= bits)%Z ->
  Forall (fun s => (Z.of_nat (blen s) < 2 ^ (bits - 1))%Z) ss ->
  length_m bits (layout_offsets pre (map utf8 ss)) = map length_spec ss.
Proof.
  intros Hb F. rewrite length_m_layout; [now rewrite map_map|assumption|].
  apply Forall_map. exact F.
Qed.

Lemma bit_length_m_layout bits vs pre : (1 <= bits)%Z ->
  Forall (fun v => (8 * Z.of_nat (length v) < 2 ^ (bits - 1))%Z) vs ->
  bit_length_m bits (layout_offsets pre vs) = map (fun v => (8 * Z.of_nat (length v))%Z) vs.
Proof.
  intros Hb F. unfold bit_length_m, layout_offsets. rewrite (map_window_widths (fun d => wrap bits (wrap bits d * 8))).
  apply map_ext_in. intros v Hv. rewrite Forall_forall in F. specialize (F v Hv).
  rewrite (wrap_id bits (Z.of_nat _)), Z.mul_comm by lia. apply wrap_id; lia.
Qed.

Theorem bit_length_spec_thm bits ss pre : (1 <= bits)%Z ->
  Forall (fun s => (8 * Z.of_nat (blen s) < 2 ^ (bits - 1))%Z) ss ->
  bit_length_m bits (layout_offsets pre (map utf8 ss)) = map bit_length_spec ss.
Proof.
  intros Hb F. rewrite bit_length_m_layout; [now rewrite map_map|assumption|].
  apply Forall_map. exact F.
Qed.

(* the multiplication wraps for strings of 2^28 bytes and more (i32 offsets) *)
Theorem bit_length_wraps_refuted :
  exists o : list Z, length_m 32 o = [268435456%Z] /\ bit_length_m 32 o <> [(8 * 268435456)%Z].
Proof. (* wrap 32 (2^28 * 8) = - 2^31 *) exists [0%Z; 268435456%Z]. split; [reflexivity|]. vm_compute. discriminate. Qed.

Lemma offsets_from_nonnil o vs : offsets_from o vs <> [].
Proof. destruct vs; discriminate. Qed.
Lemma offsets_from_app o a b :
  offsets_from o (a ++ b) = removelast (offsets_from o a) ++ offsets_from (o + Z.of_nat (length (concat a))) b.
Proof.
  revert o. induction a as [|v a IH]; intros o.
  - cbn. now rewrite Z.add_0_r.
  - cbn [app offsets_from concat]. rewrite IH, app_length, Nat2Z.inj_add, Z.add_assoc.
    destruct (offsets_from (o + Z.of_nat (length v)) a) eqn:E; [now apply offsets_from_nonnil in E|]. reflexivity.
Qed.
Lemma offsets_from_snoc o a v :
  offsets_from o (a ++ [v]) = offsets_from o a ++ [(o + Z.of_nat (length (concat (a ++ [v]))))%Z].
Proof.
  (* the append law on both sides, with [v] and with [] *)
  rewrite <- (app_nil_r a) at 2. rewrite !offsets_from_app, <- app_assoc. cbn [offsets_from app].
  rewrite concat_app, app_length, Nat2Z.inj_add, Z.add_assoc. cbn [concat]. now rewrite app_nil_r.
Qed.

Lemma concat_loop_spec ld rd : forall lw rw done,
  concat_loop lw rw ld rd (concat done) (offsets_from 0 done) =
  let new := map2 (fun l r : Z * Z => zslice ld (fst l) (snd l) ++ zslice rd (fst r) (snd r)) lw rw in
  (offsets_from 0 (done ++ new), concat (done ++ new)).
Proof.
  induction lw as [|[a b] lw IH]; intros rw done.
  - cbn. now rewrite app_nil_r.
  - destruct rw as [|[c d] rw]; [cbn; now rewrite app_nil_r|].
    cbn [concat_loop map2 fst snd].
    set (v := zslice ld a b ++ zslice rd c d).
    specialize (IH rw (done ++ [v])).
    rewrite concat_app in IH. cbn [concat] in IH. rewrite app_nil_r in IH.
    rewrite offsets_from_snoc, concat_app in IH. cbn [concat] in IH. rewrite app_nil_r, Z.add_0_l in IH.
    rewrite IH. cbn zeta. now rewrite <- !app_assoc.
Qed.

Theorem concat_elements_values lo ld ro rd :
  let r := concat_elements_m lo ld ro rd in
  values_of (fst r) (snd r) = map2 (@app N) (values_of lo ld) (values_of ro rd).
Proof.
  unfold concat_elements_m.
  pose proof (concat_loop_spec ld rd (windows lo) (windows ro) []) as E. cbn [concat offsets_from app] in E.
  rewrite E. cbn zeta. cbn [fst snd].
  set (new := map2 _ _ _).
  pose proof (values_of_layout new [] []) as V. unfold layout_offsets, layout_data in V. cbn [length app] in V.
  rewrite app_nil_r in V. change (Z.of_nat 0) with 0%Z in V. rewrite V.
  subst new. unfold values_of. generalize (windows lo) (windows ro). intros lw.
  induction lw as [|x lw IH]; intros [|y rw]; cbn [map2 map]; [reflexivity..|]. f_equal. apply IH.
Qed.

(* on laid-out arrays: row-wise concatenation, and concatenation of the code points *)
Theorem concat_elements_spec_thm (ls rs : list (list N)) lpre lpost rpre rpost :
  let r := concat_elements_m (layout_offsets lpre (map utf8 ls)) (layout_data lpre (map utf8 ls) lpost)
                             (layout_offsets rpre (map utf8 rs)) (layout_data rpre (map utf8 rs) rpost) in
  values_of (fst r) (snd r) = map utf8 (map2 (@app N) ls rs).
Proof.
  cbn zeta. rewrite concat_elements_values, !values_of_layout.
  revert rs. induction ls as [|a ls IH]; intros [|b rs]; cbn [map map2]; [reflexivity..|].
  rewrite utf8_app. f_equal. apply IH.
Qed.

Theorem concat_valid_utf8 a b : scalars a -> scalars b -> valid_utf8 (utf8 a ++ utf8 b) = true.
Proof. intros Ha Hb. rewrite <- utf8_app. apply valid_utf8_utf8. now apply Forall_app. Qed.
