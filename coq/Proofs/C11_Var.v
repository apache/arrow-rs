(* C11 — the variable-length block encoding (variable.rs): the sequence of blocks as an inductive
   relation over the block number; strong order preservation for every length; the Rust-shaped
   encoder (mini blocks, then 32-byte blocks, with the overwritten continuation byte) produces
   that sequence; then what the later C11 files may know of the encoding of one value
   (var_body: strong, bytes, a first byte between the null sentinels, length), and the exact
   encoded length. *)
From Coq Require Import List Arith NArith Lia.
From AV Require Import Base.Order Model.C11_Row Proofs.C11_Lex.
Import ListNotations.
Local Open Scope N_scope.

(* every byte is at or above 0, and the padding theorems ask nothing else of the bytes *)
Local Definition any (l : list N) : Forall (fun _ => True) l := proj2 (Forall_forall _ l) (fun _ _ => I).
Local Definition zero_min (a : N) (_ : True) : N.compare 0 a <> Gt := proj2 (N.compare_le_iff 0 a) (N.le_0_l a).

(* the final block of encode_blocks is [blk k 0 v], and 0 is the only offset used below; blk_strong
   holds for any offset c on the length byte, since only the order of that byte matters *)
Definition blk (k c : nat) (v : list N) : list N :=
  v ++ repeat 0 (k - length v) ++ [N.of_nat (c + length v)].

Lemma blk_length k c v : (length v <= k)%nat -> length (blk k c v) = S k.
Proof. intros H. unfold blk. rewrite !app_length, repeat_length. cbn [length]. lia. Qed.

(* a block is its value zero-padded to k, then a byte that orders like the length *)
Lemma blk_strong k : forall c v w x y, (length v <= k)%nat -> (length w <= k)%nat ->
  lex (blk k c v ++ x) (blk k c w ++ y) = match lex v w with Eq => lex x y | r => r end.
Proof.
  intros c v w x y Hv Hw. unfold blk. rewrite <- !app_assoc, !(app_assoc _ (repeat 0 _)), <- !(padz_short 0) by assumption.
  apply (lexc_pad_mark N.compare 0 _ ord_Ncompare zero_min k (fun l => N.of_nat (c + length l)));
    [apply any|apply any| |now left].
  rewrite <- Nat2N.inj_compare.
  destruct (Nat.compare_spec (length v) (length w));
    [apply Nat.compare_eq_iff|apply Nat.compare_lt_iff|apply Nat.compare_gt_iff]; lia.
Qed.

Lemma skipn_nonempty {A} n (v : list A) : (n < length v)%nat -> skipn n v <> [].
Proof. intros H E. apply (f_equal (@length A)) in E. rewrite skipn_length in E. cbn [length] in E. lia. Qed.

(* A section for the one lemma: its continuation byte is a variable (any byte above the mark m will
   do); below, CONT is the constant of variable.rs. *)
Section Blocks.
Variable CONT : N.

(* v padded to k against the first k bytes of a longer w: if the padded prefixes differ, v and w differ the same
   way; if they tie, the shorter v is below, and so is the mark after it, which is below CONT *)
Lemma short_vs_long k : forall v w1 w2 x y m, (length v <= k)%nat -> length w1 = k -> w2 <> [] -> m < CONT ->
  lex (v ++ repeat 0 (k - length v) ++ m :: x) (w1 ++ CONT :: y) = lex v (w1 ++ w2)
  /\ lex v (w1 ++ w2) <> Eq.
Proof.
  intros v w1 w2 x y m Hv Hw1 Hw2 Hm.
  assert (Lw : (length v < length (w1 ++ w2))%nat) by (rewrite app_length; destruct w2; [congruence|cbn [length]; lia]).
  assert (Ew : padz 0 k (w1 ++ w2) = w1).
  { unfold padz. rewrite firstn_app, Hw1, Nat.sub_diag, firstn_all2, app_length by lia.
    replace (k - _)%nat with 0%nat by lia. now rewrite !app_nil_r. }
  split; [|intros E; apply lex_eq in E; subst v; lia].
  rewrite app_assoc, <- (padz_short 0) by exact Hv. rewrite <- Ew at 1.
  change lex with (lexc N.compare). rewrite lexc_app_same_len by now rewrite !padz_length. cbn [lexc].
  apply N.compare_lt_iff in Hm. rewrite Hm.
  apply (lexc_pad_then N.compare 0 _ ord_Ncompare zero_min k v (w1 ++ w2) Lt (any _) (any _)).
  intros E. rewrite (lexc_pad_tie N.compare 0 k v _ E) by now left. symmetry. now apply Nat.compare_lt_iff.
Qed.

End Blocks.

Notation CONT := BLOCK_CONTINUATION.

(* One constructor per kind of block.  [blocks_cont]: a full chunk followed by the continuation byte (an
   iteration of the chunks_exact loop of encode_blocks; the branch of decode_blocks' loop that goes on).
   [blocks_last]: the zero-padded remainder with its length, or a last full chunk whose continuation
   byte was overwritten with the block size (the branch that returns).  [sch st] is the block size at
   block number [st]; out is the encoding of the non-empty v from block [st] on. *)
Inductive blocks (sch : nat -> nat) : nat -> list N -> list N -> Prop :=
| blocks_last st v : v <> [] -> (length v <= sch st)%nat -> blocks sch st v (blk (sch st) 0 v)
| blocks_cont st u v out : length u = sch st -> blocks sch (S st) v out ->
    blocks sch st (u ++ v) (u ++ CONT :: out).

Lemma blocks_data sch st v out : blocks sch st v out -> v <> [].
Proof.
  induction 1 as [st v Nv _|st u v out _ _ IH]; [exact Nv|].
  intros E. apply app_eq_nil in E as [_ E]. now apply IH.
Qed.

Lemma blocks_out sch st v out : blocks sch st v out -> out <> [].
Proof.
  intros [st' v' _ _|st' u v' out' _ _] E.
  - unfold blk in E. apply app_eq_nil in E as [_ E]. apply app_eq_nil in E as [_ E]. discriminate.
  - apply app_eq_nil in E as [_ E]. discriminate.
Qed.

Lemma blocks_length_ge sch st v out : blocks sch st v out -> (2 <= length out)%nat.
Proof.
  intros [st' v' Nv Lv|st' u v' out' _ Hv].
  - rewrite blk_length by exact Lv. destruct v'; [congruence|cbn [length] in Lv; lia].
  - apply blocks_out in Hv. rewrite app_length. destruct out'; [congruence|cbn [length]; lia].
Qed.

(* short_vs_long at the final block of v: whatever follows the two blocks is not looked at *)
Lemma last_vs_cont B v u w x y : (length v <= B)%nat -> length u = B -> w <> [] -> N.of_nat B < CONT ->
  lex (blk B 0 v ++ x) (u ++ CONT :: y) = lex v (u ++ w) /\ lex v (u ++ w) <> Eq.
Proof.
  intros Lv Lu Nw HC. unfold blk. rewrite <- !app_assoc. cbn [app Nat.add].
  apply short_vs_long; [exact Lv | exact Lu | exact Nw | lia].
Qed.

Section Order.
Variable sch : nat -> nat.
Hypothesis sch_lt : forall s, N.of_nat (sch s) < CONT.

(* final against final is blk_strong, final against continued is last_vs_cont (the shorter value is
   never equal, so what follows is not reached), and two continued blocks compare as their equally
   long chunks *)
Theorem blocks_strong st v ov : blocks sch st v ov -> forall w ow x y, blocks sch st w ow ->
  lex (ov ++ x) (ow ++ y) = match lex v w with Eq => lex x y | c => c end.
Proof.
  induction 1 as [st v Nv Lv|st u v ov Lu Hv IH]; intros w ow x y Hw;
    inversion Hw as [? ? Nw Lw|? u' w' ow' Lu' Hw']; subst; pose proof (sch_lt st) as HC.
  - (* final, final *) now apply blk_strong.
  - (* final, continued *) rewrite <- (app_assoc u'). cbn [app].
    pose proof (blocks_data _ _ _ _ Hw') as Nw'.
    destruct (last_vs_cont (sch st) v u' w' x (ow' ++ y) Lv Lu' Nw' HC) as [-> NE].
    destruct (lex v (u' ++ w')); [congruence|reflexivity|reflexivity].
  - (* continued, final *) rewrite lex_opp, (lex_opp w), <- (app_assoc u). cbn [app].
    pose proof (blocks_data _ _ _ _ Hv) as Nv.
    destruct (last_vs_cont (sch st) w u v y (ov ++ x) Lw Lu Nv HC) as [-> NE].
    destruct (lex w (u ++ v)); [congruence|reflexivity|reflexivity].
  - (* continued, continued *) rewrite <- !app_assoc, (lex_app_same_len u u' v w'), (lex_app_same_len u u') by congruence.
    destruct (lex u u'); try reflexivity. cbn [app]. rewrite lex_cons_same. now apply IH.
Qed.

Lemma blocks_wf st v out : blocks sch st v out -> wf_bytes v -> wf_bytes out.
Proof.
  induction 1 as [st v _ Lv|st u v out _ _ IH]; intros Wv; pose proof (sch_lt st).
  - unfold blk. apply Forall_app; split; [exact Wv|]. apply Forall_app; split.
    + apply repeat0_wf.
    + constructor; [|constructor]. unfold wf_byte, CONT in *. cbn [Nat.add]. lia.
  - apply Forall_app in Wv as [Wu Wv]. apply Forall_app; split; [exact Wu|].
    constructor; [unfold wf_byte, CONT; lia | now apply IH].
Qed.
End Order.

(* a derivation depends on the schedule only at the blocks it reaches *)
Lemma blocks_sched B sch st0 v out : blocks (fun _ => B) st0 v out ->
  forall n st, (forall i, (i < n)%nat -> sch (st + i)%nat = B) -> (length v <= B * n)%nat -> blocks sch st v out.
Proof.
  induction 1 as [st0 v Nv Lv|st0 u v out Lu Hv IH]; intros n st Hs Hl.
  - destruct n as [|n]; [destruct v; [congruence|cbn [length] in Hl; lia]|].
    rewrite <- (Hs 0%nat), Nat.add_0_r by lia. apply blocks_last; [exact Nv|].
    rewrite <- (Nat.add_0_r st), Hs by lia. exact Lv.
  - pose proof (blocks_data _ _ _ _ Hv) as Nv.
    destruct n as [|n]; [destruct u, v; cbn [length app] in *; try congruence; lia|].
    rewrite app_length, Nat.mul_succ_r in Hl.
    apply blocks_cont; [rewrite <- (Nat.add_0_r st), Hs by lia; exact Lu|].
    apply (IH n); [|lia]. intros i Hi. replace (S st + i)%nat with (st + S i)%nat by lia. apply Hs. lia.
Qed.

Lemma set_last_snoc l a x : set_last (l ++ [a]) x = l ++ [x].
Proof. unfold set_last. now rewrite removelast_last. Qed.

Lemma set_last_app a b x : b <> [] -> set_last (a ++ b) x = a ++ set_last b x.
Proof. intros Hb. unfold set_last. rewrite removelast_app by exact Hb. now rewrite app_assoc. Qed.

Definition body (chunks : list (list N)) : list N := flat_map (fun c => c ++ [CONT]) chunks.
Definition finish (size : nat) (chunks : list (list N)) (rem : list N) : list N :=
  match rem with
  | [] => set_last (body chunks) (N.of_nat size)
  | _ => body chunks ++ rem ++ repeat 0 (size - length rem) ++ [N.of_nat (length rem)]
  end.

Lemma encode_blocks_finish size v :
  encode_blocks size v = finish size (fst (chunks_exact (length v) size v)) (snd (chunks_exact (length v) size v)).
Proof. unfold encode_blocks, finish, body. destruct (chunks_exact (length v) size v) as [c r]. reflexivity. Qed.

Lemma chunks_exact_nil_l fuel size v r : chunks_exact fuel size v = ([], r) -> r = v.
Proof.
  destruct fuel as [|f]; cbn [chunks_exact]; [congruence|].
  destruct (size <=? length v)%nat; [|congruence].
  destruct (chunks_exact f size (skipn size v)). discriminate.
Qed.

Lemma finish_blocks size : (0 < size)%nat -> forall fuel st v, (length v <= fuel)%nat -> v <> [] ->
  blocks (fun _ => size) st v (finish size (fst (chunks_exact fuel size v)) (snd (chunks_exact fuel size v))).
Proof.
  intros Hs. induction fuel as [|f IH]; intros st v Hl Nv.
  - destruct v; [congruence|cbn [length] in Hl; lia].
  - cbn [chunks_exact]. destruct (Nat.leb_spec size (length v)) as [Hge|Hlt].
    + destruct (Nat.eq_dec (length v) size) as [El|Hne].
      * (* exactly one full chunk, no remainder *)
        rewrite (skipn_all2 v) by lia.
        assert (Ec : chunks_exact f size [] = ([], [])).
        { destruct f; cbn [chunks_exact length]; [reflexivity|]. destruct (Nat.leb_spec size 0); [lia|reflexivity]. }
        rewrite Ec. cbn [fst snd finish body flat_map]. rewrite app_nil_r, set_last_snoc, firstn_all2 by lia.
        replace (v ++ [N.of_nat size]) with (blk size 0 v)
          by (unfold blk; rewrite El, Nat.sub_diag; reflexivity).
        apply (blocks_last (fun _ => size)); [exact Nv | lia].
      * (* a full chunk followed by more data *)
        assert (Nr : skipn size v <> []) by (apply skipn_nonempty; lia).
        assert (Hlr : (length (skipn size v) <= f)%nat) by (rewrite skipn_length; lia).
        specialize (IH (S st) (skipn size v) Hlr Nr).
        destruct (chunks_exact f size (skipn size v)) as [c r] eqn:Ech. cbn [fst snd] in *.
        rewrite <- (firstn_skipn size v) at 1.
        replace (finish size (firstn size v :: c) r) with (firstn size v ++ CONT :: finish size c r).
        { apply (blocks_cont (fun _ => size)); [rewrite firstn_length; lia | exact IH]. }
        unfold finish in *. destruct r as [|r0 r]; cbn [body flat_map]; fold (body c).
        -- rewrite set_last_app; [now rewrite <- app_assoc|].
           destruct c as [|c0 c]; [apply chunks_exact_nil_l in Ech; congruence|].
           cbn [body flat_map]. rewrite <- app_assoc. intros E. apply app_eq_nil in E as [_ E]. discriminate.
        -- now rewrite <- !app_assoc.
    + (* only a remainder *)
      cbn [fst snd]. unfold finish. destruct v as [|v0 v]; [congruence|].
      apply (blocks_last (fun _ => size)); [discriminate | lia].
Qed.

Lemma encode_blocks_blocks size st v : (0 < size)%nat -> v <> [] -> blocks (fun _ => size) st v (encode_blocks size v).
Proof. intros Hs Nv. rewrite encode_blocks_finish. now apply finish_blocks. Qed.

(* data that fills k blocks exactly: once its final length byte is overwritten with the continuation
   byte, the blocks of further data follow *)
Lemma blocks_join B sch st0 u out : blocks (fun _ => B) st0 u out ->
  forall k st rest out', length u = (k * B)%nat -> (forall i, (i < k)%nat -> sch (st + i)%nat = B) ->
  blocks sch (st + k)%nat rest out' -> blocks sch st (u ++ rest) (set_last out CONT ++ out').
Proof.
  induction 1 as [st0 u Nu Lu|st0 u1 u2 out Lu1 Hu IH]; intros k st rest out' Hk Hs Hr.
  - cbn beta in Lu. assert (0 < length u)%nat by (destruct u; [congruence|cbn [length]; lia]).
    destruct k as [|[|k]]; [cbn [Nat.mul] in Hk; lia | | cbn [Nat.mul] in Hk; nia].
    unfold blk. replace (B - length u)%nat with 0%nat by lia. cbn [repeat app].
    rewrite set_last_snoc, <- app_assoc. cbn [app].
    apply blocks_cont; [rewrite <- (Nat.add_0_r st), Hs by lia; lia|]. now rewrite Nat.add_1_r in Hr.
  - destruct k as [|k]; [destruct u1, u2; cbn [length app] in *; try discriminate; now apply blocks_data in Hu|].
    rewrite set_last_app by discriminate. rewrite <- !app_assoc. cbn [app].
    change (CONT :: out) with ([CONT] ++ out). rewrite set_last_app by (now apply blocks_out in Hu). cbn [app].
    apply blocks_cont; [rewrite <- (Nat.add_0_r st), Hs by lia; exact Lu1|].
    apply (IH k); [rewrite app_length in Hk; cbn [Nat.mul] in Hk; lia | | now rewrite Nat.add_succ_comm].
    intros i Hi. replace (S st + i)%nat with (st + S i)%nat by lia. apply Hs. lia.
Qed.

Definition sched (s : nat) : nat := if (s <? MINI_BLOCK_COUNT)%nat then MINI_BLOCK_SIZE else BLOCK_SIZE.

Lemma sched_lt s : N.of_nat (sched s) < CONT.
Proof. unfold sched, MINI_BLOCK_SIZE, BLOCK_SIZE, CONT. destruct (s <? MINI_BLOCK_COUNT)%nat; lia. Qed.

Lemma sched_mini st : (st < MINI_BLOCK_COUNT)%nat -> sched st = MINI_BLOCK_SIZE.
Proof. intros H. unfold sched. destruct (Nat.ltb_spec st MINI_BLOCK_COUNT); [reflexivity|lia]. Qed.

Lemma sched_full st : (MINI_BLOCK_COUNT <= st)%nat -> sched st = BLOCK_SIZE.
Proof. intros H. unfold sched. destruct (Nat.ltb_spec st MINI_BLOCK_COUNT); [lia|reflexivity]. Qed.

(* the long arm of encode_nonempty cuts v after the four mini blocks *)
Lemma long_split (v : list N) : (BLOCK_SIZE < length v)%nat ->
  length (firstn BLOCK_SIZE v) = BLOCK_SIZE /\ firstn BLOCK_SIZE v <> [] /\ skipn BLOCK_SIZE v <> [].
Proof.
  intros L. assert (Lu : length (firstn BLOCK_SIZE v) = BLOCK_SIZE) by (rewrite firstn_length; lia).
  repeat split; [exact Lu | intros E; rewrite E in Lu; discriminate | apply skipn_nonempty; lia].
Qed.

(* the four mini blocks, the overwritten length byte, then the 32-byte blocks *)
Theorem encode_nonempty_blocks v : v <> [] ->
  exists out, encode_nonempty v = NON_EMPTY_SENTINEL :: out /\ blocks sched 0 v out.
Proof.
  intros Nv. unfold encode_nonempty.
  assert (HM : (0 < MINI_BLOCK_SIZE)%nat) by (unfold MINI_BLOCK_SIZE; lia).
  assert (HB : (0 < BLOCK_SIZE)%nat) by (unfold BLOCK_SIZE; lia).
  destruct (Nat.leb_spec (length v) BLOCK_SIZE) as [L|L]; eexists; (split; [reflexivity|]).
  - apply (blocks_sched _ _ 0 _ _ (encode_blocks_blocks MINI_BLOCK_SIZE 0 v HM Nv) MINI_BLOCK_COUNT);
      [intros i Hi; now apply sched_mini | exact L].
  - rewrite <- (firstn_skipn BLOCK_SIZE v) at 1.
    destruct (long_split v L) as (Lu & Nu & Nr).
    apply (blocks_join _ sched _ _ _ (encode_blocks_blocks MINI_BLOCK_SIZE 0 _ HM Nu) MINI_BLOCK_COUNT 0 _ _ Lu);
      [intros i Hi; now apply sched_mini|].
    apply (blocks_sched _ _ 0 _ _ (encode_blocks_blocks BLOCK_SIZE 0 _ HB Nr) (length (skipn BLOCK_SIZE v)));
      [intros i _; apply sched_full; lia | unfold BLOCK_SIZE; lia].
Qed.

(* the first byte of a valid value lies strictly between the two null sentinels 0x00 and 0xFF *)
Definition mid_head (l : list N) : Prop := 0 < nth 0 l 0 < 255.

Lemma mid_head_app l r : mid_head l -> nth 0 (l ++ r) 0 = nth 0 l 0.
Proof. destruct l; [unfold mid_head; cbn [nth]; lia | reflexivity]. Qed.

Lemma mid_head_nonempty l : mid_head l -> l <> [].
Proof. intros H ->. unfold mid_head in H. cbn [nth] in H. lia. Qed.

Lemma mid_head_one l : mid_head (1 :: l).
Proof. unfold mid_head. cbn [nth]. lia. Qed.

Lemma inv_if_head d (l : list N) : mid_head l -> mid_head (inv_if d l).
Proof. unfold mid_head. destruct d, l; cbn [inv_if invert map nth]; unfold not8; lia. Qed.

Definition var_body (v : list N) : list N :=
  match v with [] => [EMPTY_SENTINEL] | _ => encode_nonempty v end.

Lemma encode_one_some o v : encode_one o (Some v) = inv_if (descending o) (var_body v).
Proof.
  unfold encode_one, var_body, encode_empty. destruct v as [|p v]; [|reflexivity].
  destruct (descending o); reflexivity.
Qed.

(* what is proved of var_body, in this file and in those after it, goes through this lemma alone;
   only encode_one_length looks at encode_nonempty again, whose two cases are those of padded_length *)
Lemma var_body_blocks v : v <> [] ->
  exists out, var_body v = NON_EMPTY_SENTINEL :: out /\ blocks sched 0 v out.
Proof. intros Nv. destruct v as [|p v]; [congruence | exact (encode_nonempty_blocks (p :: v) Nv)]. Qed.

Theorem var_body_strong (P : list N -> Prop) : strong P var_body lex.
Proof.
  intros v w x y _ _. destruct v as [|p v], w as [|q w].
  - apply lex_cons_same.
  - destruct (var_body_blocks (q :: w)) as (ow & -> & _); [discriminate|]. reflexivity.
  - destruct (var_body_blocks (p :: v)) as (ov & -> & _); [discriminate|]. reflexivity.
  - destruct (var_body_blocks (p :: v)) as (ov & -> & Hv); [discriminate|].
    destruct (var_body_blocks (q :: w)) as (ow & -> & Hw); [discriminate|].
    cbn [app]. rewrite lex_cons_same. exact (blocks_strong sched sched_lt 0 _ _ Hv _ _ x y Hw).
Qed.

Lemma strong_var_of {A} (P : A -> Prop) (g : A -> list N) c :
  strong P g c -> strong P (fun a => var_body (g a)) c.
Proof. exact (strong_comp P (fun _ => True) var_body g c (var_body_strong _) (fun _ _ => I)). Qed.

Lemma var_body_wf v : wf_bytes v -> wf_bytes (var_body v).
Proof.
  intros Wv. destruct v as [|p v].
  - constructor; [unfold wf_byte, EMPTY_SENTINEL; lia|constructor].
  - destruct (var_body_blocks (p :: v)) as (out & -> & H); [discriminate|].
    constructor; [unfold wf_byte, NON_EMPTY_SENTINEL; lia|]. exact (blocks_wf sched sched_lt 0 _ out H Wv).
Qed.

Lemma var_body_head v : mid_head (var_body v).
Proof.
  destruct v as [|p v]; [unfold mid_head, var_body, EMPTY_SENTINEL; cbn [nth]; lia|].
  destruct (var_body_blocks (p :: v)) as (out & -> & _); [discriminate|].
  unfold mid_head, NON_EMPTY_SENTINEL. cbn [nth]. lia.
Qed.

Lemma encode_one_some_head o b : mid_head (encode_one o (Some b)).
Proof. rewrite encode_one_some. apply inv_if_head, var_body_head. Qed.

Lemma encode_one_nonempty o v : encode_one o v <> [].
Proof. destruct v as [b|]; [apply mid_head_nonempty, encode_one_some_head | discriminate]. Qed.

Lemma encode_one_some_length o b : b <> [] -> (2 <= length (encode_one o (Some b)))%nat.
Proof.
  intros Nb. rewrite encode_one_some, inv_if_length. destruct (var_body_blocks b Nb) as (out & -> & H).
  pose proof (blocks_length_ge _ _ _ _ H). cbn [length]. lia.
Qed.

Lemma encode_one_wf o b : wf_bytes b -> wf_bytes (encode_one o (Some b)).
Proof. intros H. rewrite encode_one_some. now apply inv_if_wf, var_body_wf. Qed.

Lemma var_strong_asc nf v w x y :
  lex (encode_one (mkOpts false nf) (Some v) ++ x) (encode_one (mkOpts false nf) (Some w) ++ y)
  = match lex v w with Eq => lex x y | c => c end.
Proof. rewrite !encode_one_some. exact (var_body_strong (fun _ => True) v w x y I I). Qed.

Lemma ceil_small n B : (1 <= n)%nat -> (n <= B)%nat -> ceil n B = 1%nat.
Proof.
  intros H1 H2. unfold ceil. destruct (Nat.eq_dec n B) as [->|Hne].
  - rewrite Nat.div_same, Nat.mod_same by lia. reflexivity.
  - rewrite Nat.div_small, Nat.mod_small by lia. destruct (Nat.eqb_spec n 0); [lia|reflexivity].
Qed.

Lemma ceil_step n B : (0 < B)%nat -> (B < n)%nat -> ceil n B = S (ceil (n - B) B).
Proof.
  intros HB Hn. unfold ceil. replace n with ((n - B) + 1 * B)%nat at 1 2 by lia.
  rewrite Nat.div_add, Nat.mod_add by lia. lia.
Qed.

Lemma blocks_length B st v out : (0 < B)%nat -> blocks (fun _ => B) st v out ->
  length out = (ceil (length v) B * (B + 1))%nat.
Proof.
  intros HB. induction 1 as [st v Nv Lv|st u v out Lu Hv IH]; cbn beta in *.
  - rewrite blk_length by exact Lv. rewrite ceil_small; [lia | destruct v; [congruence|cbn [length]; lia] | exact Lv].
  - pose proof (blocks_data _ _ _ _ Hv) as Nv. rewrite !app_length. cbn [length]. rewrite IH.
    rewrite (ceil_step (length u + length v) B) by (destruct v; [congruence | cbn [length]; lia]).
    replace (length u + length v - B)%nat with (length v) by lia. lia.
Qed.

Lemma set_last_length (l : list N) x : l <> [] -> length (set_last l x) = length l.
Proof.
  intros Nl. unfold set_last. rewrite app_length. cbn [length].
  destruct (exists_last Nl) as (l' & a & ->). rewrite removelast_last, app_length. cbn [length]. lia.
Qed.

Lemma encode_blocks_length B (v : list N) : (0 < B)%nat -> v <> [] ->
  length (encode_blocks B v) = (ceil (length v) B * (B + 1))%nat.
Proof. intros HB Nv. exact (blocks_length B 0 v _ HB (encode_blocks_blocks B 0 v HB Nv)). Qed.

(* variable::padded_length, the row length pre-computed by row_lengths, is the encoded length *)
Theorem encode_one_length o (v : option (list N)) :
  length (encode_one o v) = padded_length (option_map (@length N) v).
Proof.
  destruct v as [v|]; [|reflexivity]. cbn [option_map padded_length].
  destruct v as [|p v]; [reflexivity|].
  set (b := p :: v). assert (Nb : b <> []) by discriminate.
  rewrite encode_one_some, inv_if_length. unfold var_body, b at 1, encode_nonempty, non_null_padded_length.
  assert (HM : (0 < MINI_BLOCK_SIZE)%nat) by (unfold MINI_BLOCK_SIZE; lia).
  assert (HB : (0 < BLOCK_SIZE)%nat) by (unfold BLOCK_SIZE; lia).
  destruct (Nat.leb_spec (length b) BLOCK_SIZE) as [L|L].
  - cbn [length]. rewrite encode_blocks_length by assumption. reflexivity.
  - cbn [length]. rewrite app_length.
    destruct (long_split b L) as (Hf & Nf & Ns).
    rewrite set_last_length by exact (blocks_out _ _ _ _ (encode_blocks_blocks MINI_BLOCK_SIZE 0 _ HM Nf)).
    rewrite !encode_blocks_length by assumption.
    rewrite Hf, skipn_length. rewrite (ceil_step (length b) BLOCK_SIZE) by lia.
    change (ceil BLOCK_SIZE MINI_BLOCK_SIZE) with MINI_BLOCK_COUNT.
    unfold MINI_BLOCK_COUNT, MINI_BLOCK_SIZE, BLOCK_SIZE. lia.
Qed.
