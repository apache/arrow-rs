(* C12 — proofs about the fixed-width integer vocabulary: every checked op is exact-or-Overflow,
   every wrapping op is the exact result reduced into the type, div/rem error exactly on a zero
   divisor (and MIN / -1 for div).  Parametric in the half-modulus H > 0. *)
From Coq Require Import ZArith Bool Lia Zquot.
From AV Require Import Model.C12_Int.
Local Open Scope Z_scope.

Lemma quot_bound a b : b <> 0 -> Z.abs (Z.quot a b) <= Z.abs a.
Proof.
  intros Hb.
  rewrite <- Z.quot_abs by assumption.
  assert (Ha : 0 <= Z.abs a) by apply Z.abs_nonneg.
  assert (Hb' : 0 < Z.abs b) by lia.
  generalize dependent (Z.abs a). generalize dependent (Z.abs b). clear a b Hb. intros b Hb a Ha.
  pose proof (Z.quot_pos a b Ha Hb).
  pose proof (Z.mul_quot_le a b Ha ltac:(lia)).
  nia.
Qed.

Lemma quot_sign_pos a b : 0 <= a -> 0 < b -> 0 <= Z.quot a b.
Proof. intros. apply Z.quot_pos; assumption. Qed.

Lemma quot_sign a b : if Bool.eqb (a <? 0) (b <? 0) then 0 <= Z.quot a b else Z.quot a b <= 0.
Proof.
  destruct (Z.eq_dec b 0) as [->|Nb]; [rewrite Zquot.Zquot_0_r; destruct (Bool.eqb _ _); lia|].
  destruct (Z.ltb_spec a 0), (Z.ltb_spec b 0); cbn [Bool.eqb].
  - rewrite <- (Z.quot_opp_opp a b) by lia. apply Z.quot_pos; lia.
  - rewrite <- (Z.opp_involutive a), Z.quot_opp_l, Z.opp_nonpos_nonneg by lia. apply Z.quot_pos; lia.
  - rewrite <- (Z.opp_involutive b), Z.quot_opp_r, Z.opp_nonpos_nonneg by lia. apply Z.quot_pos; lia.
  - apply Z.quot_pos; lia.
Qed.

Lemma sign_mul x y : x <> 0 -> y <> 0 -> xorb (x <? 0) (y <? 0) = (x * y <? 0).
Proof.
  intros Nx Ny. destruct (Z.ltb_spec x 0), (Z.ltb_spec y 0), (Z.ltb_spec (x * y) 0); try reflexivity; nia.
Qed.

Lemma rem_m1 a : Z.rem a (-1) = 0.
Proof. change (-1) with (- (1)). rewrite Z.rem_opp_r by lia. apply Z.rem_1_r. Qed.

Section Width.
Variable H : Z.

Lemma in_range_iff s z : in_range s H z = true <-> tmin s H <= z <= tmax s H.
Proof. unfold in_range. rewrite andb_true_iff, !Z.leb_le. tauto. Qed.

Lemma wrap_small s z : in_range s H z = true -> wrap s H z = z.
Proof.
  intros R. apply in_range_iff in R. unfold wrap, tmin, tmax in *. destruct s.
  - rewrite Z.mod_small by lia. lia.
  - apply Z.mod_small. lia.
Qed.

Lemma wrap_proper s x y : eqm (2 * H) x y -> wrap s H x = wrap s H y.
Proof.
  unfold eqm, wrap. intros E. destruct s; [|exact E]. f_equal. now rewrite Zplus_mod, E, <- Zplus_mod.
Qed.

Theorem neg_checked_spec s a : in_range s H a = true -> neg_checked s H a = spec_neg s H a.
Proof.
  intros Ra. apply in_range_iff in Ra.
  destruct s; unfold neg_checked, checked_neg, spec_neg, in_range, tmin, tmax in *.
  - (* signed: - a is in range iff a is not MIN *)
    destruct (Z.eqb_spec a (- H)), (Z.leb_spec (- H) (- a)), (Z.leb_spec (- a) (H - 1)); try reflexivity; lia.
  - destruct (Z.eqb_spec a 0) as [->|N].
    + change (- 0) with 0. now rewrite (proj2 (Z.leb_le 0 (2 * H - 1))) by lia.
    + now rewrite (proj2 (Z.leb_gt 0 (- a))) by lia.
Qed.

Lemma mod_checked_spec s a b : mod_checked s H a b =
  if b =? 0 then Err E_DIVZERO
  else if s && (a =? tmin s H) && (b =? -1) then Err E_OVERFLOW else Ok (Z.rem a b).
Proof.
  unfold mod_checked, checked_rem. destruct (b =? 0); [reflexivity|]. cbn [orb].
  now destruct (s && (a =? tmin s H) && (b =? -1)).
Qed.

(* The trait method mod_checked deviates from exact-or-error at MIN % -1 (the kernel does not use it
   for integers: integer_op goes through mod_wrapping, here wrapping_rem, see integer_op_elem_spec). *)
Lemma mod_checked_min_neg1 : mod_checked true H (- H) (-1) = Err E_OVERFLOW /\ Z.rem (- H) (-1) = 0.
Proof.
  split; [|apply rem_m1]. rewrite mod_checked_spec. cbn [andb tmin]. now rewrite Z.eqb_refl.
Qed.

(* What follows needs the half-modulus positive; after the section these lemmas take [Hpos], the
   ones above do not. *)
Section Positive.
Hypothesis Hpos : 0 < H.

Lemma wrap_in_range s z : in_range s H (wrap s H z) = true.
Proof.
  apply in_range_iff. unfold wrap, tmin, tmax. destruct s.
  - pose proof (Z.mod_pos_bound (z + H) (2 * H) ltac:(lia)). lia.
  - pose proof (Z.mod_pos_bound z (2 * H) ltac:(lia)). lia.
Qed.

Lemma wrap_fix_iff s z : wrap s H z = z <-> in_range s H z = true.
Proof.
  split; [|apply wrap_small]. intros E. rewrite <- E. apply wrap_in_range.
Qed.

Lemma wrap_cong s z : exists k, wrap s H z = z + k * (2 * H).
Proof.
  unfold wrap. destruct s.
  - exists (- ((z + H) / (2 * H))). pose proof (Z.div_mod (z + H) (2 * H) ltac:(lia)). lia.
  - exists (- (z / (2 * H))). pose proof (Z.div_mod z (2 * H) ltac:(lia)). lia.
Qed.

Lemma wrap_eqm s z : eqm (2 * H) (wrap s H z) z.
Proof. destruct (wrap_cong s z) as [k ->]. apply Z_mod_plus_full. Qed.

Lemma wrap_unique s z r k : in_range s H r = true -> r = z + k * (2 * H) -> r = wrap s H z.
Proof.
  intros R E. apply in_range_iff in R. unfold wrap, tmin, tmax in *. destruct s.
  - replace (z + H) with ((r + H) + (- k) * (2 * H)) by lia.
    rewrite Z.mod_add by lia. rewrite Z.mod_small by lia. lia.
  - replace z with (r + (- k) * (2 * H)) by lia.
    rewrite Z.mod_add by lia. rewrite Z.mod_small by lia. lia.
Qed.

Lemma std_checked_spec s z :
  std_checked s H z = if in_range s H z then Some z else None.
Proof.
  unfold std_checked, overflowing.
  destruct (in_range s H z) eqn:R.
  - rewrite (wrap_small s z R), Z.eqb_refl. reflexivity.
  - destruct (Z.eqb_spec (wrap s H z) z) as [E|E]; [|reflexivity].
    apply wrap_fix_iff in E. congruence.
Qed.

Lemma quot_in_range s a b :
  in_range s H a = true -> in_range s H b = true -> b <> 0 ->
  in_range s H (Z.quot a b) = negb (s && (a =? tmin s H) && (b =? -1)).
Proof.
  intros Ra Rb Hb. apply in_range_iff in Ra. apply in_range_iff in Rb.
  pose proof (quot_bound a b Hb) as Q.
  destruct s; cbn [andb negb]; unfold tmin, tmax in *.
  - destruct (Z.eqb_spec a (- H)) as [Ea|Ea]; cbn [andb negb].
    + destruct (Z.eqb_spec b (-1)) as [Eb|Eb]; cbn [negb].
      * subst a b. change (-1) with (- (1)). rewrite Z.quot_opp_r, Z.quot_1_r by lia.
        unfold in_range, tmin, tmax. apply andb_false_iff. right. apply Z.leb_gt. lia.
      * apply in_range_iff. unfold tmin, tmax. subst a.
        (* |b| >= 2 or b = 1 *)
        destruct (Z.eq_dec b 1) as [E1|E1].
        { subst b. rewrite Z.quot_1_r. lia. }
        assert (Hb2 : 2 <= Z.abs b) by lia.
        assert (A : Z.abs (- H) = H) by lia.
        assert (Z.quot H (Z.abs b) <= Z.quot H 2).
        { apply Z.quot_le_compat_l; lia. }
        assert (Z.quot H 2 < H) by (apply Z.quot_lt; lia).
        assert (A2 : Z.abs (Z.quot (- H) b) < H).
        { rewrite <- Z.quot_abs by assumption. rewrite A. lia. }
        lia.
    + cbn [negb]. apply in_range_iff. unfold tmin, tmax. lia.
  - apply in_range_iff. unfold tmin, tmax.
    pose proof (Z.quot_pos a b ltac:(lia) ltac:(lia)). lia.
Qed.

Lemma rem_in_range s a b : in_range s H a = true -> b <> 0 -> in_range s H (Z.rem a b) = true.
Proof.
  intros Ra Hb. apply in_range_iff in Ra. apply in_range_iff.
  destruct (Z_le_gt_dec 0 a) as [Ha|Ha].
  - pose proof (Zrem_lt_pos a b Ha Hb).
    assert (Z.rem a b <= a).
    { rewrite <- (Z.rem_abs_r a b) by assumption. apply Z.rem_le; lia. }
    destruct s; unfold tmin, tmax in *; lia.
  - pose proof (Zrem_lt_neg a b ltac:(lia) Hb).
    assert (a <= Z.rem a b).
    { assert (E : Z.rem a b = - Z.rem (- a) (Z.abs b)).
      { rewrite Z.rem_abs_r by assumption. rewrite Z.rem_opp_l by assumption. ring. }
      rewrite E. pose proof (Z.rem_le (- a) (Z.abs b) ltac:(lia) ltac:(lia)). lia. }
    destruct s; unfold tmin, tmax in *; lia.
Qed.

Lemma of_opt_std_checked s z : of_opt (std_checked s H z) = if in_range s H z then Ok z else Err E_OVERFLOW.
Proof. rewrite std_checked_spec. now destruct (in_range s H z). Qed.
Lemma add_checked_spec s a b : add_checked s H a b = if in_range s H (a + b) then Ok (a + b) else Err E_OVERFLOW.
Proof. apply of_opt_std_checked. Qed.
Lemma sub_checked_spec s a b : sub_checked s H a b = if in_range s H (a - b) then Ok (a - b) else Err E_OVERFLOW.
Proof. apply of_opt_std_checked. Qed.
Lemma mul_checked_spec s a b : mul_checked s H a b = if in_range s H (a * b) then Ok (a * b) else Err E_OVERFLOW.
Proof. apply of_opt_std_checked. Qed.
Lemma div_checked_spec s a b : in_range s H a = true -> in_range s H b = true ->
  div_checked s H a b = if b =? 0 then Err E_DIVZERO
                        else if in_range s H (Z.quot a b) then Ok (Z.quot a b) else Err E_OVERFLOW.
Proof.
  intros Ra Rb. unfold div_checked. destruct (Z.eqb_spec b 0) as [Eb|Eb]; [reflexivity|].
  unfold checked_div. rewrite (proj2 (Z.eqb_neq b 0) Eb). cbn [orb].
  rewrite (quot_in_range s a b Ra Rb Eb).
  now destruct (s && (a =? tmin s H) && (b =? -1)).
Qed.

Theorem integer_op_elem_spec s op a b :
  in_range s H a = true -> in_range s H b = true ->
  integer_op_elem s H op a b = spec_scalar s H op a b.
Proof.
  intros Ra Rb. unfold integer_op_elem, spec_scalar.
  destruct op; cbn [is_divrem is_wrapping andb exact_op]; try reflexivity.
  - apply add_checked_spec.
  - apply sub_checked_spec.
  - apply mul_checked_spec.
  - now apply div_checked_spec.
  - destruct (Z.eqb_spec b 0) as [Eb|Eb]; [reflexivity|].
    rewrite (rem_in_range s a b Ra Eb). unfold wrapping_rem.
    destruct s; cbn [andb]; [|reflexivity].
    destruct (Z.eqb_spec b (-1)) as [E1|E1]; [|reflexivity].
    subst b. now rewrite rem_m1.
Qed.

Theorem integer_op_elem_in_range s op a b z :
  in_range s H a = true -> in_range s H b = true ->
  integer_op_elem s H op a b = Ok z -> in_range s H z = true.
Proof.
  intros Ra Rb. rewrite (integer_op_elem_spec s op a b Ra Rb). unfold spec_scalar.
  destruct (is_divrem op && (b =? 0)) eqn:D; [discriminate|].
  destruct (is_wrapping op) eqn:Wp.
  - intros E. inversion E. apply wrap_in_range.
  - destruct (in_range s H (exact_op op a b)) eqn:R; [|discriminate]. intros E. inversion E. subst. exact R.
Qed.

End Positive.
End Width.

Example ex_div_min_neg1 : integer_op_elem true 128 Div (-128) (-1) = Err E_OVERFLOW.
Proof. vm_compute. reflexivity. Qed.
Example ex_rem_min_neg1 : integer_op_elem true 128 Rem (-128) (-1) = Ok 0.
Proof. vm_compute. reflexivity. Qed.
Example ex_add_wrap : integer_op_elem true 128 AddWrapping 127 1 = Ok (-128).
Proof. vm_compute. reflexivity. Qed.
Example ex_mul_u8 : integer_op_elem false 128 Mul 16 16 = Err E_OVERFLOW /\ integer_op_elem false 128 Mul 15 17 = Ok 255.
Proof. vm_compute. split; reflexivity. Qed.
