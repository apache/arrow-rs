(* C16 — every operation is a composition of five primitive updates (set_slot, push_slot, add_node,
   write_reg, set_resv).  What each of them does to the reference counts, the nodes and the slots,
   that each keeps [Raw] (what may happen before [settle]), and the two slot updates its refinement [RawA]:
   this is what C16_Exec.v builds the node phase and the slot phase of an operation from.  Then, of the
   helpers of the model, over which regions the results of filter_nulls, finish_handles, rebuilt and
   slice_bits are (the side conditions of the operations are lists of regions) and, as plain facts about
   them, what truncate_reg, claim_regs, sliced, export_arr and import_arr leave alone.  Last the tables
   [opR] / [opA] / [opT]: the slots whose references an operation may duplicate, those references, the
   slots it may overwrite. *)
From Coq Require Import List ZArith Lia.
From AV Require Import Model.C16_Own Proofs.C16_Inv.
Import ListNotations.

(* references held by the object in slot i *)
Definition acts (s : state) (i : nat) : list nat := slot_refs (nth i (slots s) None).

Lemma flat_map_upd_same {A} (f : A -> list nat) l i x y :
  nth_error l i = Some x -> f y = f x -> flat_map f (upd_nth i y l) = flat_map f l.
Proof.
  revert i; induction l as [|h t IH]; intros [|i] H E; cbn in *; try discriminate.
  - injection H as ->. rewrite E. reflexivity.
  - f_equal. apply IH; auto.
Qed.

Lemma count_flat_map_nth {A} (f : A -> list nat) l j x id :
  nth_error l j = Some x -> count_occ Nat.eq_dec (f x) id <= count_occ Nat.eq_dec (flat_map f l) id.
Proof.
  revert j; induction l as [|h t IH]; intros [|j] H; cbn in *; try discriminate.
  - injection H as ->. rewrite count_occ_app. lia.
  - rewrite count_occ_app. specialize (IH j H). lia.
Qed.

Lemma in_skipn' {A} k (l : list A) x : In x (skipn k l) -> In x l.
Proof. intros H. rewrite <- (firstn_skipn k l). apply in_or_app. auto. Qed.

Lemma nth_error_app_last {A} (l : list A) x : nth_error (l ++ [x]) (length l) = Some x.
Proof. rewrite nth_error_app2 by lia. rewrite Nat.sub_diag. reflexivity. Qed.

Lemma refs_nth_le (l : list (option obj)) i id :
  count_occ Nat.eq_dec (slot_refs (nth i l None)) id <= count_occ Nat.eq_dec (flat_map slot_refs l) id.
Proof.
  destruct (nth_error l i) as [so|] eqn:E.
  - rewrite (nth_error_nth _ _ _ E). apply (count_flat_map_nth slot_refs l i so id E).
  - rewrite nth_overflow by (apply nth_error_None; exact E). apply Nat.le_0_l.
Qed.
Lemma acts_le_slots s i id : count_occ Nat.eq_dec (acts s i) id <= count_occ Nat.eq_dec (flat_map slot_refs (slots s)) id.
Proof. apply refs_nth_le. Qed.
Lemma acts_le_cnt s i id : count_occ Nat.eq_dec (acts s i) id <= cnt s id.
Proof. unfold cnt, all_refs. rewrite count_occ_app. pose proof (acts_le_slots s i id). lia. Qed.

Lemma acts_incl s i : incl (acts s i) (all_refs s).
Proof.
  intros id H. apply in_refs_cnt. apply (count_occ_In Nat.eq_dec) in H. pose proof (acts_le_cnt s i id). lia.
Qed.

Lemma count_two_slots s i j id : i <> j ->
  count_occ Nat.eq_dec (acts s i) id + count_occ Nat.eq_dec (acts s j) id <= cnt s id.
Proof.
  intros Hne. unfold cnt, all_refs, acts. rewrite count_occ_app.
  enough (G : forall l i j, i <> j ->
             count_occ Nat.eq_dec (slot_refs (nth i l None)) id + count_occ Nat.eq_dec (slot_refs (nth j l None)) id
             <= count_occ Nat.eq_dec (flat_map slot_refs l) id) by (specialize (G (slots s) i j Hne); lia).
  induction l as [|h t IH]; intros [|i'] [|j'] Hn; cbn [nth flat_map]; rewrite ?count_occ_app; try (cbn; lia).
  - pose proof (refs_nth_le t j' id). lia.
  - pose proof (refs_nth_le t i' id). lia.
  - assert (i' <> j') by lia. specialize (IH i' j' H). lia.
Qed.

Lemma get_slot_acts s i o : get_slot s i = Some o -> acts s i = obj_refs o.
Proof.
  unfold get_slot, acts. destruct (nth_error (slots s) i) as [[o'|]|] eqn:E; try discriminate.
  intros H. injection H as ->. rewrite (nth_error_nth _ _ _ E). reflexivity.
Qed.

Lemma get_slot_refs s i o id : get_slot s i = Some o -> In id (obj_refs o) -> In id (all_refs s).
Proof. intros H Hi. apply (acts_incl s i). rewrite (get_slot_acts _ _ _ H). exact Hi. Qed.

Lemma get_slot_lt s j o : get_slot s j = Some o -> j < length (slots s).
Proof. unfold get_slot. intros H. apply nth_error_Some. destruct (nth_error (slots s) j); [discriminate|discriminate H]. Qed.

Lemma slot_k_some s i k hs : slot_k s i k = Some hs ->
  exists o, get_slot s i = Some o /\ okind o = k /\ ohs o = hs.
Proof.
  unfold slot_k. destruct (get_slot s i) as [o|]; [|discriminate].
  destruct (Nat.eqb_spec (okind o) k); [|discriminate]. intros H. injection H as <-. eauto.
Qed.
Lemma slot_1_some s i k h : slot_1 s i k = Some h ->
  exists o, get_slot s i = Some o /\ okind o = k /\ ohs o = [h].
Proof.
  unfold slot_1. destruct (slot_k s i k) as [hs|] eqn:E; [|discriminate].
  destruct hs as [|h0 [|]]; try discriminate. intros H. injection H as <-. apply slot_k_some; auto.
Qed.

Lemma slot_1_k s i k h : slot_1 s i k = Some h -> slot_k s i k = Some [h].
Proof. unfold slot_1. destruct (slot_k s i k) as [[|h0 [|]]|]; try discriminate. intros H. injection H as <-. reflexivity. Qed.

Lemma slot_k_acts s i k hs : slot_k s i k = Some hs -> acts s i = map hreg hs.
Proof. intros H. apply slot_k_some in H as (o & Ho & _ & E). rewrite (get_slot_acts _ _ _ Ho). unfold obj_refs. rewrite E. reflexivity. Qed.
Lemma slot_1_acts s i k h : slot_1 s i k = Some h -> acts s i = [hreg h].
Proof. intros H. apply slot_1_some in H as (o & Ho & _ & E). rewrite (get_slot_acts _ _ _ Ho). unfold obj_refs. rewrite E. reflexivity. Qed.

Lemma slot_k_ref s i k hs h : slot_k s i k = Some hs -> In h hs -> In (hreg h) (all_refs s).
Proof. intros H Hi. apply (acts_incl s i). rewrite (slot_k_acts _ _ _ _ H). apply in_map. exact Hi. Qed.
Lemma slot_1_ref s i k h : slot_1 s i k = Some h -> In (hreg h) (all_refs s).
Proof. intros H. apply (acts_incl s i). rewrite (slot_1_acts _ _ _ _ H). left. reflexivity. Qed.

Lemma cnt_push o s id : cnt (push_slot o s) id = cnt s id + count_occ Nat.eq_dec (slot_refs o) id.
Proof.
  unfold cnt, all_refs, push_slot. cbn [slots nodes]. rewrite flat_map_app, !count_occ_app. cbn [flat_map].
  rewrite app_nil_r. lia.
Qed.
Lemma cnt_add n s id : cnt (add_node n s) id = cnt s id + count_occ Nat.eq_dec (node_refs n) id.
Proof.
  unfold cnt, all_refs, add_node. cbn [slots nodes]. rewrite flat_map_app, !count_occ_app. cbn [flat_map].
  rewrite app_nil_r. lia.
Qed.
Lemma cnt_set j o s id : j < length (slots s) ->
  cnt (set_slot j o s) id + count_occ Nat.eq_dec (acts s j) id = cnt s id + count_occ Nat.eq_dec (slot_refs o) id.
Proof.
  intros H. destruct (nth_error (slots s) j) as [x|] eqn:E; [|apply nth_error_None in E; lia].
  unfold acts. rewrite (nth_error_nth _ _ _ E).
  unfold cnt, all_refs, set_slot. cbn [slots nodes]. rewrite !count_occ_app.
  pose proof (count_flat_map_upd slot_refs (slots s) j x o id E). lia.
Qed.
Lemma cnt_set_le j o s id : cnt (set_slot j o s) id <= cnt s id + count_occ Nat.eq_dec (slot_refs o) id.
Proof.
  destruct (Nat.lt_ge_cases j (length (slots s))) as [H|H]; [pose proof (cnt_set j o s id H); lia|].
  unfold cnt, all_refs, set_slot. cbn [slots nodes]. rewrite upd_nth_oob by exact H. lia.
Qed.

Lemma in_refs_split s s' l id : cnt s' id <= cnt s id + count_occ Nat.eq_dec l id ->
  In id (all_refs s') -> In id l \/ In id (all_refs s).
Proof.
  intros H Hin. apply in_refs_cnt in Hin. destruct (in_dec Nat.eq_dec id l) as [Hl|Hl]; [left; exact Hl|right].
  apply in_refs_cnt. apply (count_occ_not_In Nat.eq_dec) in Hl. lia.
Qed.

Lemma all_refs_upd_same s id n n' p : node_at s id n -> node_refs n' = node_refs n ->
  all_refs (mkS (upd_nth id n' (nodes s)) (slots s) p) = all_refs s.
Proof. intros H E. unfold all_refs. cbn [slots nodes]. rewrite (flat_map_upd_same node_refs _ _ _ _ H E). reflexivity. Qed.
Lemma all_refs_write id b s : all_refs (write_reg id b s) = all_refs s.
Proof.
  unfold write_reg, get_reg. destruct (nth_error (nodes s) id) as [[r|e]|] eqn:E; auto.
  unfold set_reg. apply all_refs_upd_same with (n := NReg r); auto.
Qed.
Lemma all_refs_set_resv id v s : all_refs (set_resv id v s) = all_refs s.
Proof.
  unfold set_resv, get_reg. destruct (nth_error (nodes s) id) as [[r|e]|] eqn:E; auto.
  apply all_refs_upd_same with (n := NReg r); auto.
Qed.
Lemma cnt_write id b s x : cnt (write_reg id b s) x = cnt s x.
Proof. unfold cnt. rewrite all_refs_write. reflexivity. Qed.
Lemma cnt_truncate id n s x : cnt (truncate_reg s id n) x = cnt s x.
Proof. apply cnt_write. Qed.
Lemma cnt_set_resv id v s x : cnt (set_resv id v s) x = cnt s x.
Proof. unfold cnt. rewrite all_refs_set_resv. reflexivity. Qed.
Lemma claim_regs_keeps {A} (f : state -> A) : (forall id v s, f (set_resv id v s) = f s) ->
  forall ids s, f (claim_regs ids s) = f s.
Proof. intros H ids. unfold claim_regs. induction ids as [|i t IH]; intros s; [reflexivity|]. cbn [fold_left]. rewrite IH. apply H. Qed.
Lemma cnt_claim_regs ids s x : cnt (claim_regs ids s) x = cnt s x.
Proof. apply (claim_regs_keeps (fun s => cnt s x)). intros. apply cnt_set_resv. Qed.

Lemma slots_write id b s : slots (write_reg id b s) = slots s.
Proof. unfold write_reg. destruct (get_reg s id); reflexivity. Qed.
Lemma slots_truncate id n s : slots (truncate_reg s id n) = slots s.
Proof. apply slots_write. Qed.
Lemma slots_set_resv id v s : slots (set_resv id v s) = slots s.
Proof. unfold set_resv. destruct (get_reg s id); reflexivity. Qed.
Lemma slots_claim_regs ids s : slots (claim_regs ids s) = slots s.
Proof. apply (claim_regs_keeps slots slots_set_resv). Qed.

Lemma write_reg_len id b s : length (nodes (write_reg id b s)) = length (nodes s).
Proof. unfold write_reg. destruct (get_reg s id); [|reflexivity]. unfold set_reg. cbn [nodes]. apply upd_nth_length. Qed.
Lemma truncate_reg_len id n s : length (nodes (truncate_reg s id n)) = length (nodes s).
Proof. apply write_reg_len. Qed.
Lemma set_resv_len id v s : length (nodes (set_resv id v s)) = length (nodes s).
Proof. unfold set_resv. destruct (get_reg s id); [|reflexivity]. cbn [nodes]. apply upd_nth_length. Qed.
Lemma add_node_len n s : length (nodes (add_node n s)) = S (length (nodes s)).
Proof. unfold add_node. cbn [nodes]. rewrite app_length. cbn [length]. lia. Qed.

Lemma node_at_add_old n s id m : node_at s id m -> node_at (add_node n s) id m.
Proof. intros H. unfold node_at, add_node. cbn [nodes]. rewrite nth_error_app1 by (eapply node_at_lt; eauto). exact H. Qed.
Lemma node_at_add_inv n s id m : node_at (add_node n s) id m -> node_at s id m \/ (id = next_id s /\ m = n).
Proof.
  unfold node_at, add_node, next_id. cbn [nodes]. intros H.
  destruct (Nat.lt_ge_cases id (length (nodes s))) as [Hlt|Hge]; [rewrite nth_error_app1 in H by exact Hlt; auto|right].
  rewrite nth_error_app2 in H by exact Hge.
  destruct (id - length (nodes s)) as [|d] eqn:D; cbn in H; [|destruct d; discriminate]. injection H as <-. split; [lia|reflexivity].
Qed.

Lemma get_exp_last s e : get_exp (add_node (NExp e) s) (next_id s) = Some e.
Proof. unfold get_exp, add_node, next_id. cbn [nodes]. rewrite nth_error_app_last. reflexivity. Qed.
Lemma reg_bytes_last s r : reg_bytes (add_node (NReg r) s) (next_id s) = r_bytes r.
Proof. unfold reg_bytes, get_reg, add_node, next_id. cbn [nodes]. rewrite nth_error_app_last. reflexivity. Qed.

Lemma get_slot_ext s s' j : slots s' = slots s -> get_slot s' j = get_slot s j.
Proof. unfold get_slot. intros ->. reflexivity. Qed.
Lemma acts_ext s s' j : slots s' = slots s -> acts s' j = acts s j.
Proof. unfold acts. intros ->. reflexivity. Qed.

Lemma gs_push_lt o s j : j < length (slots s) -> get_slot (push_slot o s) j = get_slot s j.
Proof. intros H. unfold get_slot, push_slot. cbn [slots]. rewrite nth_error_app1 by exact H. reflexivity. Qed.
Lemma gs_push_eq o s : get_slot (push_slot o s) (length (slots s)) = o.
Proof. unfold get_slot, push_slot. cbn [slots]. rewrite nth_error_app_last. destruct o; reflexivity. Qed.
Lemma gs_set_eq j o s : j < length (slots s) -> get_slot (set_slot j o s) j = o.
Proof. intros H. unfold get_slot, set_slot. cbn [slots]. rewrite nth_error_upd_nth_eq by exact H. destruct o; reflexivity. Qed.
Lemma gs_set_ne j j' o s : j <> j' -> get_slot (set_slot j' o s) j = get_slot s j.
Proof. intros H. unfold get_slot, set_slot. cbn [slots]. rewrite nth_error_upd_nth_ne by auto. reflexivity. Qed.

Lemma gs_push_cases o' s' j o : get_slot (push_slot o' s') j = Some o ->
  (j < length (slots s') /\ get_slot s' j = Some o) \/ (j = length (slots s') /\ o' = Some o).
Proof.
  intros H. pose proof (get_slot_lt _ _ _ H) as Hlt. cbn [push_slot slots] in Hlt. rewrite app_length in Hlt. cbn [length] in Hlt.
  destruct (Nat.eq_dec j (length (slots s'))) as [->|Hne]; [right; rewrite gs_push_eq in H; auto|left].
  assert (Hj : j < length (slots s')) by lia. rewrite gs_push_lt in H by exact Hj. auto.
Qed.
Lemma gs_set_cases i o' s' j o : get_slot (set_slot i o' s') j = Some o ->
  (j <> i /\ get_slot s' j = Some o) \/ (j = i /\ i < length (slots s') /\ o' = Some o).
Proof.
  intros H. pose proof (get_slot_lt _ _ _ H) as Hlt. cbn [set_slot slots] in Hlt. rewrite upd_nth_length in Hlt.
  destruct (Nat.eq_dec j i) as [->|Hne]; [right; rewrite gs_set_eq in H by exact Hlt; auto|left; rewrite gs_set_ne in H by exact Hne; auto].
Qed.

Lemma OkRef_mono s s1 s2 id : length (nodes s1) <= length (nodes s2) -> OkRef s s1 id -> OkRef s s2 id.
Proof. intros L [H|[H1 H2]]; [left; auto|right; unfold Fresh; lia]. Qed.

Lemma raw_refl s : Raw s s.
Proof.
  constructor; auto.
  - intros id n H. exists n. auto.
  - intros id n H1 H2. apply node_at_lt in H2. lia.
  - intros id H. left. auto.
Qed.

Lemma raw_set_slot s s1 i o : Raw s s1 -> (forall id, In id (slot_refs o) -> OkRef s s1 id) -> Raw s (set_slot i o s1).
Proof.
  intros [L O N F P] H. constructor; auto.
  intros id Hin. apply in_refs_split with (s := s1) (l := slot_refs o) in Hin as [Hin|Hin]; [apply H|apply F|apply cnt_set_le]; exact Hin.
Qed.

Lemma raw_push_slot s s1 o : Raw s s1 -> (forall id, In id (slot_refs o) -> OkRef s s1 id) -> Raw s (push_slot o s1).
Proof.
  intros [L O N F P] H. constructor; auto.
  intros id Hin. apply in_refs_split with (s := s1) (l := slot_refs o) in Hin as [Hin|Hin]; [apply H; exact Hin|apply F; exact Hin|].
  rewrite cnt_push. lia.
Qed.

Lemma raw_add_node s s1 n : Raw s s1 -> node_rel n = 0 -> node_resv_live n = 0%Z ->
  (forall r, In r (node_refs n) -> OkRef s s1 r /\ r < length (nodes s1)) -> Raw s (add_node n s1).
Proof.
  intros [L O N F P] Hrel Hres H. constructor.
  - rewrite add_node_len. lia.
  - intros id n0 Hn0. destruct (O id n0 Hn0) as (n1 & Hn1 & Hr). exists n1. split; [apply node_at_add_old; exact Hn1|exact Hr].
  - intros id m Hge Hm. apply node_at_add_inv in Hm as [Hm|[-> ->]]; [apply N; auto|].
    split; [exact Hrel|]. intros r Hr. apply (H r Hr).
  - intros id Hin. apply OkRef_mono with (s1 := s1); [rewrite add_node_len; lia|].
    apply in_refs_split with (s := s1) (l := node_refs n) in Hin as [Hin|Hin]; [apply (H id Hin)|apply F; exact Hin|].
    rewrite cnt_add. lia.
  - unfold add_node. cbn [pool]. rewrite !live_resv_sum in *. cbn [nodes]. rewrite sum_resv_app.
    unfold sum_resv at 2. cbn [fold_right]. lia.
Qed.

Lemma raw_upd_node s s1 id n n' p' : Raw s s1 -> node_at s1 id n ->
  node_refs n' = node_refs n -> node_rel n' = node_rel n ->
  (p' - node_resv_live n' = pool s1 - node_resv_live n)%Z ->
  Raw s (mkS (upd_nth id n' (nodes s1)) (slots s1) p').
Proof.
  intros [L O N F P] Hn Hf Hr Hp. pose proof (node_at_lt _ _ _ Hn) as Hlt.
  assert (G : forall j m, node_at (mkS (upd_nth id n' (nodes s1)) (slots s1) p') j m ->
              exists m1, node_at s1 j m1 /\ node_rel m = node_rel m1 /\ node_refs m = node_refs m1).
  { unfold node_at. cbn [nodes]. intros j m Hm. destruct (Nat.eq_dec id j) as [<-|Hne].
    - rewrite nth_error_upd_nth_eq in Hm by exact Hlt. injection Hm as <-. eauto.
    - rewrite nth_error_upd_nth_ne in Hm by exact Hne. eauto. }
  constructor; cbn [nodes slots pool].
  - rewrite upd_nth_length. exact L.
  - intros j n0 Hn0. destruct (O j n0 Hn0) as (n1 & Hn1 & Hr1 & Hf1). unfold node_at in *. cbn [nodes].
    destruct (Nat.eq_dec id j) as [<-|Hne].
    + exists n'. rewrite nth_error_upd_nth_eq by exact Hlt. split; [reflexivity|]. split; congruence.
    + exists n1. rewrite nth_error_upd_nth_ne by exact Hne. auto.
  - intros j m Hge Hm. destruct (G j m Hm) as (m1 & Hm1 & -> & ->). apply (N j m1 Hge Hm1).
  - intros j Hin. rewrite (all_refs_upd_same s1 id n n' p' Hn Hf) in Hin.
    apply OkRef_mono with (s1 := s1); [cbn [nodes]; rewrite upd_nth_length; lia|apply F; exact Hin].
  - rewrite !live_resv_sum in *. cbn [nodes]. pose proof (sum_resv_upd (nodes s1) id n n' Hn). lia.
Qed.

Lemma raw_write_reg s s1 id b : Raw s s1 -> Raw s (write_reg id b s1).
Proof.
  intros R. unfold write_reg, get_reg. destruct (nth_error (nodes s1) id) as [[r|e]|] eqn:E; auto.
  unfold set_reg. apply raw_upd_node with (n := NReg r); auto.
Qed.

Lemma raw_truncate s s1 id len : Raw s s1 -> Raw s (truncate_reg s1 id len).
Proof. intros R. apply raw_write_reg. exact R. Qed.

Lemma raw_set_resv s s1 id v : Raw s s1 ->
  (forall r, get_reg s1 id = Some r -> r_rel r = 0) -> Raw s (set_resv id v s1).
Proof.
  intros R H. unfold set_resv. destruct (get_reg s1 id) as [r|] eqn:E; auto.
  unfold get_reg in E. destruct (nth_error (nodes s1) id) as [[r'|e]|] eqn:E2; try discriminate.
  injection E as ->. specialize (H r eq_refl).
  apply raw_upd_node with (n := NReg r); auto.
  cbn [node_resv_live with_resv r_rel r_resv]. rewrite H. lia.
Qed.

Lemma raw_nodes_len s s1 : Raw s s1 -> length (nodes s) <= length (nodes s1).
Proof. intros R. apply (raw_len _ _ R). Qed.

(* a region that an operation may refer to, old or new, has not been released *)
Lemma okref_rel0 s s1 id r : Inv s -> Raw s s1 -> OkRef s s1 id -> get_reg s1 id = Some r -> r_rel r = 0.
Proof.
  intros I R H Hg. unfold get_reg in Hg. destruct (nth_error (nodes s1) id) as [[r'|e]|] eqn:E; try discriminate.
  injection Hg as ->. destruct H as [Hin|[Hge _]]; [|exact (proj1 (raw_new _ _ R id (NReg r) Hge E))].
  destruct (inv1 _ I id Hin) as (n & Hn & Hr). destruct (raw_old _ _ R id n Hn) as (n1 & Hn1 & Hr1 & _).
  unfold node_at in Hn1. rewrite E in Hn1. injection Hn1 as <-. cbn in Hr1. lia.
Qed.

Lemma fresh_region_props b o c k :
  node_rel (NReg (fresh_region b o c k)) = 0 /\ node_resv_live (NReg (fresh_region b o c k)) = 0%Z.
Proof. split; reflexivity. Qed.

Lemma fresh_region_refs b o c k : (forall e, o <> OImp e) -> node_refs (NReg (fresh_region b o c k)) = [].
Proof. intros Ho. destruct o as [al|cu|e]; [reflexivity|reflexivity|destruct (Ho e eq_refl)]. Qed.
Lemma fresh_std_refs b a c k : node_refs (NReg (fresh_region b (OStd a) c k)) = [].
Proof. reflexivity. Qed.
Lemma fresh_cust_refs b a c k : node_refs (NReg (fresh_region b (OCust a) c k)) = [].
Proof. reflexivity. Qed.

Lemma OkRef_fresh_last s s1 n : Raw s s1 -> OkRef s (add_node n s1) (next_id s1).
Proof. intros R. right. unfold Fresh, next_id. rewrite add_node_len. pose proof (raw_len _ _ R). lia. Qed.

Section Ops.
  Variable s : state.
  (* A: the references the operation may duplicate (those of the objects it acts on);
     T: the slots it may overwrite *)
  Variable A : list nat.
  Hypothesis HA : incl A (all_refs s).
  Variable T : list nat.

  Definition OkA (s1 : state) (id : nat) : Prop := In id A \/ Fresh s s1 id.
  Lemma OkA_OkRef s1 id : OkA s1 id -> OkRef s s1 id.
  Proof. intros [H|H]; [left; apply HA; auto|right; auto]. Qed.
  Lemma OkA_mono s1 s2 id : length (nodes s1) <= length (nodes s2) -> OkA s1 id -> OkA s2 id.
  Proof. intros L [H|[H1 H2]]; [left; auto|right; unfold Fresh; lia]. Qed.

  Record RawA (s1 : state) : Prop := mkRawA {
    ra_raw : Raw s s1;
    ra_cnt : forall id, id < length (nodes s) -> ~ In id A -> cnt s1 id <= cnt s id;
    ra_slots : forall j, ~ In j T -> j < length (slots s) -> nth_error (slots s1) j = nth_error (slots s) j;
    ra_slen : length (slots s) <= length (slots s1) }.

  Lemma notA_count s1 (l : list nat) id : (forall x, In x l -> OkA s1 x) -> id < length (nodes s) -> ~ In id A ->
    count_occ Nat.eq_dec l id = 0.
  Proof.
    intros H Hlt HnA. apply count_occ_not_In. intros Hin. destruct (H id Hin) as [Hx|[Hx _]]; [auto|lia].
  Qed.

  Lemma rawA_refl : RawA s.
  Proof. constructor; auto. apply raw_refl. Qed.

  Lemma rawA_set_slot s1 j o : RawA s1 -> (forall id, In id (slot_refs o) -> OkA s1 id) -> In j T -> RawA (set_slot j o s1).
  Proof.
    intros [R C F L] H Hj. constructor.
    - apply raw_set_slot; [exact R|]. intros id Hid. apply OkA_OkRef, H, Hid.
    - intros id Hlt HnA. pose proof (cnt_set_le j o s1 id) as Hle.
      rewrite (notA_count s1 _ id H Hlt HnA) in Hle. specialize (C id Hlt HnA). lia.
    - intros j' Hn Hlt. rewrite <- (F j' Hn Hlt). unfold set_slot. cbn [slots]. apply nth_error_upd_nth_ne. intros ->. auto.
    - unfold set_slot. cbn [slots]. rewrite upd_nth_length. exact L.
  Qed.

  Lemma rawA_push_slot s1 o : RawA s1 -> (forall id, In id (slot_refs o) -> OkA s1 id) -> RawA (push_slot o s1).
  Proof.
    intros [R C F L] H. constructor.
    - apply raw_push_slot; [exact R|]. intros id Hid. apply OkA_OkRef, H, Hid.
    - intros id Hlt HnA. rewrite cnt_push, (notA_count s1 _ id H Hlt HnA). specialize (C id Hlt HnA). lia.
    - intros j' Hn Hlt. rewrite <- (F j' Hn Hlt). unfold push_slot. cbn [slots]. apply nth_error_app1. lia.
    - unfold push_slot. cbn [slots]. rewrite app_length. lia.
  Qed.

  Lemma raw_na0 : RawA (fst (na0 s)). Proof. apply rawA_refl. Qed.
  Lemma raw_na1 : RawA (fst (na1 s)). Proof. cbn. apply rawA_push_slot; [apply rawA_refl|intros ? []]. Qed.

  (* every region of the list may be referred to in [s1] *)
  Definition OkL (s1 : state) (l : list nat) : Prop := forall id, In id l -> OkA s1 id.
  Lemma OkL_mono s1 s2 l : length (nodes s1) <= length (nodes s2) -> OkL s1 l -> OkL s2 l.
  Proof. intros L H id Hin. eapply OkA_mono; eauto. Qed.
  Lemma OkL_incl s1 l l' : incl l' l -> OkL s1 l -> OkL s1 l'.
  Proof. intros Hi H id Hin. exact (H id (Hi id Hin)). Qed.
  Lemma OkL_A s1 l : incl l A -> OkL s1 l.
  Proof. intros H id Hin. left. exact (H id Hin). Qed.

  Lemma slot_1_inA i k h : incl (acts s i) A -> slot_1 s i k = Some h -> In (hreg h) (all_refs s).
  Proof. intros _ H. eapply slot_1_ref; eauto. Qed.
End Ops.

Lemma sliced_slots s n : slots (fst (sliced s n)) = slots s.
Proof. unfold sliced. destruct (_ =? 0); reflexivity. Qed.
Lemma sliced_cnt s n id : cnt (fst (sliced s n)) id = cnt s id.
Proof. unfold sliced. destruct (_ =? 0); cbn [fst]; [reflexivity|]. rewrite cnt_add. cbn. lia. Qed.
Lemma export_arr_slots s k c hs : slots (fst (export_arr s k c hs)) = slots s.
Proof.
  unfold export_arr. destruct (filter_nulls s hs) as [|v [|n [|]]]; try reflexivity.
  destruct (_ =? hbo n); [reflexivity|]. destruct (_ =? 0); [|reflexivity]. unfold sliced. destruct (_ =? 0); reflexivity.
Qed.
Lemma import_arr_slots s e : slots (fst (import_arr s e)) = slots s.
Proof.
  unfold import_arr. destruct (get_exp s e) as [ex|]; [|reflexivity]. destruct (e_bufs ex) as [|v rest]; [reflexivity|].
  destruct (_ =? 0); cbn [import_buf]; destruct rest; reflexivity.
Qed.

Lemma filter_nulls_incl s hs h : In h (filter_nulls s hs) -> In h hs.
Proof.
  unfold filter_nulls. destruct hs as [|v [|n [|]]]; auto.
  destruct (has_nulls s n); auto. intros [<-|[]]. left. auto.
Qed.
Lemma filter_nulls_cases s hs :
  filter_nulls s hs = hs \/ exists v n, hs = [v; n] /\ filter_nulls s hs = [v].
Proof.
  unfold filter_nulls. destruct hs as [|v [|n [|]]]; auto. destruct (has_nulls s n); [auto|right; eauto].
Qed.
Lemma filter_nulls_regs s hs : incl (map hreg (filter_nulls s hs)) (map hreg hs).
Proof. intros r Hr. apply in_map_iff in Hr as (h & <- & Hh). apply in_map. eapply filter_nulls_incl; eauto. Qed.
Lemma finish_handles_regs s hs : incl (map hreg (finish_handles s hs)) (map hreg hs).
Proof.
  unfold finish_handles. destruct hs as [|v [|n [|]]]; try apply incl_refl.
  eapply incl_tran; [apply filter_nulls_regs|apply incl_refl].
Qed.
Lemma rebuilt_regs hs : map hreg (rebuilt hs) = map hreg hs.
Proof. destruct hs as [|v [|n [|]]]; reflexivity. Qed.
Lemma slice_bits_regs a b l : map hreg (map (slice_bits a b) l) = map hreg l.
Proof. rewrite map_map. reflexivity. Qed.

(* [opR]: the slots whose references an operation may duplicate or move (codes 11, 13 and 23 take those of a
   second slot when their flag says so; code 19 only reads the bits of its second operand); [opA]: those
   references; [opT]: the slots it may overwrite (the same, but a stream leaves its batches where they are).
   R for "read"; A and T are what [RawA] calls A and T.  [two]: the codes with a second slot. *)
Definition slots2 (i a b : nat) : list nat := i :: if b =? 1 then [a] else [].
Definition two (p : op) : bool := (o_code p =? 11) || (o_code p =? 13) || (o_code p =? 23).
Definition opR (p : op) : list nat :=
  if o_code p <? 3 then [] else if two p then slots2 (o_a p) (o_b p) (o_c p) else [o_a p].
Definition opA (s : state) (p : op) : list nat := flat_map (acts s) (opR p).
Definition opT (p : op) : list nat := if o_code p =? 23 then [o_a p] else opR p.

Lemma opA_incl s p : incl (opA s p) (all_refs s).
Proof. intros id H. apply in_flat_map in H as (t & _ & H). exact (acts_incl s t id H). Qed.
Lemma opR_a p : 3 <= o_code p -> In (o_a p) (opR p).
Proof. intros H. unfold opR. destruct (Nat.ltb_spec (o_code p) 3); [lia|]. destruct (two p); left; reflexivity. Qed.
Lemma opR_b p : o_code p = 11 \/ o_code p = 13 \/ o_code p = 23 -> o_c p = 1 -> In (o_b p) (opR p).
Proof. intros [E|[E|E]] Hc; unfold opR, two, slots2; rewrite E, Hc; right; left; reflexivity. Qed.
Lemma opT_opR p j : In j (opT p) -> In j (opR p).
Proof.
  unfold opT. destruct (Nat.eqb_spec (o_code p) 23) as [E|_]; [|auto]. intros [<-|[]]. apply opR_a. rewrite E. lia.
Qed.
(* an operation with an operand may duplicate the references of slot [o_a p] and overwrite that slot; *)
Lemma opA_a s p : 3 <= o_code p -> incl (acts s (o_a p)) (opA s p).
Proof. intros H id Hin. apply in_flat_map. exists (o_a p). split; [exact (opR_a p H)|exact Hin]. Qed.
Lemma opT_a p : 3 <= o_code p -> In (o_a p) (opT p).
Proof. intros H. unfold opT. destruct (o_code p =? 23); [left; reflexivity|exact (opR_a p H)]. Qed.
(* with the flag set, the array constructors and the stream constructor may duplicate those of slot
   [o_b p], and the array constructors overwrite it *)
Lemma opA_b s p : o_code p = 11 \/ o_code p = 13 \/ o_code p = 23 -> o_c p = 1 -> incl (acts s (o_b p)) (opA s p).
Proof. intros H Hc id Hin. apply in_flat_map. exists (o_b p). split; [exact (opR_b p H Hc)|exact Hin]. Qed.
Lemma opT_b p : o_code p = 11 \/ o_code p = 13 -> o_c p = 1 -> In (o_b p) (opT p).
Proof.
  intros H Hc. unfold opT. destruct H as [E|E]; rewrite E; cbn [Nat.eqb]; (apply opR_b; [rewrite E; auto|exact Hc]).
Qed.
Lemma in_opT p j : In j (opT p) -> j = o_a p \/ (j = o_b p /\ (o_code p = 11 \/ o_code p = 13)).
Proof.
  unfold opT, opR, two, slots2. destruct (Nat.eqb_spec (o_code p) 23) as [E|E]; [intros [<-|[]]; auto|].
  destruct (_ <? 3); [intros []|].
  (* an array constructor, or any other code with an operand *)
  assert (B : In j (o_a p :: if o_c p =? 1 then [o_b p] else []) -> j = o_a p \/ j = o_b p).
  { intros [<-|H]; [auto|]. destruct (o_c p =? 1); [destruct H as [<-|[]]; auto|destruct H]. }
  destruct (Nat.eqb_spec (o_code p) 11) as [E1|_]; cbn [orb].
  - intros H. destruct (B H); auto.
  - destruct (Nat.eqb_spec (o_code p) 13) as [E3|_]; cbn [orb]; [intros H; destruct (B H); auto|intros [<-|[]]; auto].
Qed.
