(* C02 — arrow-data's dictionary_equal compares dictionaries THROUGH their keys: permuted, duplicated
   and unused dictionary entries do not matter.  Compositional: IF comparing the value arrays on one-slot
   ranges decides equality of the denoted values, THEN dictionary_equal (both paths) holds exactly when
   every valid slot denotes the same value on both sides. *)
From Coq Require Import List Arith NArith ZArith Bool.
From AV Require Import Base.ListX Model.C09_Layout Model.C02_Logical Model.C02_Equal.
From AV Require Import Proofs.C02_EqualNulls.
Import ListNotations.

Section DictEq.
  Variables (kw : nat) (signed : bool) (v : dty).
  Variables (alen aoff : nat) (anulls : option nullbuf) (abufs : list (list N)) (ka : parr) (akids : list parr).
  Variables (b kb : parr) (bkids : list parr).
  Let a := PArr (TDict kw signed v) alen aoff anulls abufs (ka :: akids).
  Hypothesis Hkb : p_kids b = kb :: bkids.
  Hypothesis child_ok : forall s1 s2, s1 < p_len ka -> s2 < p_len kb ->
    (equal_nulls ka kb s1 s2 1 && equal_values ka kb s1 s2 1 = true <-> logical_at ka s1 = logical_at kb s2).

  Definition dkey (x : parr) (i : nat) : Z := key_at (buf x 0) kw signed (p_off x + i).
  Definition keys_ok (x kx : parr) (s n : nat) : Prop :=
    forall i, i < n -> slot_valid x (s + i) = true -> (0 <= dkey x (s + i) < Z.of_nat (p_len kx))%Z.

  (* the comparison of the values two keys select, conversions guarded as in the code *)
  Lemma keys_compare_iff (lk rk : Z) :
    (0 <= lk < Z.of_nat (p_len ka))%Z -> (0 <= rk < Z.of_nat (p_len kb))%Z ->
    ((if (0 <=? lk)%Z then if (0 <=? rk)%Z then
        if (lk <? Z.of_nat (p_len ka))%Z then if (rk <? Z.of_nat (p_len kb))%Z then
          equal_nulls ka kb (Z.to_nat lk) (Z.to_nat rk) 1 && equal_values ka kb (Z.to_nat lk) (Z.to_nat rk) 1
        else false else false else false else false) = true
     <-> logical_at ka (Z.to_nat lk) = logical_at kb (Z.to_nat rk)).
  Proof.
    intros [Ha0 Ha1] [Hb0 Hb1].
    rewrite (proj2 (Z.leb_le _ _) Ha0), (proj2 (Z.leb_le _ _) Hb0), (proj2 (Z.ltb_lt _ _) Ha1), (proj2 (Z.ltb_lt _ _) Hb1).
    apply child_ok; now apply Nat2Z.inj_lt; rewrite Z2Nat.id.
  Qed.

  Theorem dictionary_equal_iff ls rs n :
    keys_ok a ka ls n -> keys_ok b kb rs n ->
    (forall i, i < n -> slot_valid a (ls + i) = slot_valid b (rs + i)) ->
    (equal_values a b ls rs n = true
     <-> forall i, i < n -> slot_valid a (ls + i) = true ->
           logical_at ka (Z.to_nat (dkey a (ls + i))) = logical_at kb (Z.to_nat (dkey b (rs + i)))).
  Proof.
    intros Hka Hkbb Hv. unfold a at 1. cbn [equal_values]. rewrite Hkb.
    assert (Hk : forall i, i < n -> slot_valid a (ls + i) = true ->
              (0 <= dkey a (ls + i) < Z.of_nat (p_len ka))%Z /\ (0 <= dkey b (rs + i) < Z.of_nat (p_len kb))%Z).
    { intros i Hi Hval. split; [apply (Hka i Hi Hval) | apply (Hkbb i Hi); rewrite <- (Hv i Hi); exact Hval]. }
    apply (null_paths_iff Hv).
    - intros Hall. rewrite forallb_seq_iff.
      split; intros H i Hi; specialize (H i Hi); destruct (Hk i Hi (Hall i Hi)) as [Ka Kb];
        rewrite <- !Nat.add_assoc in *; apply (keys_compare_iff _ _ Ka Kb), H.
    - intros ln rn Ea Eb. apply (slot_loop_iff Hv Ea Eb). intros i Hi Hval.
      destruct (Hk i Hi Hval) as [Ka Kb]. rewrite <- !Nat.add_assoc. exact (keys_compare_iff _ _ Ka Kb).
  Qed.
End DictEq.
