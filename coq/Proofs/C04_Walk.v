(* C04 — the writer's, reader's and skipper's layout walks agree on every data type (all nesting depths).
   The file opens with [dty_ind2], the induction principle for C09's dty that the proof needs; it stands here
   because no other file uses it. *)
From Coq Require Import List Lia ZArith.
From AV Require Import Model.C09_Layout Model.C04_Walk.
Import ListNotations.

(* dty nests itself under lists of fields; the generated principle has no hypothesis for those *)
Section dty_ind2.
  Variable P : dty -> Prop.
  Hypothesis HNull : P TNull.
  Hypothesis HBool : P TBool.
  Hypothesis HFixed : forall w, P (TFixed w).
  Hypothesis HFixedBin : forall n, P (TFixedBin n).
  Hypothesis HBin : forall l u, P (TBin l u).
  Hypothesis HView : forall u, P (TView u).
  Hypothesis HList : forall l n c, P c -> P (TList l n c).
  Hypothesis HListView : forall l n c, P c -> P (TListView l n c).
  Hypothesis HFixedList : forall s n c, P c -> P (TFixedList s n c).
  Hypothesis HStruct : forall fs, Forall (fun p => P (snd p)) fs -> P (TStruct fs).
  Hypothesis HDict : forall w s v, P v -> P (TDict w s v).
  Hypothesis HRee : forall w v, P v -> P (TRee w v).
  Hypothesis HUnion : forall d fs, Forall (fun p => P (snd p)) fs -> P (TUnion d fs).

  Fixpoint dty_ind2 (t : dty) : P t :=
    match t with
    | TNull => HNull | TBool => HBool | TFixed w => HFixed w | TFixedBin n => HFixedBin n
    | TBin l u => HBin l u | TView u => HView u
    | TList l n c => HList l n c (dty_ind2 c)
    | TListView l n c => HListView l n c (dty_ind2 c)
    | TFixedList s n c => HFixedList s n c (dty_ind2 c)
    | TStruct fs =>
        HStruct fs ((fix go (l : list (bool * dty)) : Forall (fun p => P (snd p)) l :=
                       match l with [] => Forall_nil _ | p :: r => Forall_cons p (dty_ind2 (snd p)) (go r) end) fs)
    | TDict w s v => HDict w s v (dty_ind2 v)
    | TRee w v => HRee w v (dty_ind2 v)
    | TUnion d fs =>
        HUnion d fs ((fix go (l : list (Z * dty)) : Forall (fun p => P (snd p)) l :=
                        match l with [] => Forall_nil _ | p :: r => Forall_cons p (dty_ind2 (snd p)) (go r) end) fs)
    end.
End dty_ind2.

Lemma nodes_nil : nodes_of [] = 0. Proof. reflexivity. Qed.
Lemma nodes_cons_node l : nodes_of (TokNode :: l) = S (nodes_of l). Proof. reflexivity. Qed.
Lemma nodes_cons_buf k l : nodes_of (TokBuf k :: l) = nodes_of l. Proof. reflexivity. Qed.
Lemma bufs_nil : bufs_of [] = []. Proof. reflexivity. Qed.
Lemma bufs_cons_node l : bufs_of (TokNode :: l) = bufs_of l. Proof. reflexivity. Qed.
Lemma bufs_cons_buf k l : bufs_of (TokBuf k :: l) = k :: bufs_of l. Proof. reflexivity. Qed.
Lemma snodes_nil : snodes_of [] = 0. Proof. reflexivity. Qed.
Lemma snodes_cons_node l : snodes_of (SNode :: l) = S (snodes_of l). Proof. reflexivity. Qed.
Lemma snodes_cons_buf l : snodes_of (SBuf :: l) = snodes_of l. Proof. reflexivity. Qed.
Lemma sbufs_nil : sbufs_of [] = 0. Proof. reflexivity. Qed.
Lemma sbufs_cons_node l : sbufs_of (SNode :: l) = sbufs_of l. Proof. reflexivity. Qed.
Lemma sbufs_cons_buf l : sbufs_of (SBuf :: l) = S (sbufs_of l). Proof. reflexivity. Qed.
Lemma nodes_app a b : nodes_of (a ++ b) = nodes_of a + nodes_of b.
Proof. unfold nodes_of. now rewrite filter_app, app_length. Qed.
Lemma bufs_app a b : bufs_of (a ++ b) = bufs_of a ++ bufs_of b.
Proof. induction a as [|[|k|n] a IH]; cbn; [reflexivity|exact IH|now rewrite IH|exact IH]. Qed.
Lemma nodes_repeat k c : nodes_of (repeat (TokBuf k) c) = 0.
Proof. induction c; [reflexivity|exact IHc]. Qed.
Lemma bufs_repeat k c : bufs_of (repeat (TokBuf k) c) = repeat k c.
Proof. induction c; [reflexivity|]. cbn [repeat bufs_of]. now rewrite IHc. Qed.
Lemma nodes_map_buf ks : nodes_of (map TokBuf ks) = 0.
Proof. induction ks; [reflexivity|exact IHks]. Qed.
Lemma bufs_map_buf ks : bufs_of (map TokBuf ks) = ks.
Proof. induction ks; cbn; congruence. Qed.
Lemma snodes_app a b : snodes_of (a ++ b) = snodes_of a + snodes_of b.
Proof. unfold snodes_of. now rewrite filter_app, app_length. Qed.
Lemma sbufs_app a b : sbufs_of (a ++ b) = sbufs_of a + sbufs_of b.
Proof. unfold sbufs_of. now rewrite filter_app, app_length. Qed.
Lemma snodes_repeat c : snodes_of (repeat SBuf c) = 0.
Proof. induction c; [reflexivity|exact IHc]. Qed.
Lemma sbufs_repeat c : sbufs_of (repeat SBuf c) = c.
Proof. induction c; [reflexivity|]. unfold sbufs_of in *. cbn. now rewrite IHc. Qed.

(* what "the walks agree" means for the four results of walking one type, or one list of fields, over a supply
   [cs ++ q] where [cs] holds exactly the variadic counts of the view arrays met:
   - write_array_data and append_variadic_buffer_counts consume exactly [cs], and the counts emitted are [cs];
   - create_array fed with the emitted counts succeeds, consumes exactly [cs], and reads the same number of
     field nodes and the same sequence of buffers (kind by kind) as were written;
   - skip_field succeeds, consumes exactly [cs], the same number of nodes and the same number of buffers. *)
Definition agreeing (cs q : list nat) (Ww : list token * list nat) (Wv : list nat * list nat)
    (Wr : option (list token * list nat)) (Ws : option (list stoken * list nat)) : Prop :=
  exists wt rt st,
    Ww = (wt, q) /\ Wv = (cs, q) /\ Wr = Some (rt, q) /\ Ws = Some (st, q) /\
    nodes_of rt = nodes_of wt /\ bufs_of rt = bufs_of wt /\
    snodes_of st = nodes_of rt /\ sbufs_of st = length (bufs_of rt).

Definition agree (v5 : bool) (t : dty) : Prop :=
  forall cs q, length cs = views t ->
  agreeing cs q (w_walk t v5 (cs ++ q)) (w_var t (cs ++ q)) (r_walk t v5 (cs ++ q)) (s_walk t v5 (cs ++ q)).

Lemma snodes_erase p : snodes_of (erase p) = nodes_of p.
Proof. induction p as [|[|k|n] p IH]; [reflexivity|cbn; f_equal; exact IH|exact IH|exact IH]. Qed.
Lemma sbufs_erase p : sbufs_of (erase p) = length (bufs_of p).
Proof. induction p as [|[|k|n] p IH]; [reflexivity|exact IH|cbn; f_equal; exact IH|exact IH]. Qed.

(* a parent puts the same tokens [p] in front of what its children write and read, and the skipper their erasure
   (as many nodes and buffers, no kinds): every nested layout is an instance *)
Lemma agreeing_under p {cs q Ww Wv Wr Ws} :
  agreeing cs q Ww Wv Wr Ws ->
  agreeing cs q (let '(tc, r) := Ww in (p ++ tc, r)) Wv
           (match Wr with Some (tc, r) => Some (p ++ tc, r) | None => None end)
           (match Ws with Some (tc, r) => Some (erase p ++ tc, r) | None => None end).
Proof.
  intros (wt & rt & st & -> & -> & -> & -> & N' & B' & SN' & SB').
  exists (p ++ wt), (p ++ rt), (erase p ++ st). do 4 (split; [reflexivity|]).
  rewrite !nodes_app, !bufs_app, snodes_app, sbufs_app, app_length, snodes_erase, sbufs_erase. repeat split; congruence.
Qed.

(* a childless layout: writer and reader list the same tokens [p], and no count is taken *)
Lemma agreeing_leaf p q : agreeing [] q (p, q) ([], q) (Some (p, q)) (Some (erase p, q)).
Proof. exists p, p, (erase p). repeat split; [apply snodes_erase|apply sbufs_erase]. Qed.

Definition childless (t : dty) : bool :=
  match t with TNull | TBool | TFixed _ | TFixedBin _ | TBin _ _ | TDict _ _ _ => true | _ => false end.

Lemma thread_agree {A} (g : A -> dty) v5 (fs : list A) :
  Forall (fun p => agree v5 (g p)) fs ->
  forall cs q, length cs = fold_right (fun p acc => views (g p) + acc) 0 fs ->
  agreeing cs q (thread (fun p => w_walk (g p) v5) fs (cs ++ q)) (thread_var (fun p => w_var (g p)) fs (cs ++ q))
           (thread_opt (fun p => r_walk (g p) v5) fs (cs ++ q)) (thread_s (fun p => s_walk (g p) v5) fs (cs ++ q)).
Proof.
  induction 1 as [|x fs Hx Hfs IH]; intros cs q Hl; cbn [fold_right] in Hl.
  - destruct cs; [|discriminate]. exact (agreeing_leaf [] q).
  - (* the first field takes its [views] counts from the front of [cs], the others take the rest *)
    set (n := views (g x)) in *. rewrite <- (firstn_skipn n cs), <- app_assoc.
    destruct (Hx (firstn n cs) (skipn n cs ++ q)) as (wt1 & rt1 & st1 & W1 & V1 & R1 & S1 & N1 & B1 & SN1 & SB1);
      [rewrite firstn_length; lia|].
    destruct (IH (skipn n cs) q) as (wt2 & rt2 & st2 & W2 & V2 & R2 & S2 & N2 & B2 & SN2 & SB2);
      [rewrite skipn_length; lia|].
    exists (wt1 ++ wt2), (rt1 ++ rt2), (st1 ++ st2).
    cbn [thread thread_var thread_opt thread_s].
    rewrite W1, V1, R1, S1, W2, V2, R2, S2. do 4 (split; [reflexivity|]).
    rewrite !nodes_app, !bufs_app, snodes_app, sbufs_app, app_length. repeat split; congruence.
Qed.

(* the side condition: V5, or no RunEndEncoded outside dictionaries; for a run array the V4 writer writes a
   validity buffer that the reader does not consume *)
Definition walk_ok (v5 : bool) (t : dty) : Prop := v5 = true \/ ree_free t = true.

Lemma walk_ok_fields {A} (g : A -> dty) (P : dty -> Prop) v5 (fs : list A) :
  Forall (fun p => walk_ok v5 (g p) -> P (g p)) fs ->
  (v5 = true \/ forallb (fun p => ree_free (g p)) fs = true) ->
  Forall (fun p => P (g p)) fs.
Proof.
  intros H Hok. apply Forall_forall. intros p Hin. apply (proj1 (Forall_forall _ _) H p Hin).
  destruct Hok as [->|Hf]; [now left|right]. exact (proj1 (forallb_forall _ _) Hf p Hin).
Qed.

(* a childless layout (a dictionary counts: its values are not visited) takes no count, and writer and reader
   list the same fixed tokens *)
Lemma leaf_agree v5 t : childless t = true -> agree v5 t.
Proof.
  intros Hc [|c cs] q Hl; [|destruct t; discriminate].
  destruct t; try discriminate; destruct v5; exact (agreeing_leaf _ q).
Qed.

Theorem walk_agree_all : forall t v5, walk_ok v5 t -> agree v5 t.
Proof.
  intros t v5. revert t.
  apply (dty_ind2 (fun t => walk_ok v5 t -> agree v5 t)).
  - (* null *) intros _. now apply leaf_agree.
  - (* boolean *) intros _. now apply leaf_agree.
  - (* primitive *) intros w _. now apply leaf_agree.
  - (* fixed size binary *) intros n _. now apply leaf_agree.
  - (* binary / utf8 *) intros l u _. now apply leaf_agree.
  - (* view: the one layout that takes a count, and the reader reads the node after the buffers, so the three
       token lists differ in order and are given outright *)
    intros u _ cs q Hl. destruct cs as [|c [|? ?]]; try discriminate.
    exists ([TokNode; TokBuf BValidity; TokBuf BViews] ++ repeat (TokBuf BVariadic) c),
           ([TokBuf BValidity; TokBuf BViews] ++ repeat (TokBuf BVariadic) c ++ [TokNode]),
           ([SNode] ++ repeat SBuf (c + 2)).
    split; [destruct v5; reflexivity|]. do 3 (split; [reflexivity|]).
    rewrite !nodes_app, !bufs_app, !nodes_repeat, !bufs_repeat, snodes_app, sbufs_app, snodes_repeat, sbufs_repeat,
      !app_length, repeat_length.
    cbn. rewrite app_nil_r. repeat split; lia.
  - (* list *) intros l n c IH Hok cs q Hl. specialize (IH Hok cs q Hl).
    destruct v5; exact (agreeing_under [TokNode; TokBuf BValidity; TokBuf BOffsets] IH).
  - (* list view *) intros l n c IH Hok cs q Hl. specialize (IH Hok cs q Hl).
    destruct v5; exact (agreeing_under [TokNode; TokBuf BValidity; TokBuf BOffsets; TokBuf BSizes] IH).
  - (* fixed size list *) intros s n c IH Hok cs q Hl. specialize (IH Hok cs q Hl).
    destruct v5; exact (agreeing_under [TokNode; TokBuf BValidity] IH).
  - (* struct *) intros fs IH Hok cs q Hl.
    pose proof (thread_agree snd v5 fs (walk_ok_fields snd (agree v5) v5 fs IH Hok) cs q Hl) as K.
    destruct v5; exact (agreeing_under [TokNode; TokBuf BValidity] K).
  - (* dictionary: keys only *) intros w s v _ _. now apply leaf_agree.
  - (* run-end encoded: V5 only; the run array has no validity buffer, its run ends are a primitive array *)
    intros w v IH [->|Hf] cs q Hl; [|discriminate]. specialize (IH (or_introl eq_refl) cs q Hl).
    exact (agreeing_under [TokNode; TokNode; TokBuf BValidity; TokBuf BValues] IH).
  - (* union: V4 has a validity buffer, a dense union an offsets buffer *)
    intros d fs IH Hok cs q Hl.
    pose proof (thread_agree snd v5 fs (walk_ok_fields snd (agree v5) v5 fs IH Hok) cs q Hl) as K.
    set (p := TokNode :: (if v5 then [] else [TokBuf BValidity]) ++ TokBuf BTypeIds :: (if d then [TokBuf BUOffsets] else [])).
    destruct v5, d; exact (agreeing_under p K).
Qed.

(* V4 + RunEndEncoded: the writer emits a validity buffer for the run array that create_array does
   not consume, so the buffer streams differ *)
Lemma walk_v4_ree_differs :
  let t := TRee 4 (TFixed 4) in
  exists wt rt, w_walk t false [] = (wt, []) /\ r_walk t false [] = Some (rt, []) /\ bufs_of rt <> bufs_of wt.
Proof. cbn. eexists; eexists; repeat split. cbn. discriminate. Qed.

Lemma batch_agree v5 (cols : list dty) :
  Forall (walk_ok v5) cols ->
  forall cs q, length cs = fold_right (fun t acc => views t + acc) 0 cols ->
  exists wt rt,
    w_batch cols v5 (cs ++ q) = (wt, q) /\ w_batch_var cols (cs ++ q) = (cs, q) /\
    r_batch cols v5 (cs ++ q) = Some (rt, q) /\
    nodes_of rt = nodes_of wt /\ bufs_of rt = bufs_of wt.
Proof.
  intros Hok cs q Hl.
  pose proof (Forall_impl (agree v5) (fun t => walk_agree_all t v5) Hok) as Hf.
  destruct (thread_agree (fun x : dty => x) v5 cols Hf cs q Hl) as (wt & rt & st & W & V & R & Sk & N & B & _).
  exists wt, rt. unfold w_batch, w_batch_var, r_batch. repeat split; assumption.
Qed.
