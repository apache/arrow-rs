(* [offsets_of a w] (Model/C09_Layout.v) is the list of the len+1 offsets of a variable-size layout, [monotone_from] the
   specification's test that they never decrease; Proofs/C01_Bounds.v and Proofs/C02_EqualBin.v read offsets through these facts. *)
From Coq Require Import List ZArith Lia Bool.
From AV Require Import Base.ListX Model.C09_Layout.

Lemma monotone_sorted l : forall prev i j, monotone_from prev l = true -> (i <= j < length l)%nat ->
  (prev <= nth i l 0 <= nth j l 0)%Z.
Proof.
  induction l as [|x r IH]; intros prev i j H Hij; cbn [length] in Hij; [lia|].
  cbn [monotone_from] in H. apply andb_true_iff in H as [Hx%Z.leb_le Hr].
  destruct j as [|j]; [replace i with 0%nat by lia; cbn [nth]; lia|].
  destruct i as [|i]; cbn [nth]; [pose proof (IH x j j Hr) | pose proof (IH x i j Hr)]; lia.
Qed.

Lemma offsets_of_nth a w i : (i <= p_len a)%nat -> nth i (offsets_of a w) 0%Z = sle_at (buf a 0) w (p_off a + i).
Proof. intros Hi. unfold offsets_of. rewrite nth_map_seq by lia. reflexivity. Qed.

Lemma offsets_of_length a w : length (offsets_of a w) = S (p_len a).
Proof. unfold offsets_of. now rewrite map_length, seq_length. Qed.

Lemma offsets_of_last a w : last (offsets_of a w) 0%Z = sle_at (buf a 0) w (p_off a + p_len a).
Proof. unfold offsets_of. rewrite seq_S, map_app. apply last_last. Qed.
