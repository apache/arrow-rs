(* C05 — PLAIN, DELTA_LENGTH_BYTE_ARRAY, DELTA_BYTE_ARRAY and BYTE_STREAM_SPLIT round trips. *)
From Coq Require Import List NArith ZArith Lia ZifyNat.
From AV Require Import Base.ListX Model.C05_Enc Proofs.C05_Bits Proofs.C05_Wrap Proofs.C05_Delta.
Import ListNotations.

Lemma chunks_flat_map {A B} (f : A -> list B) k : forall vs rest, Forall (fun v => length (f v) = k) vs ->
  chunks (length vs) k (flat_map f vs ++ rest) = map f vs.
Proof.
  induction vs as [|v vs IH]; intros rest Hl; [reflexivity|].
  inversion Hl as [|? ? Hv Hvs]; subst. cbn [length chunks flat_map map]. rewrite <- app_assoc.
  rewrite firstn_app_exact, skipn_app_exact by reflexivity. f_equal. apply IH, Hvs.
Qed.

Theorem plain_int_roundtrip k vs : (0 < k)%nat ->
  Forall (in_range (8 * N.of_nat k)) vs ->
  plain_int_dec k (length vs) (plain_int_enc k vs) = Some vs.
Proof.
  intros Hk Hr. unfold plain_int_dec, plain_int_enc.
  set (tw := (8 * N.of_nat k)%N).
  assert (Htw : (0 < tw)%N) by (unfold tw; lia).
  assert (Hlen : Forall (fun v => length (le_bytes k (to_unsigned tw v)) = k) vs)
    by (apply Forall_forall; intros; apply le_bytes_length).
  rewrite (flat_map_length_const _ k) by exact Hlen.
  rewrite Nat.ltb_irrefl.
  rewrite <- (app_nil_r (flat_map _ vs)). rewrite (chunks_flat_map _ k) by exact Hlen.
  rewrite map_map. f_equal.
  rewrite <- (map_id vs) at 2. apply map_ext_in. intros z Hin.
  rewrite Forall_forall in Hr. specialize (Hr z Hin).
  rewrite le_value_le_bytes.
  - change (to_signed tw (to_unsigned tw z)) with (wrap_s tw z). apply wrap_s_id; assumption.
  - replace (N.of_nat (8 * k)) with tw by (unfold tw; lia). apply to_unsigned_lt, Htw.
Qed.

Theorem plain_bool_roundtrip vs : plain_bool_dec (length vs) (plain_bool_enc vs) = vs.
Proof.
  unfold plain_bool_dec, plain_bool_enc, bits_to_bytes.
  rewrite bytes_bits_bits_bytes_pad by lia.
  apply firstn_app_exact. reflexivity.
Qed.

Lemma plain_ba_dec_enc : forall vs rest, Forall (fun v => (N.of_nat (length v) < 2^32)%N) vs ->
  plain_ba_dec (length vs) (plain_ba_enc vs ++ rest) = Some vs.
Proof.
  induction vs as [|v vs IH]; intros rest Hl; [reflexivity|].
  inversion Hl as [|? ? Hv Hvs]; subst. unfold plain_ba_enc. cbn [length plain_ba_dec flat_map].
  fold (plain_ba_enc vs). rewrite <- !app_assoc.
  rewrite ltb_app_exact, firstn_app_exact, skipn_app_exact by apply le_bytes_length.
  rewrite le_value_le_bytes by exact Hv. rewrite Nat2N.id.
  rewrite ltb_app_exact, firstn_app_exact, skipn_app_exact by reflexivity.
  rewrite IH by exact Hvs. reflexivity.
Qed.

(* the form in which Props.C05.plain_byte_array_roundtrip states it; the match has Some vs in either branch *)
Theorem plain_ba_roundtrip : forall vs rest, Forall (fun v => (N.of_nat (length v) < 2^32)%N) vs ->
  plain_ba_dec (length vs) (plain_ba_enc vs ++ rest) =
  match vs with [] => Some [] | _ => Some vs end.
Proof. intros vs rest H. rewrite plain_ba_dec_enc by exact H. destruct vs; reflexivity. Qed.

Lemma split_lens_concat : forall vs rest, split_lens (map (fun v => Z.of_nat (length v)) vs) (concat vs ++ rest) = Some vs.
Proof.
  induction vs as [|v vs IH]; intros rest; [reflexivity|].
  cbn [map split_lens concat]. destruct (Z.ltb_spec (Z.of_nat (length v)) 0); [lia|].
  rewrite Nat2Z.id, <- app_assoc, ltb_app_exact, firstn_app_exact, skipn_app_exact, IH by reflexivity. reflexivity.
Qed.

(* byte-array lengths and prefix lengths are written as INT32 (DELTA_BINARY_PACKED at width 32): 2^31 is where i32 ends *)
Lemma len_in_range32 n : (N.of_nat n < 2147483648)%N -> in_range 32 (Z.of_nat n).
Proof. intros H. unfold in_range, Hz. change (Z.of_N (2^(32-1))) with 2147483648%Z. lia. Qed.

Theorem dlba_roundtrip vs : Forall (fun v => (N.of_nat (length v) < 2147483648)%N) vs -> (N.of_nat (length vs) < 2^64)%N ->
  dlba_decode (dlba_encode vs) = Some vs.
Proof.
  intros Hl Hn. unfold dlba_decode, dlba_encode.
  rewrite delta_bp_roundtrip.
  - rewrite <- (app_nil_r (concat vs)). apply split_lens_concat.
  - left; reflexivity.
  - apply Forall_forall. intros z Hin. apply in_map_iff in Hin. destruct Hin as (v & <- & Hv).
    rewrite Forall_forall in Hl. apply len_in_range32, Hl, Hv.
  - rewrite map_length. exact Hn.
Qed.

Lemma common_prefix_spec : forall a b, (common_prefix a b <= length a)%nat /\ (common_prefix a b <= length b)%nat /\
  firstn (common_prefix a b) a = firstn (common_prefix a b) b.
Proof.
  induction a as [|x a IH]; intros b; [cbn; repeat split; lia|].
  destruct b as [|y b]; [cbn; repeat split; lia|].
  cbn [common_prefix]. destruct (N.eqb_spec x y) as [->|]; [|cbn; repeat split; lia].
  destruct (IH b) as (A & B & C). cbn [length firstn]. repeat split; try lia. f_equal. exact C.
Qed.

Lemma dba_split_join : forall vs prev ps ss, dba_split prev vs = (ps, ss) -> dba_join prev ps ss = Some vs.
Proof.
  induction vs as [|v vs IH]; intros prev ps ss H.
  - cbn in H. injection H as <- <-. reflexivity.
  - cbn [dba_split] in H. destruct (dba_split v vs) as [ps' ss'] eqn:E. injection H as <- <-.
    destruct (common_prefix_spec prev v) as (A & B & C).
    cbn [dba_join]. destruct (Z.ltb_spec (Z.of_nat (common_prefix prev v)) 0); [lia|].
    rewrite Nat2Z.id. destruct (Nat.ltb_spec (length prev) (common_prefix prev v)); [lia|].
    rewrite C, firstn_skipn. rewrite (IH v ps' ss' E). reflexivity.
Qed.

Lemma dba_split_bounds : forall vs prev ps ss, dba_split prev vs = (ps, ss) ->
  Forall (fun v => (N.of_nat (length v) < 2147483648)%N) vs ->
  length ps = length vs /\ length ss = length vs /\ Forall (in_range 32) ps /\
  Forall (fun v => (N.of_nat (length v) < 2147483648)%N) ss.
Proof.
  induction vs as [|v vs IH]; intros prev ps ss H Hl.
  - cbn in H. injection H as <- <-. repeat split; constructor.
  - cbn [dba_split] in H. destruct (dba_split v vs) as [ps' ss'] eqn:E. injection H as <- <-.
    inversion Hl as [|? ? Hv Hvs]; subst. destruct (IH v ps' ss' E Hvs) as (A & B & C & D).
    destruct (common_prefix_spec prev v) as (P1 & P2 & _).
    cbn [length]. repeat split; try lia.
    + constructor; [apply len_in_range32; lia|exact C].
    + constructor; [rewrite skipn_length; lia|exact D].
Qed.

Theorem dba_roundtrip vs : Forall (fun v => (N.of_nat (length v) < 2147483648)%N) vs -> (N.of_nat (length vs) < 2^64)%N ->
  dba_decode (dba_encode vs) = Some vs.
Proof.
  intros Hl Hn. unfold dba_decode, dba_encode.
  destruct (dba_split [] vs) as [ps ss] eqn:E.
  destruct (dba_split_bounds vs [] ps ss E Hl) as (A & B & C & D).
  rewrite delta_bp_roundtrip; [|left; reflexivity|exact C|rewrite A; exact Hn].
  rewrite dlba_roundtrip by (try exact D; rewrite B; exact Hn).
  apply dba_split_join, E.
Qed.

Lemma nth_flat_map_const {A B} (f : A -> list B) n d : forall l j i a0,
  (forall x, In x l -> length (f x) = n) -> (j < length l)%nat -> (i < n)%nat ->
  nth (j * n + i) (flat_map f l) d = nth i (f (nth j l a0)) d.
Proof.
  intros l j i a0 Hlen Hj Hi. rewrite <- (flat_map_chunk f n l a0 (proj2 (Forall_forall _ _) Hlen) j Hj).
  now rewrite nth_firstn, nth_skipn by exact Hi.
Qed.

Theorem bss_roundtrip k vs : Forall (fun v => length v = k) vs ->
  bss_decode k (length vs) (bss_encode k vs) = vs.
Proof.
  intros Hk. unfold bss_decode, bss_encode.
  transitivity (map (fun i => nth i vs []) (seq 0 (length vs))); [|apply map_nth_seq].
  apply map_ext_in. intros i Hi. apply in_seq in Hi.
  assert (Hvi : length (nth i vs []) = k). { rewrite Forall_forall in Hk. apply Hk, nth_In. lia. }
  transitivity (map (fun j => nth j (nth i vs []) 0%N) (seq 0 k)); [|rewrite <- Hvi; apply map_nth_seq].
  apply map_ext_in. intros j Hj. apply in_seq in Hj.
  rewrite (nth_flat_map_const _ (length vs) 0%N (seq 0 k) j i 0%nat).
  - rewrite seq_nth by lia. apply (nth_map_lt (fun v => nth (0 + j) v 0%N)). lia.
  - intros x _. apply map_length.
  - rewrite seq_length. lia.
  - lia.
Qed.

