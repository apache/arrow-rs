(* C05 — BitReader::get_value, word level (64-bit buffered word, reload on crossing, split reads) = cutting
   the LSB-first bit stream.  The stream is read as one number D (the little-endian value of the whole buffer);
   [field D p n] names the n bits at bit position p, and every word the reader holds is such a field. *)
From Coq Require Import List NArith ZArith Lia Bool.
From AV Require Import Base.ListX Base.Bits Model.C05_Enc Proofs.C05_Bits.
Import ListNotations.
Local Open Scope N_scope.

Definition field (D p n : N) : N := (D / 2^p) mod 2^n.

Lemma testbit_field D p n i : N.testbit (field D p n) i = (i <? n) && N.testbit D (i + p).
Proof.
  unfold field. destruct (N.ltb_spec i n) as [H|H].
  - rewrite N.mod_pow2_bits_low by exact H. apply N.div_pow2_bits.
  - apply N.mod_pow2_bits_high, H.
Qed.

Lemma field_lt D p n : field D p n < 2^n.
Proof. apply N.mod_lt, N.pow_nonzero. discriminate. Qed.

Lemma field_mod D p n k : field D p n mod 2^k = field D p (N.min k n).
Proof.
  apply N.bits_inj. intros i. rewrite !testbit_field.
  destruct (N.ltb_spec i k) as [Hk|Hk].
  - rewrite N.mod_pow2_bits_low, testbit_field by exact Hk. f_equal.
    destruct (N.ltb_spec i n); destruct (N.ltb_spec i (N.min k n)); try reflexivity; lia.
  - rewrite N.mod_pow2_bits_high by exact Hk.
    destruct (N.ltb_spec i (N.min k n)); [lia|reflexivity].
Qed.

Lemma field_shiftr D p n b : N.shiftr (field D p n) b = field D (p + b) (n - b).
Proof.
  apply N.bits_inj. intros i. rewrite N.shiftr_spec', !testbit_field.
  replace (i + b + p) with (i + (p + b)) by lia. f_equal.
  destruct (N.ltb_spec (i + b) n); destruct (N.ltb_spec i (n - b)); try reflexivity; lia.
Qed.

Lemma field_split D p n m : N.lor (field D p n) (N.shiftl (field D (p + n) m) n) = field D p (n + m).
Proof.
  apply N.bits_inj. intros i. rewrite N.lor_spec, !testbit_field.
  destruct (N.ltb_spec i n) as [Hn|Hn].
  - rewrite N.shiftl_spec_low, orb_false_r by exact Hn.
    destruct (N.ltb_spec i (n + m)); [reflexivity|lia].
  - rewrite N.shiftl_spec_high', testbit_field by exact Hn.
    replace (i - n + (p + n)) with (i + p) by lia. cbn [andb orb]. f_equal.
    destruct (N.ltb_spec (i - n) m); destruct (N.ltb_spec i (n + m)); try reflexivity; lia.
Qed.

Lemma trailing_bits_field D p k : trailing_bits (field D p 64) k = field D p (N.min k 64).
Proof.
  unfold trailing_bits. destruct (N.leb_spec 64 k) as [H|H].
  - rewrite N.min_r by exact H. reflexivity.
  - rewrite N.land_ones. apply field_mod.
Qed.

Lemma field_bits data p n :
  val_of (firstn (N.to_nat n) (skipn (N.to_nat p) (bytes_bits data))) = field (le_value data) p n.
Proof. rewrite val_of_firstn, val_of_skipn, !N2Nat.id. reflexivity. Qed.

(* any aligned little-endian load is a field of the stream *)
Lemma le_value_slice data off k :
  le_value (firstn k (skipn off data)) = field (le_value data) (N.of_nat off * 8) (N.of_nat k * 8).
Proof.
  rewrite <- field_bits. unfold le_value. rewrite (proj1 (bytes_bits_cut _ _)), (proj2 (bytes_bits_cut _ _)).
  replace (N.to_nat (N.of_nat k * 8)) with (8 * k)%nat by lia.
  replace (N.to_nat (N.of_nat off * 8)) with (8 * off)%nat by lia. reflexivity.
Qed.

Lemma load8_field data byte : load8 data byte = field (le_value data) (N.of_nat byte * 8) 64.
Proof. apply (le_value_slice data byte 8). Qed.

(* at bit offset 0 get_value reloads the word before use, so br_buf is tied to the data only inside a word *)
Definition br_pos (s : bitr) : N := N.of_nat (br_byte s) * 8 + br_bit s.
Definition br_inv (data : list N) (s : bitr) : Prop :=
  br_bit s < 64 /\ (br_bit s <> 0 -> br_buf s = load8 data (br_byte s)) /\ br_pos s <= N.of_nat (length data) * 8.

Lemma get_value_ok data s nb : br_inv data s -> nb <= 64 ->
  if N.of_nat (length data) * 8 <? br_pos s + nb then br_get_value data s nb = None
  else exists s', br_get_value data s nb = Some (field (le_value data) (br_pos s) nb, s') /\
                  br_inv data s' /\ br_pos s' = br_pos s + nb.
Proof.
  intros (Hbit & Hbuf & Hpos) Hnb. destruct s as [byte bit buf].
  unfold br_inv, br_pos in *. cbn [br_byte br_bit br_buf] in *.
  unfold br_get_value. cbn [br_byte br_bit br_buf].
  destruct (N.ltb_spec (N.of_nat (length data) * 8) (N.of_nat byte * 8 + bit + nb)) as [|Hlen]; [reflexivity|].
  set (D := le_value data). set (p := N.of_nat byte * 8) in *.
  assert (Hword : (if bit =? 0 then load8 data byte else buf) = field D p 64).
  { unfold D, p. rewrite <- load8_field. destruct (N.eqb_spec bit 0) as [E|E]; [reflexivity|apply Hbuf, E]. }
  rewrite Hword, trailing_bits_field, field_shiftr. clear Hword Hbuf buf.
  destruct (N.leb_spec 64 (bit + nb)) as [Hcross|Hin].
  - (* the value reaches the end of the buffered word: its first k = 64 - bit bits are there,
       and rem = bit + nb - 64 are left for the next word *)
    rewrite N.min_r by exact Hcross.
    remember (64 - bit) as k eqn:Ek. remember (bit + nb - 64) as rem eqn:Er.
    assert (Hk : bit + k = 64) by (clear - Ek Hbit; lia).
    assert (Hr : rem + 64 = bit + nb) by (clear - Er Hcross; lia). clear Ek Er.
    destruct (N.eqb_spec rem 0) as [E0|Hne].
    + (* the value ends with the word: nb = k *)
      replace nb with k by lia. eexists. split; [reflexivity|]. cbn [br_byte br_bit br_buf]. repeat split; lia.
    + (* the value is the k bits of this word joined with the first rem of the next; the new state is the model's *)
      assert (Hp' : N.of_nat (byte + 8) * 8 = p + bit + k) by (clear - Hk; subst p; lia).
      eexists. split; [apply (f_equal (fun v => Some (v, _)))|cbn [br_byte br_bit br_buf]; repeat split; lia].
      rewrite load8_field, trailing_bits_field, N.min_l by lia. fold D. rewrite Hp'.
      replace (nb - rem) with k by lia.
      rewrite u64_small, field_split; [f_equal; lia|].
      rewrite N.shiftl_mul_pow2. eapply shift_fits; [apply field_lt|lia].
  - (* the value lies inside the buffered word *)
    rewrite N.min_l, (N.add_comm bit nb), N.add_sub by lia. eexists. split; [reflexivity|]. cbn [br_byte br_bit br_buf].
    repeat split; try lia. intros _. symmetry. apply load8_field.
Qed.

(* the word-level reader computes the bit-stream specification: any sequence of get_value calls, up to and excluding the first that runs out of data *)
Theorem bitreader_spec_gen data : forall ws s, br_inv data s -> Forall (fun w => w <= 64) ws ->
  br_run data s ws = br_run_spec (skipn (N.to_nat (br_pos s)) (bytes_bits data)) ws.
Proof.
  induction ws as [|w ws IH]; intros s Hs Hws; [reflexivity|].
  inversion Hws as [|? ? Hw Hrest]; subst. cbn [br_run br_run_spec].
  (* the specification's test on the remaining bit list is the reader's test on positions *)
  assert (Etest : (8 * length data - N.to_nat (br_pos s) <? N.to_nat w)%nat = (N.of_nat (length data) * 8 <? br_pos s + w)).
  { destruct Hs as (_ & _ & Hpos). clear - Hpos.
    destruct (Nat.ltb_spec (8 * length data - N.to_nat (br_pos s)) (N.to_nat w));
      destruct (N.ltb_spec (N.of_nat (length data) * 8) (br_pos s + w)); try reflexivity; lia. }
  rewrite skipn_length, bytes_bits_length, Etest. clear Etest.
  pose proof (get_value_ok data s w Hs Hw) as G.
  destruct (N.of_nat (length data) * 8 <? br_pos s + w).
  - rewrite G. reflexivity.
  - destruct G as (s' & -> & Hs' & Hp).
    rewrite field_bits, IH, Hp, skipn_skipn, N2Nat.inj_add by assumption. reflexivity.
Qed.

Theorem bitreader_spec data ws : Forall (fun w => (w <= 64)%N) ws ->
  br_run data br_new ws = br_run_spec (bytes_bits data) ws.
Proof.
  intros H. rewrite bitreader_spec_gen; [reflexivity| |exact H].
  unfold br_inv, br_pos, br_new. cbn [br_bit br_byte br_buf]. repeat split; lia.
Qed.

