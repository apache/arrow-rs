(* C20 — UTF-8 self-synchronisation: a byte-level occurrence of a valid UTF-8 needle in a valid
   UTF-8 haystack is a code-point-level occurrence (prefix, suffix, infix), and conversely.
   Then what the LIKE classifier needs of the encoding: '%', '_' and '\\' occur as bytes exactly where they occur
   as characters, and an ASCII string is its own encoding. *)
From Coq Require Import List NArith Lia Bool.
From AV Require Import Base.Utf8 Model.C20_Like.
Import ListNotations.
Local Open Scope N_scope.

Notation scalars s := (Forall (fun c => scalar c = true) s).

(* prefix-freeness, from the strict decoder *)
Lemma encode_inj c d r r' : scalar c = true -> scalar d = true ->
  encode c ++ r = encode d ++ r' -> c = d /\ r = r'.
Proof.
  intros Hc Hd E. pose proof (decode1_encode c r Hc) as A. rewrite E in A.
  rewrite (decode1_encode d r' Hd) in A. inversion A. auto.
Qed.

Lemma utf8_app a b : utf8 (a ++ b) = utf8 a ++ utf8 b.
Proof. apply flat_map_app. Qed.
Lemma utf8_cons c s : utf8 (c :: s) = encode c ++ utf8 s.
Proof. reflexivity. Qed.
Lemma utf8_concat ss : utf8 (concat ss) = concat (map utf8 ss).
Proof. induction ss as [|s r IH]; [reflexivity|]. cbn [concat map]. now rewrite utf8_app, IH. Qed.
Lemma utf8_nil_inv s : utf8 s = [] -> s = [].
Proof.
  destruct s as [|c s]; [reflexivity|]. rewrite utf8_cons. destruct (encode_shape c) as (b0 & t & -> & _). discriminate.
Qed.

Lemma cps_of_utf8 s : scalars s -> cps_of (utf8 s) = s.
Proof. intros H. unfold cps_of, utf8. now rewrite decode_all_encode by (assumption || lia). Qed.

Lemma valid_utf8_utf8 s : scalars s -> valid_utf8 (utf8 s) = true.
Proof. intros H. apply valid_utf8_iff. now exists s. Qed.

Lemma utf8_inj a b : scalars a -> scalars b -> utf8 a = utf8 b -> a = b.
Proof. intros Ha Hb E. rewrite <- (cps_of_utf8 a Ha), <- (cps_of_utf8 b Hb). now rewrite E. Qed.

Lemma char_start_utf8_app s r : s <> [] -> char_start (utf8 s ++ r).
Proof.
  destruct s as [|c s]; [congruence|]. intros _. rewrite utf8_cons.
  destruct (encode_shape c) as (b0 & t & -> & Hb & _). exact Hb.
Qed.
Lemma char_start_utf8 s : char_start (utf8 s).
Proof. destruct s; [reflexivity|]. rewrite <- app_nil_r. now apply char_start_utf8_app. Qed.

(* Base's encoding_split stated with `utf8`: what uses it below matches `utf8 _` syntactically *)
Lemma utf8_split h : forall l r, utf8 h = l ++ r -> char_start r ->
  exists h1 h2, h = h1 ++ h2 /\ l = utf8 h1 /\ r = utf8 h2.
Proof. exact (encoding_split h). Qed.

Lemma utf8_prefix n : forall h r, scalars n -> scalars h ->
  utf8 n ++ r = utf8 h -> exists h', h = n ++ h' /\ r = utf8 h'.
Proof.
  induction n as [|d n IH]; intros h r Hn Hh E.
  - exists h. cbn in *. auto.
  - destruct h as [|c h].
    + apply app_eq_nil in E as [E _]. now apply utf8_nil_inv in E.
    + rewrite !utf8_cons, <- app_assoc in E.
      inversion Hn as [|? ? Hd Hn']; inversion Hh as [|? ? Hc Hh']; subst.
      apply encode_inj in E as [-> E]; [|assumption..].
      destruct (IH h r Hn' Hh' E) as (h' & -> & ->). exists h'. auto.
Qed.

(* a suffix begins at a boundary, since it is itself an encoding *)
Lemma utf8_suffix n h l : scalars n -> scalars h ->
  l ++ utf8 n = utf8 h -> exists h', h = h' ++ n /\ l = utf8 h'.
Proof.
  intros Hn Hh E. destruct (utf8_split h l (utf8 n) (eq_sym E) (char_start_utf8 n)) as (h1 & h2 & -> & -> & E2).
  apply Forall_app in Hh as [_ Hh2]. apply utf8_inj in E2; [subst; eauto|assumption..].
Qed.

(* so does an occurrence of a non-empty needle; what follows the boundary has the needle as a prefix *)
Lemma utf8_infix n h l r : n <> [] -> scalars n -> scalars h ->
  l ++ utf8 n ++ r = utf8 h -> exists h1 h2, h = h1 ++ n ++ h2 /\ l = utf8 h1 /\ r = utf8 h2.
Proof.
  intros Hne Hn Hh E.
  destruct (utf8_split h l (utf8 n ++ r) (eq_sym E) (char_start_utf8_app n r Hne)) as (h1 & h' & -> & -> & E').
  apply Forall_app in Hh as [_ Hh']. destruct (utf8_prefix n h' r Hn Hh' E') as (h2 & -> & ->). eauto.
Qed.

(* n occurs in h as bytes  <->  n occurs in h as code points *)
Theorem utf8_substring_lemma n h : scalars n -> scalars h ->
  (exists l r, utf8 h = l ++ utf8 n ++ r) <-> (exists h1 h2, h = h1 ++ n ++ h2).
Proof.
  intros Hn Hh. split.
  - intros (l & r & E). destruct n as [|d n].
    + exists [], h. reflexivity.
    + destruct (utf8_infix (d :: n) h l r ltac:(discriminate) Hn Hh (eq_sym E)) as (h1 & h2 & -> & _).
      eauto.
  - intros (h1 & h2 & ->). exists (utf8 h1), (utf8 h2). now rewrite !utf8_app.
Qed.
Theorem utf8_prefix_lemma n h : scalars n -> scalars h ->
  (exists r, utf8 h = utf8 n ++ r) <-> (exists h2, h = n ++ h2).
Proof.
  intros Hn Hh. split.
  - intros (r & E). destruct (utf8_prefix n h r Hn Hh (eq_sym E)) as (h' & -> & _). eauto.
  - intros (h2 & ->). exists (utf8 h2). now rewrite utf8_app.
Qed.
Theorem utf8_suffix_lemma n h : scalars n -> scalars h ->
  (exists l, utf8 h = l ++ utf8 n) <-> (exists h1, h = h1 ++ n).
Proof.
  intros Hn Hh. split.
  - intros (l & E). destruct (utf8_suffix n h l Hn Hh (eq_sym E)) as (h' & -> & _). eauto.
  - intros (h1 & ->). exists (utf8 h1). now rewrite utf8_app.
Qed.

Lemma is_special_high b : 128 <= b -> is_special b = false.
Proof. (* lia reads the boolean comparisons through ZifyBool, which Base.Utf8 loads *) unfold is_special, PCT, UND, BSL. lia. Qed.
Lemma existsb_special_encode c : existsb is_special (encode c) = is_special c.
Proof.
  destruct (N.ltb_spec c 128) as [L|G]; [rewrite encode_ascii by exact L; cbn; apply orb_false_r|].
  rewrite (is_special_high c G). apply not_true_is_false. intros [b [Hb Sb]]%existsb_exists.
  pose proof (proj1 (Forall_forall _ _) (encode_high c G) b Hb). now rewrite is_special_high in Sb.
Qed.
Lemma contains_like_pattern_utf8 p : contains_like_pattern (utf8 p) = existsb is_special p.
Proof.
  unfold contains_like_pattern. induction p as [|c p IH]; [reflexivity|].
  rewrite utf8_cons, existsb_app, existsb_special_encode, IH. reflexivity.
Qed.

Lemma scalar_ascii c : c < 128 -> scalar c = true.
Proof. unfold scalar. lia. Qed.
Lemma utf8_ascii s : is_ascii s = true -> utf8 s = s.
Proof.
  induction s as [|c s IH]; [reflexivity|]. cbn [is_ascii forallb]. rewrite andb_true_iff.
  intros [Hc Hs]. rewrite utf8_cons, encode_ascii by lia. cbn. f_equal. apply IH. exact Hs.
Qed.
Lemma ascii_scalars s : is_ascii s = true -> scalars s.
Proof.
  unfold is_ascii. rewrite forallb_forall, <- Forall_forall. apply Forall_impl. intros c Hc. apply scalar_ascii. lia.
Qed.

Lemma utf8_byte b : b < 128 -> utf8 [b] = [b].
Proof. intros Hb. cbn. now rewrite encode_ascii. Qed.
