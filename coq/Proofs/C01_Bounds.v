(* C01: on a node accepted by the specification validator every accessor read stays inside its
   buffer and every dereferenced child slot exists; on an accepted tree the same holds at the end of
   every chain of value() calls, of any depth.  own_reads_ok and child_slots_ok go by cases on the data type from two
   shared facts (slot_read, spec_offsets_pair); reach_stays_valid is the induction over the chain. *)
From Coq Require Import List Arith NArith ZArith Lia Bool ZifyNat ZifyBool.
From AV Require Import Base.ListX Model.C09_Layout Model.C01_Access Proofs.C09_Offsets Proofs.C09_Accept.
Import ListNotations.
Lemma spec_nulls_read a i : spec_nulls a = true -> (i < p_len a)%nat -> null_read_in_bounds a i = true.
Proof.
  unfold spec_nulls, null_read_in_bounds. destruct (p_nulls a) as [nb|]; [|reflexivity].
  (* bit nb_off + i lies below nb_off + nb_len, and ceil((nb_off + nb_len) / 8) bytes are there *)
  lia.
Qed.

Lemma slot_in_buffer off n w L i k : ((off + n) * w <= L -> i + k <= n -> (off + i) * w + k * w <= L)%nat.
Proof.
  intros H Hi. apply Nat.le_trans with ((off + n) * w)%nat; [|exact H].
  rewrite <- Nat.mul_add_distr_r. apply Nat.mul_le_mono_r. lia.
Qed.

Lemma slot_read a b w i : ((p_off a + p_len a) * w <=? length (buf a b))%nat = true -> (i < p_len a)%nat ->
  read_in_bounds a (b, (p_off a + i) * w, w)%nat = true.
Proof.
  intros H%Nat.leb_le Hi. apply Nat.leb_le. pose proof (slot_in_buffer _ _ _ _ i 1 H). lia.
Qed.

(* used where, in a branch of [spec_node], the conjunct that sizes the buffer stands next to last (b1 is then all
   the conjuncts before it); nothing ties the statement to that: a conjunct appended to such a branch of [spec_node]
   breaks own_reads_ok / child_slots_ok at a distance, and so do their nested [andb_true_iff] patterns *)
Lemma andb_penult (b1 b2 b3 : bool) : b1 && b2 && b3 = true -> b2 = true.
Proof. now intros [[_ H]%andb_true_iff _]%andb_true_iff. Qed.

Lemma spec_offsets_pair a w limit i : spec_offsets a w limit = true -> (i < p_len a)%nat ->
  ((p_off a + i) * w + 2 * w <= length (buf a 0))%nat /\
  (0 <= sle_at (buf a 0) w (p_off a + i) <= sle_at (buf a 0) w (p_off a + i + 1))%Z /\
  (sle_at (buf a 0) w (p_off a + i + 1) <= Z.of_nat limit)%Z.
Proof.
  unfold spec_offsets. intros H Hi.
  destruct (Nat.eqb (p_len a) 0 && Nat.eqb (length (buf a 0)) 0)%bool eqn:E; [lia|].
  apply andb_true_iff in H as [[Hsz%Nat.leb_le M]%andb_true_iff L%Z.leb_le].
  pose proof (offsets_of_length a w) as Hl.
  pose proof (monotone_sorted _ 0 i (S i) M ltac:(lia)) as A.
  pose proof (monotone_sorted _ 0 (S i) (p_len a) M ltac:(lia)) as B.
  rewrite offsets_of_last in L. rewrite !offsets_of_nth in A, B by lia.
  replace (p_off a + S i)%nat with (p_off a + i + 1)%nat in * by lia.
  pose proof (slot_in_buffer (p_off a) (p_len a + 1) w (length (buf a 0)) i 2) as S. clear - Hsz A B L Hi S. lia.
Qed.

Lemma filter_last_lt {A} (f : A -> bool) (l : list A) : forall d, l <> [] -> f (last l d) = false ->
  (length (filter f l) < length l)%nat.
Proof.
  intros d Hne Hf. destruct (exists_last Hne) as (l' & a & ->). rewrite last_last in Hf.
  apply (filter_length_lt f _ a); [apply in_or_app; right; left; reflexivity|exact Hf].
Qed.

Lemma index_of_bound x : forall l s ci, index_of x l s = Some ci -> (s <= ci < s + length l)%nat.
Proof.
  induction l as [|y l IH]; intros s ci H; cbn [index_of] in H; [discriminate|].
  destruct (Z.eqb x y). { inversion H; subst. cbn [length]. lia. }
  apply IH in H. cbn [length]. lia.
Qed.

Lemma own_reads_ok a i : spec_node a = true -> (i < p_len a)%nat -> forallb (read_in_bounds a) (own_reads a i) = true.
Proof.
  unfold spec_node, own_reads. cbv zeta. intros [_ H]%andb_true_iff Hi.
  destruct (p_ty a) as [ | | w | s | large utf8 | utf8 | large ? ? | large ? ? | | | kw ? ? | | dense fs ];
    cbn [forallb]; try reflexivity.
  (* each case keeps the conjunct(s) of the specification that size the buffers value(i) reads; the intro pattern, here
     and in child_slots_ok, and the bullets follow the order of [dty]'s constructors; the types that read no buffer
     (there: dereference no child) are closed by [reflexivity] before the bullets *)
  - (* TBool *) apply andb_penult in H. unfold read_in_bounds. clear - H Hi. lia.
  - (* TFixed *) apply andb_penult in H. now rewrite (slot_read a 0 w i H Hi).
  - (* TFixedBin *) apply andb_penult in H. now rewrite (slot_read a 0 _ i H Hi).
  - (* TBin: two offsets, then the value bytes [offs[i], offs[i+1]) *)
    apply andb_true_iff in H as [_ H]. destruct (spec_offsets a (offw large) (length (buf a 1))) eqn:Eo; [|discriminate].
    pose proof (spec_offsets_pair _ _ _ i Eo Hi) as P. unfold read_in_bounds. clear - P. lia.
  - (* TView *) apply andb_penult in H. now rewrite (slot_read a 0 16 i H Hi).
  - (* TList *) apply andb_penult in H as Eo. pose proof (spec_offsets_pair _ _ _ i Eo Hi) as P.
    unfold read_in_bounds. clear - P. lia.
  - (* TListView *) apply andb_true_iff in H as [[[_ H0]%andb_true_iff H1]%andb_true_iff _].
    now rewrite (slot_read a 0 _ i H0 Hi), (slot_read a 1 _ i H1 Hi).
  - (* TDict *) apply andb_penult in H. now rewrite (slot_read a 0 kw i H Hi).
  - (* TUnion *) apply andb_true_iff in H as [[[_ H0]%andb_true_iff H1]%andb_true_iff _].
    destruct dense; cbn [forallb]; [rewrite (slot_read a 1 4 i H1 Hi)|]; unfold read_in_bounds; lia.
Qed.

Lemma child_slots_ok a i : spec_node a = true -> (i < p_len a)%nat ->
  forallb (child_slots_in_bounds a) (child_slots a i) = true.
Proof.
  unfold spec_node, child_slots. cbv zeta. intros [_ H]%andb_true_iff Hi.
  destruct (p_ty a) as [ | | | | | | large ? ? | large ? ? | n ? ? | fs | kw ks ? | rw ? | dense fs ]; try reflexivity.
  - (* TList *) apply andb_penult in H as Eo. pose proof (spec_offsets_pair _ _ _ i Eo Hi) as P.
    cbn [forallb child_slots_in_bounds]. clear - P. lia.
  - (* TListView *) apply andb_true_iff in H as [_ H]. cbn [forallb child_slots_in_bounds]. rewrite andb_true_r.
    exact (proj1 (forallb_seq_iff _ _) H i Hi).
  - (* TFixedList *) apply andb_true_iff in H as [[[[[_ Hn%Z.leb_le]%andb_true_iff _]%andb_true_iff _]%andb_true_iff _]%andb_true_iff H].
    pose proof (slot_in_buffer (p_off a) (p_len a) (Z.to_nat n) (kid_len a 0) i 1) as S.
    cbn [forallb child_slots_in_bounds]. rewrite <- (Z2Nat.id n Hn). clear - H Hi S. lia.
  - (* TStruct *) apply andb_true_iff in H as [[_ Hlen%Nat.eqb_eq]%andb_true_iff Hcomb].
    rewrite forallb_forall. intros c [j [<- Hj%in_seq]]%in_map_iff.
    destruct (nth_error fs j) as [f|] eqn:Ef; [|apply nth_error_None in Ef; clear - Ef Hj; lia].
    unfold child_slots_in_bounds.
    destruct (kid a j) as [k|] eqn:Ek; [|apply nth_error_None in Ek; clear - Ek Hj Hlen; lia]. rewrite (kid_len_some _ _ _ Ek).
    pose proof (forallb_combine_nth _ _ _ _ _ _ Hcomb Ef Ek) as Hf. cbn [fst snd] in Hf. clear - Hf Hi. lia.
  - (* TDict *) apply andb_true_iff in H as [_ H]. apply forallb_seq_iff with (i := i) in H; [|exact Hi]. unfold key_in_range in H.
    destruct (slot_valid a i); [|reflexivity]. cbn [negb orb] in H. cbn [forallb child_slots_in_bounds]. clear - H. destruct ks; lia.
  - (* TRee: the last run end exceeds off+i, so fewer than all run ends are <= off+i *)
    destruct (kid a 0) as [r|] eqn:Er; [|reflexivity].
    apply andb_true_iff in H as [_ [[_ Hl%Nat.eqb_eq]%andb_true_iff [Hs Hlast%Z.leb_le]%andb_true_iff]%andb_true_iff].
    fold (ree_ends r rw) in *.
    assert (Hne : ree_ends r rw <> []) by (intros E; rewrite E in Hlast; cbn [last] in Hlast; lia).
    pose proof (filter_last_lt (fun e => (e <=? Z.of_nat (p_off a + i))%Z) _ 0%Z Hne ltac:(apply Z.leb_gt; lia)) as Hlt.
    unfold ree_ends in Hlt at 2. rewrite map_length, seq_length in Hlt.
    cbn [forallb child_slots_in_bounds]. rewrite (kid_len_some _ _ _ Er). clear - Hlt Hl. lia.
  - (* TUnion *) destruct (index_of _ (type_ids fs) 0) as [ci|] eqn:Ei; [|reflexivity].
    apply andb_true_iff in H as [[[[[_ Hlen%Nat.eqb_eq]%andb_true_iff _]%andb_true_iff _]%andb_true_iff Hk]%andb_true_iff Hi'].
    apply forallb_seq_iff with (i := i) in Hi'; [|exact Hi]. cbv beta zeta in Hi'. rewrite Ei in Hi'.
    cbn [forallb child_slots_in_bounds]. destruct dense; [clear - Hi'; lia|].
    apply index_of_bound in Ei. unfold type_ids in Ei. rewrite map_length in Ei.
    destruct (kid a ci) as [k|] eqn:Ek; [|apply nth_error_None in Ek; lia]. rewrite (kid_len_some _ _ _ Ek).
    pose proof (forallb_kid _ a ci k Hk Ek) as Hlen_k. cbv beta in Hlen_k. clear - Hlen_k Hi. lia.
Qed.

Lemma reach_stays_valid a i b m : reach a i b m -> spec_valid a = true -> (i < p_len a)%nat ->
  spec_valid b = true /\ (m < p_len b)%nat.
Proof.
  induction 1 as [a i | a i j s n c k b m Hin Hkid Hrange Hreach IH]; intros Hv Hi; [split; assumption|].
  apply IH; [exact (tree_all_kid _ a j c Hv Hkid)|].
  pose proof (child_slots_ok a i (spec_valid_node a Hv) Hi) as Hs.
  rewrite forallb_forall in Hs. specialize (Hs _ Hin). unfold child_slots_in_bounds in Hs. rewrite (kid_len_some _ _ _ Hkid) in Hs. lia.
Qed.

Lemma accessor_chain_ok a i b m : spec_valid a = true -> (i < p_len a)%nat -> reach a i b m ->
  (m < p_len b)%nat /\ null_read_in_bounds b m = true /\
  forallb (read_in_bounds b) (own_reads b m) = true /\ forallb (child_slots_in_bounds b) (child_slots b m) = true.
Proof.
  intros Hv Hi Hr. destruct (reach_stays_valid a i b m Hr Hv Hi) as [Hvb Hm].
  apply spec_valid_node in Hvb as Hn.
  exact (conj Hm (conj (spec_nulls_read b m (spec_node_nulls b Hn) Hm) (conj (own_reads_ok b m Hn Hm) (child_slots_ok b m Hn Hm)))).
Qed.

