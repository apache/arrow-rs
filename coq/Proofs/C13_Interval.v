(* C13 — interval casts: MonthDayNano -> Duration needs months = 0 and days = 0, in both modes;
   Duration -> Interval -> Duration is the identity; the printed h/m/s fields recompose. *)
From Coq Require Import List ZArith Bool Lia.
From AV Require Import Model.C13_Num Model.C13_Interval Proofs.C13_Pow Proofs.C13_Col.
Local Open Scope Z_scope.

Lemma div_mod_pack : forall q r b, 0 <= r < b -> (q * b + r) / b = q /\ (q * b + r) mod b = r.
Proof.
  intros q r b H. split; symmetry; [apply (Z.div_unique _ _ _ r)|apply (Z.mod_unique _ _ q)]; lia.
Qed.

(* months sit above a 32-bit days field, which sits above a 64-bit nanoseconds field *)
Lemma mdn_unpack : forall m d n, - 2 ^ 31 <= d < 2 ^ 31 -> - 2 ^ 63 <= n < 2 ^ 63 ->
  mdn_months (pack_mdn m d n) = m /\ mdn_days (pack_mdn m d n) = d /\ mdn_nanos (pack_mdn m d n) = n.
Proof.
  intros m d n Hd Hn. unfold mdn_months, mdn_days, mdn_nanos, pack_mdn.
  change (2 ^ 96) with (2 ^ 64 * 2 ^ 32). rewrite <- Z.div_div by lia.
  replace (m * (2 ^ 64 * 2 ^ 32) + (d + 2 ^ 31) * 2 ^ 64 + (n + 2 ^ 63))
    with ((m * 2 ^ 32 + (d + 2 ^ 31)) * 2 ^ 64 + (n + 2 ^ 63)) by ring.
  destruct (div_mod_pack (m * 2 ^ 32 + (d + 2 ^ 31)) (n + 2 ^ 63) (2 ^ 64) ltac:(lia)) as [-> ->].
  destruct (div_mod_pack m (d + 2 ^ 31) (2 ^ 32) ltac:(lia)) as [-> ->]. lia.
Qed.

Theorem mdn_to_dur_exact : forall u m d n, - 2 ^ 31 <= d < 2 ^ 31 -> - 2 ^ 63 <= n < 2 ^ 63 ->
  mdn_to_dur u (pack_mdn m d n) = if (m =? 0) && (d =? 0) then Some (Z.quot n (dur_scale u)) else None.
Proof.
  intros u m d n Hd Hn. unfold mdn_to_dur. destruct (mdn_unpack m d n Hd Hn) as (E1 & E2 & E3).
  rewrite E1, E2, E3. destruct (d =? 0), (m =? 0); reflexivity.
Qed.

Lemma dur_scale_pos : forall u, 0 < dur_scale u.
Proof. intros u. unfold dur_scale. destruct (u =? 0); [lia|]. destruct (u =? 1); [lia|]. destruct (u =? 2); lia. Qed.

Theorem dur_mdn_roundtrip : forall u v w, dur_to_mdn u v = Some w -> mdn_to_dur u w = Some v.
Proof.
  intros u v w H. unfold dur_to_mdn in H.
  destruct (checked_mul 64 v (dur_scale u)) as [n|] eqn:C; [|discriminate]. inversion H; subst w.
  destruct (checked_mul_inv _ _ _ _ C) as [-> F].
  apply fits_elim in F. unfold imin, imax in F. change (2 ^ (64 - 1)) with (2 ^ 63) in F.
  rewrite mdn_to_dur_exact by lia.
  cbn [Z.eqb andb]. pose proof (dur_scale_pos u). rewrite Z.quot_mul by lia. reflexivity.
Qed.

(* interval_conv is the closures of interval_kernel with checked_mul written out and the two field
   tests in the other order, so each arm agrees by computation *)
Lemma interval_kernel_computes : forall kind u conv, interval_conv kind u = Some conv ->
  computes (fun _ => True) conv (interval_kernel kind u).
Proof.
  intros kind u conv H. unfold interval_conv in H. unfold interval_kernel.
  destruct (kind =? 0).
  { inversion H. constructor. intros v _. unfold mdn_to_dur. destruct (mdn_days v =? 0), (mdn_months v =? 0); reflexivity. }
  destruct (kind =? 1).
  { inversion H. constructor. intros v _. unfold dur_to_mdn, checked_mul. cbv zeta. destruct (fits 64 true (v * dur_scale u)); reflexivity. }
  destruct (kind =? 2). { inversion H. constructor. reflexivity. }
  destruct (kind =? 3). { inversion H. constructor. reflexivity. }
  destruct (kind =? 4); [|discriminate]. inversion H. constructor. reflexivity.
Qed.

Theorem interval_cast_refines : forall kind u conv safe c, interval_conv kind u = Some conv ->
  refines (run_kernel (interval_kernel kind u) safe c) conv safe c.
Proof. intros kind u conv safe c H. apply (computes_refines _ _ _ _ _ (interval_kernel_computes kind u conv H)). trivial. Qed.

Theorem hms_decomposition : forall U v, 0 < U ->
  v = ((hms_hours U v * 60 + hms_mins U v) * 60 + hms_secs U v) * U + hms_sub U v
  /\ Z.abs (hms_mins U v) < 60 /\ Z.abs (hms_secs U v) < 60 /\ Z.abs (hms_sub U v) < U.
Proof.
  intros U v HU. unfold hms_mins, hms_secs, hms_sub, hms_hours.
  set (s0 := Z.quot v U). set (m0 := Z.quot s0 60). set (h := Z.quot m0 60).
  pose proof (Z.quot_rem' v U) as E1. fold s0 in E1.
  pose proof (Z.quot_rem' s0 60) as E2. fold m0 in E2.
  pose proof (Z.quot_rem' m0 60) as E3. fold h in E3.
  pose proof (Z.rem_bound_abs v U ltac:(lia)) as B1.
  pose proof (Z.rem_bound_abs s0 60 ltac:(lia)) as B2.
  pose proof (Z.rem_bound_abs m0 60 ltac:(lia)) as B3.
  clearbody s0 m0 h.
  split; [transitivity (U * s0 + Z.rem v U); [exact E1|ring]|].
  repeat split; lia.
Qed.

Theorem hms_nonneg : forall U v, 0 < U -> 0 <= v ->
  0 <= hms_hours U v /\ 0 <= hms_mins U v /\ 0 <= hms_secs U v /\ 0 <= hms_sub U v.
Proof.
  intros U v HU Hv. unfold hms_mins, hms_secs, hms_sub, hms_hours.
  set (s0 := Z.quot v U). set (m0 := Z.quot s0 60). set (h := Z.quot m0 60).
  assert (S0 : 0 <= s0) by (apply Z.quot_pos; lia).
  assert (M0 : 0 <= m0) by (apply Z.quot_pos; lia).
  assert (H0 : 0 <= h) by (apply Z.quot_pos; lia).
  pose proof (Z.quot_rem' s0 60) as E2. fold m0 in E2.
  pose proof (Z.quot_rem' m0 60) as E3. fold h in E3.
  pose proof (Z.rem_nonneg s0 60 ltac:(lia) S0). pose proof (Z.rem_nonneg m0 60 ltac:(lia) M0).
  pose proof (Z.rem_nonneg v U ltac:(lia) Hv).
  repeat split; lia.
Qed.
