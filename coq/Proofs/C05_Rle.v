(* C05 — RLE / bit-packed hybrid: the decoder inverts the serialisation of well-formed runs, and the
   RleEncoder state machine emits well-formed runs whose expansion is the input (plus < 8 zero pad). *)
From Coq Require Import List NArith ZArith Lia Bool ZifyNat.
From AV Require Import Base.ListX Model.C05_Enc Proofs.C05_Bits.
Import ListNotations.

(* reload() keeps the counts in u32 fields: rle_left = (indicator >> 1) as u32, bit_packed_left = ((indicator >> 1) * 8)
   as u32.  A count below 2^32, a group count below 2^29 come through unchanged; nothing else in rle.rs bounds them. *)
Lemma rle_header c : (0 < c)%nat -> (N.of_nat c < 4294967296)%N ->
  let h := (2 * N.of_nat c)%N in
  (h < 2^64)%N /\ (h =? 0)%N = false /\ N.even h = true /\ ((h / 2) mod 2^32)%N = N.of_nat c.
Proof.
  intros Hc Hb h. change (2^64)%N with 18446744073709551616%N. change (2^32)%N with 4294967296%N.
  repeat split; [lia|apply N.eqb_neq; lia|apply N.even_mul|].
  unfold h. rewrite N.mul_comm, N.div_mul by discriminate. apply N.mod_small. lia.
Qed.

Lemma bp_header g : (0 < g)%nat -> (N.of_nat g < 536870912)%N ->
  let h := (2 * N.of_nat g + 1)%N in
  (h < 2^64)%N /\ (h =? 0)%N = false /\ N.even h = false /\ ((h / 2 * 8) mod 2^32)%N = N.of_nat (8 * g).
Proof.
  intros Hg Hb h. change (2^64)%N with 18446744073709551616%N. change (2^32)%N with 4294967296%N.
  repeat split; [lia|apply N.eqb_neq; lia| |].
  - unfold h. rewrite N.add_comm. apply N.even_add_mul_2.
  - unfold h. rewrite <- (N.div_unique (2 * N.of_nat g + 1) 2 (N.of_nat g) 1) by reflexivity.
    rewrite N.mod_small by lia. lia.
Qed.

(* the limits wf_run sets on a run (wf_runs_shape checks that these are its numbers): half of what the counters above
   could hold; on the encoder's side only the input bound of rle_runs_spec matters, a run being a part of the input *)
Definition rle_max_count : N := 2147483648.
Definition rle_max_groups : N := 268435456.

Lemma count_fits c : (N.of_nat c < rle_max_count)%N -> (N.of_nat c < 4294967296)%N.
Proof. intros H. apply (N.lt_trans _ _ _ H). reflexivity. Qed.

(* a run is a part of the input, whose length is bounded *)
Lemma run_within a c : (N.of_nat (a + c) < rle_max_count)%N -> (N.of_nat c < rle_max_count)%N.
Proof. apply N.le_lt_trans. lia. Qed.

Lemma groups_fit g : (N.of_nat g < rle_max_groups)%N -> (N.of_nat g < 536870912)%N.
Proof. intros H. apply (N.lt_trans _ _ _ H). reflexivity. Qed.

Lemma ser_header w r tl : wf_run w r ->
  exists h rest, vlq_dec (ser w r ++ tl) 0 0 = Some (h, rest) /\ (h =? 0)%N = false.
Proof.
  destruct r as [c v|g vs]; cbn [wf_run ser]; intros (Hp & Hb & _); rewrite <- app_assoc.
  - destruct (rle_header c Hp (count_fits c Hb)) as (H64 & H0 & _). rewrite vlq_roundtrip by exact H64. eauto.
  - destruct (bp_header g Hp (groups_fit g Hb)) as (H64 & H0 & _). rewrite vlq_roundtrip by exact H64. eauto.
Qed.

Lemma ser_length_pos w r : wf_run w r -> (1 <= length (ser w r))%nat.
Proof.
  intros H. destruct (ser_header w r [] H) as (h & rest & Hd & _). rewrite app_nil_r in Hd.
  destruct (ser w r); [discriminate|cbn; lia].
Qed.

Lemma vbytes_pow w v : (v < 2^N.of_nat w)%N -> (v < 2^N.of_nat (8 * vbytes w))%N.
Proof.
  intros H. eapply N.lt_le_trans; [exact H|]. apply N.pow_le_mono_r; [lia|]. unfold vbytes. lia.
Qed.

Lemma decode_zero fuel w bs : rle_decode_aux fuel w 0 bs = Some [].
Proof. destruct fuel; reflexivity. Qed.

Lemma decode_rle fuel w n c v tl : n <> 0%nat -> wf_run w (Rle c v) ->
  rle_decode_aux (S fuel) w n (ser w (Rle c v) ++ tl) =
  option_map (app (repeat v (Nat.min n c))) (rle_decode_aux fuel w (n - Nat.min n c) tl).
Proof.
  intros Hn (Hc & Hb & Hv). destruct (rle_header c Hc (count_fits c Hb)) as (H64 & H0 & Hev & Hcnt).
  cbn [ser rle_decode_aux]. apply Nat.eqb_neq in Hn.
  rewrite <- app_assoc, Hn, vlq_roundtrip, H0, Hev, Hcnt by exact H64.
  rewrite ltb_app_exact, firstn_app_exact, skipn_app_exact by apply le_bytes_length.
  rewrite le_value_le_bytes by (apply vbytes_pow, Hv).
  rewrite <- Nat2N.inj_min, Nat2N.id. reflexivity.
Qed.

(* the payload of a bit-packed run is whole, so what the buffer still holds never limits the count *)
Lemma packed_avail w g m :
  (N.of_nat (8 * g) <= if (w =? 0)%nat then N.of_nat (8 * g) else N.of_nat (8 * (g * w + m) / w))%N.
Proof.
  destruct (Nat.eqb_spec w 0); [apply N.le_refl|].
  assert (8 * g <= 8 * (g * w + m) / w)%nat by (apply Nat.div_le_lower_bound; lia). lia.
Qed.

Lemma decode_packed fuel w n g vs tl : n <> 0%nat -> wf_run w (Packed g vs) ->
  rle_decode_aux (S fuel) w n (ser w (Packed g vs) ++ tl) =
  option_map (app (firstn n vs)) (rle_decode_aux fuel w (n - 8 * g) tl).
Proof.
  intros Hn (Hg & Hb & Hl & Hv). destruct (bp_header g Hg (groups_fit g Hb)) as (H64 & H0 & Hev & Hcnt).
  cbn [ser rle_decode_aux]. apply Nat.eqb_neq in Hn.
  rewrite <- app_assoc, Hn, vlq_roundtrip, H0, Hev, Hcnt by exact H64. clear H64 H0 Hev Hcnt Hb.
  assert (Hpl : length (bits_bytes (g * w) (pack w vs)) = (g * w)%nat) by apply bits_bytes_length.
  rewrite bytes_bits_app, bytes_bits_pack by (rewrite Hl; symmetry; apply Nat.mul_assoc).
  rewrite app_length, Hpl, N.min_l by (eapply N.le_trans; [apply N.le_min_r|apply packed_avail]).
  rewrite <- Nat2N.inj_min, Nat2N.id.
  destruct (Nat.lt_ge_cases n (8 * g)) as [Hlt|Hge].
  - (* the request ends inside this run *)
    rewrite Nat.min_l, Hn, unpack_firstn by (try exact Hv; lia).
    replace (n - 8 * g)%nat with 0%nat by lia. rewrite Nat.sub_diag, !decode_zero.
    destruct (N.of_nat n <? N.of_nat (8 * g))%N; reflexivity.
  - rewrite Nat.min_r, N.ltb_irrefl, unpack_firstn by (try exact Hv; lia).
    replace (8 * g =? 0)%nat with false by (symmetry; apply Nat.eqb_neq; lia).
    replace (N.to_nat (N.of_nat (8 * g) / 8)) with g
      by (rewrite Nat2N.inj_mul, N.mul_comm, N.div_mul, Nat2N.id by discriminate; reflexivity).
    rewrite skipn_app_exact by exact Hpl. rewrite !firstn_all2 by lia. reflexivity.
Qed.

Theorem rle_decode_aux_runs w : forall runs fuel n,
  Forall (wf_run w) runs -> (length (flat_map (ser w) runs) < fuel)%nat ->
  rle_decode_aux fuel w n (flat_map (ser w) runs) = Some (firstn n (flat_map expand runs)).
Proof.
  induction runs as [|r runs IH]; intros fuel n Hwf Hfuel.
  - destruct fuel as [|fuel]; [inversion Hfuel|]. cbn [flat_map rle_decode_aux vlq_dec].
    rewrite firstn_nil. destruct (n =? 0)%nat; reflexivity.
  - inversion Hwf as [|? ? Hr Hrs]; subst. cbn [flat_map] in *.
    destruct (Nat.eq_dec n 0) as [->|Hn]; [apply decode_zero|].
    pose proof (ser_length_pos w r Hr). rewrite app_length in Hfuel.
    destruct fuel as [|fuel]; [lia|]. rewrite firstn_app.
    destruct r as [c v|g vs]; cbn [expand].
    + rewrite decode_rle, IH by (assumption || lia). cbn [option_map].
      rewrite firstn_repeat, repeat_length. replace (n - Nat.min n c)%nat with (n - c)%nat by lia. reflexivity.
    + rewrite decode_packed, IH by (assumption || lia). cbn [option_map].
      destruct Hr as (_ & _ & -> & _). reflexivity.
Qed.

Theorem rle_decode_runs w runs n :
  Forall (wf_run w) runs ->
  rle_decode w n (flat_map (ser w) runs) = Some (firstn n (flat_map expand runs)).
Proof.
  intros Hwf. unfold rle_decode.
  assert (E : match vlq_dec (flat_map (ser w) runs) 0 0 with
              | Some (h, rest) => if (h =? 0)%N then rest else flat_map (ser w) runs
              | None => flat_map (ser w) runs end = flat_map (ser w) runs).
  { destruct runs as [|r runs]; [reflexivity|]. inversion Hwf as [|? ? Hr _]; subst. cbn [flat_map].
    destruct (ser_header w r (flat_map (ser w) runs) Hr) as (h & rest & -> & ->). reflexivity. }
  rewrite E. apply rle_decode_aux_runs; [exact Hwf|lia].
Qed.

(* what the encoder state stands for: the completed runs, the open bit-packed run, then the values not yet written,
   which are counted (rc >= 8: buffer already dropped) or buffered *)
Definition rle_pending (s : rle_st) : list N :=
  if (8 <=? r_rc s)%nat then repeat (r_cur s) (r_rc s) else r_buf s.
Definition rle_den (s : rle_st) : list N := flat_map expand (r_out s) ++ r_bp s ++ rle_pending s.

(* what the format demands of a run beside the range of its values; the values of the runs are those of the
   input, so their range need not be carried through the state machine *)
Definition run_shape (r : run) : Prop :=
  match r with
  | Rle c _ => (0 < c)%nat /\ (N.of_nat c < rle_max_count)%N
  | Packed g vs => (0 < g)%nat /\ (N.of_nat g < rle_max_groups)%N /\ length vs = (8 * g)%nat
  end.

Lemma wf_runs_shape w runs : Forall run_shape runs -> bounded w (flat_map expand runs) -> Forall (wf_run w) runs.
Proof.
  induction 1 as [|r runs Hr _ IH]; intros Hb; constructor.
  - apply Forall_app in Hb. destruct Hb as [Hb _].
    destruct r as [c v|g vs]; cbn [run_shape wf_run expand] in *.
    + destruct Hr as (Hc & Hcb). repeat split; [exact Hc|exact Hcb|]. destruct c; [lia|]. inversion Hb; assumption.
    + destruct Hr as (Hg & Hgb & Hl). repeat split; assumption.
  - apply IH. apply Forall_app in Hb. apply Hb.
Qed.

Lemma flat_expand_snoc out r : flat_map expand (out ++ [r]) = flat_map expand out ++ expand r.
Proof. rewrite flat_map_app. cbn. rewrite app_nil_r. reflexivity. Qed.

Lemma finish_shape out bp g : Forall run_shape out -> length bp = (8 * g)%nat -> (0 < g)%nat -> (g <= 63)%nat ->
  Forall run_shape (out ++ [Packed (length bp / 8) bp]).
Proof.
  intros Hout Hl Hg Hb. apply Forall_app; split; [exact Hout|]. constructor; [|constructor].
  rewrite Hl, Nat.mul_comm, Nat.div_mul by discriminate. cbn [run_shape]. unfold rle_max_groups.
  split; [exact Hg|]. split; [lia|exact Hl].
Qed.

Lemma rle_shape out c v : Forall run_shape out -> (0 < c)%nat -> (N.of_nat c < rle_max_count)%N ->
  Forall run_shape (out ++ [Rle c v]).
Proof. intros Ho Hc Hb. apply Forall_app; split; [exact Ho|]. constructor; [split; assumption|constructor]. Qed.

(* the open bit-packed run holds whole groups and can take one more before the 63-group limit closes it *)
Definition rle_room (bp : list N) : Prop := exists g, length bp = (8 * g)%nat /\ (g <= 62)%nat.

Lemma rle_room_nil : rle_room [].
Proof. exists 0%nat. split; [reflexivity|apply Nat.le_0_l]. Qed.

(* the encoder is either counting a run (nothing buffered, no open bit-packed run) or filling the buffer,
   whose last rc values are cur *)
Inductive rle_inv : rle_st -> Prop :=
| rle_counting out cur rc : Forall run_shape out -> (8 <= rc)%nat ->
    rle_inv {| r_out := out; r_bp := []; r_buf := []; r_cur := cur; r_rc := rc |}
| rle_filling out bp pre cur rc : Forall run_shape out -> rle_room bp -> (length pre + rc < 8)%nat ->
    rle_inv {| r_out := out; r_bp := bp; r_buf := pre ++ repeat cur rc; r_cur := cur; r_rc := rc |}.

Lemma rle_den_counting out cur rc : (8 <= rc)%nat ->
  rle_den {| r_out := out; r_bp := []; r_buf := []; r_cur := cur; r_rc := rc |} = flat_map expand out ++ repeat cur rc.
Proof. intros H. unfold rle_den, rle_pending. cbn [r_out r_bp r_buf r_cur r_rc app]. rewrite (proj2 (Nat.leb_le 8 rc) H). reflexivity. Qed.

Lemma rle_den_filling out bp buf cur rc : (rc < 8)%nat ->
  rle_den {| r_out := out; r_bp := bp; r_buf := buf; r_cur := cur; r_rc := rc |} = flat_map expand out ++ bp ++ buf.
Proof. intros H. unfold rle_den, rle_pending. cbn [r_out r_bp r_buf r_cur r_rc]. rewrite (proj2 (Nat.leb_gt 8 rc) H). reflexivity. Qed.

(* [rle_push]: the value is appended to the buffer (the caller has already updated cur / rc) *)
Lemma rle_push_ok out bp buf pre cur rc v :
  Forall run_shape out -> rle_room bp -> (length buf < 8)%nat -> (1 <= rc <= 8)%nat -> buf ++ [v] = pre ++ repeat cur rc ->
  let s' := rle_push {| r_out := out; r_bp := bp; r_buf := buf; r_cur := cur; r_rc := rc |} v in
  rle_den s' = flat_map expand out ++ bp ++ buf ++ [v] /\ rle_inv s'.
Proof.
  intros Hout (g & Hg8 & Hg62) Hlen Hrc Hpre.
  assert (Hrl : (length pre + rc = S (length buf))%nat).
  { apply (f_equal (@length N)) in Hpre. rewrite !app_length, repeat_length in Hpre. cbn [length] in Hpre.
    (* here and below lia is handed only the facts it needs; it would translate every hypothesis of the context *)
    clear - Hpre. lia. }
  unfold rle_push. cbn [r_out r_bp r_buf r_cur r_rc]. rewrite app_length. cbn [length].
  destruct (Nat.eqb_spec (length buf + 1) 8) as [H8|H8].
  - unfold flush_buffered_values. cbn [r_out r_bp r_buf r_cur r_rc].
    destruct (Nat.leb_spec 8 rc) as [Hge|Hlt].
    + (* all eight buffered values are the current value: switch to RLE accumulation *)
      assert (rc = 8)%nat by (clear - Hge Hrc; lia). subst rc.
      destruct pre; [|cbn [length] in Hrl; clear - Hrl H8; lia]. cbn [app] in Hpre.
      destruct bp as [|b bp']; cbn [length Nat.ltb Nat.leb].
      * split; [rewrite rle_den_counting, Hpre by apply Nat.le_refl; reflexivity|].
        apply rle_counting; [assumption|apply Nat.le_refl].
      * unfold finish_bp. cbn [r_out r_bp r_buf r_cur r_rc]. split.
        -- rewrite rle_den_counting, flat_expand_snoc, Hpre, <- app_assoc by apply Nat.le_refl. reflexivity.
        -- apply rle_counting; [|apply Nat.le_refl]. apply (finish_shape out _ g).
           ++ exact Hout.
           ++ exact Hg8.
           ++ clear - Hg8. cbn [length] in Hg8. lia.
           ++ apply le_S, Hg62.
    + (* a group of eight goes to the bit-packed run *)
      assert (Hl8 : length (bp ++ buf ++ [v]) = (8 * S g)%nat)
        by (rewrite !app_length; cbn [length]; clear - Hg8 H8; lia).
      destruct (Nat.leb_spec 64 (length (bp ++ buf ++ [v]) / 8 + 1)) as [Hfull|Hroom].
      * unfold finish_bp. cbn [r_out r_bp r_buf r_cur r_rc]. split.
        -- rewrite rle_den_filling, flat_expand_snoc, !app_nil_r by apply Nat.lt_0_succ. reflexivity.
        -- apply (rle_filling _ [] [] cur 0); [|apply rle_room_nil|apply Nat.lt_0_succ].
           apply (finish_shape out _ (S g)); [exact Hout|exact Hl8|apply Nat.lt_0_succ|apply le_n_S, Hg62].
      * split; [rewrite rle_den_filling, !app_nil_r by apply Nat.lt_0_succ; reflexivity|].
        apply (rle_filling out _ [] cur 0); [exact Hout| |apply Nat.lt_0_succ]. exists (S g). split; [exact Hl8|].
        rewrite Hl8, Nat.mul_comm, Nat.div_mul in Hroom by discriminate. clear - Hroom. lia.
  - split; [rewrite rle_den_filling by (clear - Hrl H8 Hlen; lia); reflexivity|]. rewrite Hpre.
    apply rle_filling; [exact Hout|exists g; split; assumption|clear - Hrl H8 Hlen; lia].
Qed.

Lemma rle_put_ok s v : rle_inv s -> (N.of_nat (length (rle_den s)) < rle_max_count)%N ->
  rle_den (rle_put s v) = rle_den s ++ [v] /\ rle_inv (rle_put s v).
Proof.
  intros [out cur rc Hout Hrc|out bp pre cur rc Hout Hbp Hlen] Hsmall; unfold rle_put; cbn [r_out r_bp r_buf r_cur r_rc].
  - rewrite rle_den_counting in * by exact Hrc. destruct (N.eqb_spec cur v) as [<-|Hne].
    + replace (8 <? S rc)%nat with true by (symmetry; apply Nat.ltb_lt, le_n_S, Hrc).
      split; [|apply rle_counting; [exact Hout|apply le_S, Hrc]].
      rewrite rle_den_counting by apply le_S, Hrc. cbn [repeat]. rewrite repeat_cons, app_assoc. reflexivity.
    + (* the run is closed: its length is where the bound on the input is needed *)
      rewrite (proj2 (Nat.leb_le 8 rc) Hrc). unfold flush_rle_run. cbn [r_out r_bp r_buf r_cur r_rc].
      rewrite app_length, repeat_length in Hsmall.
      destruct (rle_push_ok (out ++ [Rle rc cur]) [] [] [] v 1 v) as [Pd Pi].
      * apply rle_shape; [exact Hout|clear - Hrc; lia|exact (run_within _ _ Hsmall)].
      * apply rle_room_nil.
      * apply Nat.lt_0_succ.
      * clear; lia.
      * reflexivity.
      * split; [|exact Pi]. rewrite Pd, flat_expand_snoc, <- !app_assoc. reflexivity.
  - assert (Hrc : (rc < 8)%nat) by (clear - Hlen; lia). rewrite rle_den_filling in * by exact Hrc. clear Hsmall.
    assert (Hbl : (length (pre ++ repeat cur rc) < 8)%nat) by (rewrite app_length, repeat_length; exact Hlen).
    destruct (N.eqb_spec cur v) as [<-|Hne].
    + replace (8 <? S rc)%nat with false by (symmetry; apply Nat.ltb_ge, Hrc).
      destruct (rle_push_ok out bp (pre ++ repeat cur rc) pre cur (S rc) cur) as [Pd Pi];
        [exact Hout|exact Hbp|exact Hbl|clear - Hrc; lia|cbn [repeat]; rewrite repeat_cons, app_assoc; reflexivity|].
      split; [|exact Pi]. rewrite Pd, <- !app_assoc. reflexivity.
    + rewrite (proj2 (Nat.leb_gt 8 rc) Hrc). cbn [r_out r_bp r_buf r_cur r_rc].
      destruct (rle_push_ok out bp (pre ++ repeat cur rc) (pre ++ repeat cur rc) v 1 v) as [Pd Pi];
        [exact Hout|exact Hbp|exact Hbl|clear; lia|reflexivity|].
      split; [|exact Pi]. rewrite Pd, <- !app_assoc. reflexivity.
Qed.

Lemma rle_inv_new : rle_inv rle_new.
Proof. apply (rle_filling [] [] [] 0%N 0); [constructor|apply rle_room_nil|apply Nat.lt_0_succ]. Qed.

Lemma rle_puts_ok : forall vs s, rle_inv s -> (N.of_nat (length (rle_den s) + length vs) < rle_max_count)%N ->
  rle_den (fold_left rle_put vs s) = rle_den s ++ vs /\ rle_inv (fold_left rle_put vs s).
Proof.
  induction vs as [|v vs IH]; intros s HI Hs.
  - cbn. rewrite app_nil_r. split; [reflexivity|assumption].
  - cbn [fold_left length] in *.
    destruct (rle_put_ok s v HI) as [Hd HI']; [lia|].
    destruct (IH (rle_put s v) HI') as [Hd2 HI2].
    + rewrite Hd, app_length. cbn [length]. lia.
    + split; [|exact HI2]. rewrite Hd2, Hd, <- app_assoc. reflexivity.
Qed.

(* the final bit-packed run: the buffer, if any, is padded with zeros to a whole group *)
Lemma packed_tail out bp buf g :
  Forall run_shape out -> length bp = (8 * g)%nat -> (g <= 62)%nat -> (length buf < 8)%nat -> (0 < g)%nat \/ buf <> [] ->
  let all := bp ++ (if (0 <? length buf)%nat then buf ++ repeat 0%N (8 - length buf) else []) in
  exists k, (k < 8)%nat /\
    flat_map expand (out ++ [Packed (length all / 8) all]) = (flat_map expand out ++ bp ++ buf) ++ repeat 0%N k /\
    Forall run_shape (out ++ [Packed (length all / 8) all]).
Proof.
  intros Hout Hg8 Hg62 Hlen Hne. destruct buf as [|x buf']; cbn [length Nat.ltb Nat.leb]; cbv zeta.
  - exists 0%nat. rewrite !app_nil_r. split; [apply Nat.lt_0_succ|]. split; [apply flat_expand_snoc|].
    apply (finish_shape out bp g); [exact Hout|exact Hg8| |apply le_S, Hg62].
    destruct Hne as [Hg|Hne]; [exact Hg|now destruct Hne].
  - exists (8 - length (x :: buf'))%nat. split; [clear; cbn [length]; lia|]. split.
    + rewrite flat_expand_snoc, <- !app_assoc. reflexivity.
    + apply (finish_shape out _ (S g)); [exact Hout| |apply Nat.lt_0_succ|apply le_n_S, Hg62].
      rewrite !app_length, repeat_length, Hg8. clear - Hlen. cbn [length] in *. lia.
Qed.

Lemma rle_flush_ok s : rle_inv s -> (N.of_nat (length (rle_den s)) < rle_max_count)%N ->
  exists k, (k < 8)%nat /\ flat_map expand (rle_flush s) = rle_den s ++ repeat 0%N k /\ Forall run_shape (rle_flush s).
Proof.
  intros [out cur rc Hout Hrc|out bp pre cur rc Hout (g & Hg8 & Hg62) Hlen] Hsmall.
  - (* counting: one final RLE run *)
    rewrite rle_den_counting in * by exact Hrc. rewrite app_length, repeat_length in Hsmall.
    destruct rc as [|rc']; [inversion Hrc|]. exists 0%nat. split; [apply Nat.lt_0_succ|].
    cbn [rle_flush flush_rle_run r_out r_bp r_buf r_cur r_rc length Nat.ltb Nat.leb Nat.eqb orb andb].
    rewrite flat_expand_snoc, app_nil_r. split; [reflexivity|].
    apply rle_shape; [exact Hout|apply Nat.lt_0_succ|exact (run_within _ _ Hsmall)].
  - rewrite rle_den_filling in * by (clear - Hlen; lia). set (buf := pre ++ repeat cur rc) in *.
    assert (Hbl : length buf = (length pre + rc)%nat) by (unfold buf; rewrite app_length, repeat_length; reflexivity).
    unfold rle_flush, flush_rle_run, finish_bp. cbn [r_out r_bp r_buf r_cur r_rc].
    destruct (Nat.eq_dec (length bp + length pre) 0) as [E0|Hmix].
    + (* only a run of cur shorter than eight is pending: an RLE run, or nothing at all *)
      assert (bp = []) by (apply length_zero_iff_nil; clear - E0; lia).
      assert (pre = []) by (apply length_zero_iff_nil; clear - E0; lia). subst bp pre.
      cbn [app length Nat.add] in *. rewrite Hbl, Nat.eqb_refl. cbn [Nat.ltb Nat.leb Nat.eqb orb andb].
      exists 0%nat. split; [apply Nat.lt_0_succ|]. cbn [repeat]. rewrite app_nil_r.
      destruct rc as [|rc']; cbn [Nat.leb orb andb r_out];
        [split; [unfold buf; cbn [repeat]; rewrite app_nil_r; reflexivity|exact Hout]|].
      rewrite Nat.eqb_refl. cbn [orb]. rewrite flat_expand_snoc. split; [reflexivity|].
      rewrite app_length, Hbl in Hsmall. apply rle_shape; [exact Hout|apply Nat.lt_0_succ|exact (run_within _ _ Hsmall)].
    + (* mixed values: a bit-packed run *)
      replace ((0 <? length bp)%nat || (0 <? rc)%nat || (0 <? length buf)%nat) with true.
      2:{ symmetry. apply orb_true_iff. clear - Hmix Hbl.
          destruct (Nat.ltb_spec 0 (length bp)); [left; reflexivity|right; apply Nat.ltb_lt; lia]. }
      replace ((length bp =? 0)%nat && ((rc =? length buf)%nat || (length buf =? 0)%nat)) with false.
      2:{ symmetry. destruct (Nat.eqb_spec (length bp) 0) as [Ebp|]; [|reflexivity]. cbn [andb]. apply orb_false_iff.
          clear - Ebp Hmix Hbl. split; apply Nat.eqb_neq; lia. }
      rewrite andb_false_r. apply (packed_tail out bp buf g); [exact Hout|exact Hg8|exact Hg62|clear - Hbl Hlen; lia|].
      clear - Hg8 Hmix Hbl. destruct g; [right; intros E; rewrite E in Hbl; cbn in Hbl; lia|left; apply Nat.lt_0_succ].
Qed.

Theorem rle_runs_spec w vs : bounded w vs -> (N.of_nat (length vs) < 2147483648)%N ->
  exists k, (k < 8)%nat /\ flat_map expand (rle_runs vs) = vs ++ repeat 0%N k /\ Forall (wf_run w) (rle_runs vs).
Proof.
  intros Hb Hs. destruct (rle_puts_ok vs rle_new rle_inv_new Hs) as [Hd HI]. change (rle_den rle_new ++ vs) with vs in Hd.
  destruct (rle_flush_ok _ HI) as (k & Hk & He & Hw); [rewrite Hd; exact Hs|].
  exists k. unfold rle_runs. rewrite Hd in He. repeat split; [exact Hk|exact He|].
  apply wf_runs_shape; [exact Hw|]. rewrite He. apply Forall_app; split; [exact Hb|].
  apply Forall_forall. intros x Hx. apply repeat_spec in Hx. subst x. apply N.neq_0_lt_0, N.pow_nonzero. discriminate.
Qed.

Theorem rle_roundtrip w vs : bounded w vs -> (N.of_nat (length vs) < 2147483648)%N ->
  rle_decode w (length vs) (rle_encode w vs) = Some vs.
Proof.
  intros Hb Hs. destruct (rle_runs_spec w vs Hb Hs) as (k & _ & He & Hw).
  unfold rle_encode. rewrite rle_decode_runs by exact Hw. rewrite He.
  rewrite firstn_app_exact by reflexivity. reflexivity.
Qed.

