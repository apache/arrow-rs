(* C17 — CSV: the reader automaton splits the writer's text back into the records and fields that were
   written: quote doubling read by the default reader (no escape byte), or escape-style quoting read with the
   same escape byte (fields free of the escape byte); records written with LF or CRLF. *)
From Coq Require Import List NArith Bool.
From AV Require Import Model.C17_Csv.
Import ListNotations.
Local Open Scope N_scope.

Section Csv.
Variables d q e : N.
Variable crlf : bool.
Variable dbl : bool.                    (* true: quotes are doubled; false: escaped with e, reader escape = e *)
Hypothesis Heq : dbl = false -> e <> q.
Hypothesis Hdq : d <> q.
Hypothesis Hd10 : d <> 10.
Hypothesis Hd13 : d <> 13.
Hypothesis Hq10 : q <> 10.
Hypothesis Hq13 : q <> 13.

Definition wc := {| w_delim := d; w_quote := q; w_escape := e; w_double := dbl; w_crlf := crlf |}.
Definition rc := {| r_delim := d; r_quote := q; r_escape := if dbl then None else Some e; r_term := None |}.
(* the text is unambiguous: with escape-style quoting no field contains the escape byte *)
Definition escape_free (b : N) : Prop := dbl = false -> b <> e.

(* a byte the writer leaves unquoted *)
Definition plain_byte (b : N) : Prop := b <> d /\ b <> q /\ b <> 13 /\ b <> 10.

Lemma requires_false b : requires_quotes wc b = false -> plain_byte b.
Proof.
  unfold requires_quotes, plain_byte. cbn [w_delim w_quote w_double w_escape wc].
  intros H. apply orb_false_elim in H as [H H10]. apply orb_false_elim in H as [H H13].
  apply orb_false_elim in H as [H _]. apply orb_false_elim in H as [Hd Hq].
  apply N.eqb_neq in Hd, Hq, H13, H10. auto.
Qed.

Lemma existsb_false_plain f : existsb (requires_quotes wc) f = false -> Forall plain_byte f.
Proof.
  induction f as [|b f IH]; [constructor|]. cbn [existsb]. intros H.
  apply orb_false_iff in H. destruct H as [Hb Hf]. constructor; [now apply requires_false|now apply IH].
Qed.

Definition csv_run (p : pstate) (input : list N) : pstate := fold_left (step rc) input p.

Lemma run_app p a b : csv_run p (a ++ b) = csv_run (csv_run p a) b.
Proof. unfold csv_run. apply fold_left_app. Qed.
Lemma run_cons p b l : csv_run p (b :: l) = csv_run (step rc p b) l.
Proof. reflexivity. Qed.

Lemma is_term_false b : b <> 13 -> b <> 10 -> is_term rc b = false.
Proof. intros H13 H10. unfold is_term. cbn [r_term rc]. now rewrite (proj2 (N.eqb_neq _ _) H13), (proj2 (N.eqb_neq _ _) H10). Qed.

(* The states in which a field may be complete - InField, InDoubleQ and StartField with nothing read - treat the
   next byte alike (a quote apart).  StartRecord, which also skips blank lines, is left behind at the first
   byte of a record (run_start) and appears in no lemma about fields. *)
Definition field_end (b : N) (cur : list N) (fs : list (list N)) (rows : list (list (list N))) : pstate :=
  if b =? d then (StartField, [], rev cur :: fs, rows)
  else if is_term rc b then end_record rc b cur fs rows
  else (InField, b :: cur, fs, rows).

Definition field_done (s : st) (cur : list N) : Prop := s = InField \/ s = InDoubleQ \/ (s = StartField /\ cur = []).

Lemma step_done s cur fs rows b : field_done s cur -> b <> q -> step rc (s, cur, fs, rows) b = field_end b cur fs rows.
Proof.
  intros Hs Hq. unfold field_end. destruct Hs as [->|[->|[-> ->]]]; cbn [step].
  - (* InField *) reflexivity.
  - (* InDoubleQ *) cbn [r_quote rc]. now rewrite (proj2 (N.eqb_neq _ _) Hq).
  - (* StartField *) unfold start_field. cbn [r_quote rc]. now rewrite (proj2 (N.eqb_neq _ _) Hq).
Qed.

Lemma step_done_plain s cur fs rows b : field_done s cur -> plain_byte b ->
  step rc (s, cur, fs, rows) b = (InField, b :: cur, fs, rows).
Proof.
  intros Hs (Hd & Hq & H13 & H10). rewrite (step_done _ _ _ _ _ Hs Hq).
  unfold field_end. now rewrite (proj2 (N.eqb_neq _ _) Hd), is_term_false.
Qed.

Lemma step_done_delim s cur fs rows : field_done s cur ->
  step rc (s, cur, fs, rows) d = (StartField, [], rev cur :: fs, rows).
Proof. intros Hs. rewrite (step_done _ _ _ _ _ Hs Hdq). unfold field_end. now rewrite N.eqb_refl. Qed.

Lemma step_aftercr_lf rows : step rc (AfterCR, [], [], rows) 10 = (StartRecord, [], [], rows).
Proof. reflexivity. Qed.

Lemma run_done_term s cur fs rows : field_done s cur ->
  csv_run (s, cur, fs, rows) (terminator wc) = (StartRecord, [], [], rev (rev cur :: fs) :: rows).
Proof.
  intros Hs. unfold terminator. cbn [w_crlf wc]. destruct crlf; rewrite run_cons.
  - (* CR ends the field and the record, LF is swallowed *)
    rewrite (step_done _ _ _ _ _ Hs (not_eq_sym Hq13)). unfold field_end. rewrite (proj2 (N.eqb_neq 13 d) (not_eq_sym Hd13)).
    change (is_term rc 13) with true. change (end_record rc 13 cur fs rows) with (AfterCR, [] : list N, [] : list (list N), rev (rev cur :: fs) :: rows).
    now rewrite run_cons, step_aftercr_lf.
  - rewrite (step_done _ _ _ _ _ Hs (not_eq_sym Hq10)). unfold field_end. now rewrite (proj2 (N.eqb_neq 10 d) (not_eq_sym Hd10)).
Qed.

Lemma step_start_quote fs rows : step rc (StartField, [], fs, rows) q = (InQuoted, [], fs, rows).
Proof. cbn [step]. unfold start_field. cbn [r_quote rc]. now rewrite N.eqb_refl. Qed.

Lemma step_quoted b cur fs rows : b <> q -> escape_free b -> step rc (InQuoted, cur, fs, rows) b = (InQuoted, b :: cur, fs, rows).
Proof.
  intros Hq He. cbn [step r_quote rc]. rewrite (proj2 (N.eqb_neq _ _) Hq). unfold is_escape, escape_free in *. cbn [r_escape rc].
  destruct dbl; [reflexivity|]. now rewrite (proj2 (N.eqb_neq _ _) (He eq_refl)).
Qed.

Lemma step_quoted_q cur fs rows : step rc (InQuoted, cur, fs, rows) q = (InDoubleQ, cur, fs, rows).
Proof. cbn [step r_quote rc]. now rewrite N.eqb_refl. Qed.

Lemma step_quoted_e cur fs rows : dbl = false -> step rc (InQuoted, cur, fs, rows) e = (InEscaped, cur, fs, rows).
Proof.
  intros Hd. cbn [step r_quote rc]. rewrite (proj2 (N.eqb_neq _ _) (Heq Hd)). unfold is_escape. cbn [r_escape rc].
  now rewrite Hd, N.eqb_refl.
Qed.

Lemma step_doubleq_q cur fs rows : step rc (InDoubleQ, cur, fs, rows) q = (InQuoted, q :: cur, fs, rows).
Proof. cbn [step r_quote rc]. now rewrite N.eqb_refl. Qed.

Lemma run_plain f : forall cur fs rows, Forall plain_byte f ->
  csv_run (InField, cur, fs, rows) f = (InField, rev f ++ cur, fs, rows).
Proof.
  induction f as [|b f IH]; intros cur fs rows H; [reflexivity|].
  inversion H as [|? ? Hb Hf]; subst. rewrite run_cons, (step_done_plain _ _ _ _ _ (or_introl eq_refl) Hb).
  rewrite IH by exact Hf. cbn [rev]. now rewrite <- app_assoc.
Qed.

Lemma run_quoted_body f : forall cur fs rows, Forall escape_free f ->
  csv_run (InQuoted, cur, fs, rows) (flat_map (quote_byte wc) f) = (InQuoted, rev f ++ cur, fs, rows).
Proof.
  induction f as [|b f IH]; intros cur fs rows Hf; [reflexivity|].
  inversion Hf as [|? ? Hb Hf']; subst.
  cbn [flat_map rev]. rewrite run_app, <- app_assoc, <- (IH (b :: cur)) by exact Hf'. f_equal.
  unfold quote_byte. cbn [w_quote w_double w_escape wc].
  destruct (N.eqb_spec b q) as [->|Hne]; [|now rewrite run_cons, step_quoted].
  destruct (bool_dec dbl true) as [Hd|Hd%not_true_is_false]; rewrite Hd.
  - now rewrite run_cons, step_quoted_q, run_cons, step_doubleq_q.
  - now rewrite run_cons, step_quoted_e.
Qed.

Lemma run_field f fs rows : Forall escape_free f ->
  exists s', csv_run (StartField, [], fs, rows) (write_field wc f) = (s', rev f, fs, rows) /\ field_done s' (rev f).
Proof.
  intros Hef. unfold write_field.
  destruct (existsb (requires_quotes wc) f) eqn:Hq.
  - cbn [w_quote wc]. exists InDoubleQ.
    rewrite run_cons, step_start_quote, run_app, run_quoted_body by exact Hef.
    rewrite app_nil_r, run_cons, step_quoted_q. split; [reflexivity|right; now left].
  - apply existsb_false_plain in Hq. destruct f as [|b f].
    + exists StartField. split; [reflexivity|right; right; now split].
    + inversion Hq as [|? ? Hb Hf]; subst. exists InField.
      rewrite run_cons, (step_done_plain _ _ _ _ _ (or_intror (or_intror (conj eq_refl eq_refl))) Hb), run_plain by exact Hf.
      split; [reflexivity|now left].
Qed.

Lemma join_cons2 f g r : join_fields wc (f :: g :: r) = f ++ d :: join_fields wc (g :: r).
Proof. reflexivity. Qed.

Lemma run_fields : forall fields prev rows, fields <> [] -> Forall (Forall escape_free) fields ->
  csv_run (StartField, [], prev, rows) (join_fields wc (map (write_field wc) fields) ++ terminator wc)
  = (StartRecord, [], [], rev (rev fields ++ prev) :: rows).
Proof.
  induction fields as [|f fields IH]; intros prev rows Hne Hef; [contradiction|].
  inversion Hef as [|? ? Hf Hef']; subst.
  destruct (run_field f prev rows Hf) as (s' & Hrun & Hd).
  destruct fields as [|g fields].
  - cbn [map join_fields]. now rewrite run_app, Hrun, run_done_term, rev_involutive by exact Hd.
  - cbn [map]. rewrite join_cons2, <- app_assoc, run_app, Hrun.
    cbn [app]. rewrite run_cons, step_done_delim, rev_involutive by exact Hd.
    change (join_fields wc (write_field wc g :: map (write_field wc) fields)) with (join_fields wc (map (write_field wc) (g :: fields))).
    rewrite IH; [|discriminate|exact Hef']. cbn [rev]. now rewrite <- !app_assoc.
Qed.

(* a record never begins with a terminator byte, so its first byte is read as by StartField *)
Lemma run_start b t rows : is_term rc b = false ->
  csv_run (StartRecord, [], [], rows) (b :: t) = csv_run (StartField, [], [], rows) (b :: t).
Proof. intros H. rewrite !run_cons. cbn [step]. unfold start_record. now rewrite H. Qed.

Lemma field_head f b t : write_field wc f = b :: t -> is_term rc b = false.
Proof.
  unfold write_field. destruct (existsb (requires_quotes wc) f) eqn:Hq.
  - intros [= <- _]. exact (is_term_false q Hq13 Hq10).
  - intros ->. apply existsb_false_plain in Hq. inversion Hq as [|? ? (_ & _ & H13 & H10) _]. now apply is_term_false.
Qed.

Lemma body_head fields b t : join_fields wc (map (write_field wc) fields) = b :: t -> is_term rc b = false.
Proof.
  destruct fields as [|f [|g fields]]; cbn [map]; [discriminate|apply field_head|].
  rewrite join_cons2. destruct (write_field wc f) as [|b' t'] eqn:E.
  - intros [= <- _]. exact (is_term_false d Hd13 Hd10).
  - intros [= <- _]. exact (field_head f b' t' E).
Qed.

Lemma run_record fields rows : fields <> [] -> Forall (Forall escape_free) fields ->
  csv_run (StartRecord, [], [], rows) (write_record wc fields) = (StartRecord, [], [], fields :: rows).
Proof.
  intros Hne Hef. unfold write_record.
  destruct (join_fields wc (map (write_field wc) fields)) as [|b body] eqn:Hj.
  - (* the record wrote nothing: it is one empty field, written as two quotes *)
    assert (Hf : fields = [[]]).
    { destruct fields as [|f [|g fields]]; [contradiction| |].
      - cbn [map join_fields] in Hj. unfold write_field in Hj.
        destruct (existsb (requires_quotes wc) f); [discriminate|]. now subst f.
      - cbn [map] in Hj. rewrite join_cons2 in Hj. destruct (write_field wc f); discriminate. }
    subst fields. cbn [w_quote wc app].
    rewrite run_start, run_cons, step_start_quote, run_cons, step_quoted_q by exact (is_term_false q Hq13 Hq10).
    now rewrite run_done_term by (right; now left).
  - cbn [app]. rewrite run_start by exact (body_head fields b body Hj).
    change (b :: body ++ terminator wc) with ((b :: body) ++ terminator wc). rewrite <- Hj, run_fields by assumption.
    now rewrite app_nil_r, rev_involutive.
Qed.

Lemma run_rows : forall rows done_rows, Forall (fun r => r <> []) rows -> Forall (Forall (Forall escape_free)) rows ->
  csv_run (StartRecord, [], [], done_rows) (write_rows wc rows) = (StartRecord, [], [], rev rows ++ done_rows).
Proof.
  induction rows as [|r rows IH]; intros done_rows H He; [reflexivity|].
  inversion H as [|? ? Hr Hrows]; subst. inversion He as [|? ? Her Herows]; subst.
  unfold write_rows. cbn [flat_map]. rewrite run_app. rewrite run_record by assumption.
  fold (write_rows wc rows). rewrite IH by assumption. cbn [rev]. now rewrite <- app_assoc.
Qed.

Theorem split_write_rows_gen rows : Forall (fun r => r <> []) rows -> Forall (Forall (Forall escape_free)) rows ->
  split rc (write_rows wc rows) = rows.
Proof.
  intros H He. unfold split. fold (csv_run (StartRecord, [], [], []) (write_rows wc rows)).
  rewrite run_rows by assumption. cbn [finish]. rewrite app_nil_r. apply rev_involutive.
Qed.
End Csv.

Theorem split_write_rows d q e crlf : d <> q -> d <> 10 -> d <> 13 -> q <> 10 -> q <> 13 ->
  forall rows, Forall (fun r => r <> []) rows -> split (rc d q e true) (write_rows (wc d q e crlf true) rows) = rows.
Proof.
  intros ? ? ? ? ? rows H. apply split_write_rows_gen; try assumption; [discriminate|].
  apply Forall_forall. intros r _. apply Forall_forall. intros f _. apply Forall_forall. intros b _. unfold escape_free. discriminate.
Qed.

Theorem split_write_rows_escaped d q e crlf : d <> q -> d <> 10 -> d <> 13 -> q <> 10 -> q <> 13 -> e <> q ->
  forall rows, Forall (fun r => r <> []) rows -> Forall (Forall (Forall (fun b => b <> e))) rows ->
  split (rc d q e false) (write_rows (wc d q e crlf false) rows) = rows.
Proof.
  intros ? ? ? ? ? Heq rows H He. apply split_write_rows_gen; try assumption; [intros _; exact Heq|].
  eapply Forall_impl; [|exact He]. intros r Hr. eapply Forall_impl; [|exact Hr]. intros f Hf.
  eapply Forall_impl; [|exact Hf]. intros b Hb _. exact Hb.
Qed.

(* non-vacuity: fields with delimiters, quotes, CR, LF, CRLF, empty fields, a record of one empty field *)
Example ex_rows :
  let rows := [[[97; 44; 98]; []; [34]]; [[]]; [[]; [13; 10]; [120]]; [[10]; []; []]; [[34; 34; 44]]] in
  Forall (fun r : list (list N) => r <> []) rows /\
  split (rc 44 34 92 true) (write_rows (wc 44 34 92 true true) rows) = rows /\
  split (rc 44 34 92 true) (write_rows (wc 44 34 92 false true) rows) = rows /\
  split (rc 44 34 92 false) (write_rows (wc 44 34 92 false false) rows) = rows.
Proof. cbv zeta. split; [repeat constructor; discriminate|repeat split; vm_compute; reflexivity]. Qed.
