(* C12 — the row machinery (try_binary / binary / try_unary / unary / scalar dispatch) computes
   exactly the row-wise specification on the logical content: values under null slots are inert,
   result rows are null iff an input row is null, the kernel fails iff a valid row fails.
   [map2] below is the model's (Model/C12_Kernel); it is ListX.map2 by computation, so the ListX
   lemmas about map2 apply to it as they stand. *)
From Coq Require Import List ZArith Bool Lia.
From AV Require Import Base.ListX Model.C12_Int Model.C12_Kernel Proofs.C12_Int.
Import ListNotations.

(* logical rows of a validity vector over a value vector: the value of a null slot is erased *)
Definition mk (v : list bool) (a : list Z) : list (option Z) :=
  map2 (fun (v : bool) x => if v then Some x else None) v a.
(* the validity vector of an array, all true when it has no null buffer: denote a = mk (vof a) (a_vals a) *)
Definition vof (a : parr) : list bool :=
  match a_nulls a with Some n => n | None => repeat true (arr_len a) end.
(* well-formed array: the null buffer, if any, is as long as the values *)
Definition wf (a : parr) : Prop :=
  match a_nulls a with Some n => length n = length (a_vals a) | None => True end.
(* what a fallible loop returned, read under the validity vector n *)
Definition lift (n : list bool) (r : list Z + Z) : list (option Z) + Z :=
  match r with inl v => inl (mk n v) | inr k => inr k end.

Lemma mk_cons b v x a : mk (b :: v) (x :: a) = (if b then Some x else None) :: mk v a.
Proof. reflexivity. Qed.

Lemma mk_true a : mk (repeat true (length a)) a = map Some a.
Proof. induction a as [|x a IH]; [reflexivity|]. cbn [length repeat map]. now rewrite mk_cons, IH. Qed.

Lemma denote_mk a : denote a = mk (vof a) (a_vals a).
Proof.
  unfold denote, vof, arr_len. destruct (a_nulls a) as [n|]; [reflexivity|].
  symmetry. apply mk_true.
Qed.

Lemma vof_length a : wf a -> length (vof a) = arr_len a.
Proof.
  unfold wf, vof, arr_len. destruct (a_nulls a) as [n|]; [auto|]. intros _. apply repeat_length.
Qed.

Lemma mk_length v a : length v = length a -> length (mk v a) = length a.
Proof. intros L. unfold mk. rewrite map2_length. lia. Qed.

Lemma denote_empty a : arr_len a = O -> denote a = [].
Proof.
  unfold arr_len. rewrite denote_mk. destruct (a_vals a); [|discriminate]. intros _. unfold mk. now destruct (vof a).
Qed.

Lemma denote_length a : wf a -> length (denote a) = arr_len a.
Proof. intros W. rewrite denote_mk. apply mk_length. now apply vof_length. Qed.

Lemma count_false_0 n : count_false n = O -> n = repeat true (length n).
Proof.
  induction n as [|b n IH]; [reflexivity|]. cbn [count_false length repeat].
  destruct b; cbn; [|discriminate]. intros E. f_equal. now apply IH.
Qed.

Lemma count_false_repeat_true n : count_false (repeat true n) = 0%nat.
Proof. induction n; [reflexivity|]. cbn [repeat count_false]. lia. Qed.
Lemma null_count_vof a : null_count a = count_false (vof a).
Proof. unfold null_count, vof. destruct (a_nulls a); [reflexivity|]. symmetry. apply count_false_repeat_true. Qed.
Lemma vof_no_nulls a : wf a -> null_count a = O -> vof a = repeat true (arr_len a).
Proof.
  unfold wf, null_count, vof, arr_len. destruct (a_nulls a) as [n|]; [|reflexivity].
  intros L C. rewrite (count_false_0 n C). now rewrite L.
Qed.

Lemma and_true_r v : map2 andb v (repeat true (length v)) = v.
Proof. induction v as [|b v IH]; [reflexivity|]. cbn [length repeat map2]. rewrite IH, andb_true_r. reflexivity. Qed.
Lemma and_true_l v : map2 andb (repeat true (length v)) v = v.
Proof. induction v as [|b v IH]; [reflexivity|]. cbn [length repeat map2]. rewrite IH. reflexivity. Qed.
Lemma and_true_true n : map2 andb (repeat true n) (repeat true n) = repeat true n.
Proof. induction n as [|n IH]; [reflexivity|]. cbn [repeat map2]. rewrite IH. reflexivity. Qed.

Lemma cons_ok_lift b n z r : lift (b :: n) (cons_ok z r) = cons_row (if b then Some z else None) (lift n r).
Proof. destruct r; reflexivity. Qed.

Lemma spec_rows2_cons f (p q : bool) x y l r :
  spec_rows2 f ((if p then Some x else None) :: l) ((if q then Some y else None) :: r) =
  if p && q then match f x y with Err k => inr k | Ok z => cons_row (Some z) (spec_rows2 f l r) end
  else cons_row None (spec_rows2 f l r).
Proof. destruct p, q; reflexivity. Qed.

(* no premise on lengths: every loop and mk stop at the shortest of their lists *)
Lemma try_zip_valid_spec f : forall va vb a b,
  lift (map2 andb va vb) (try_zip_valid f (map2 andb va vb) a b) = spec_rows2 f (mk va a) (mk vb b).
Proof.
  induction va as [|p va IH]; intros [|q vb] [|x a] [|y b]; try reflexivity.
  cbn [map2 try_zip_valid]. rewrite !mk_cons, spec_rows2_cons.
  specialize (IH vb a b).
  destruct (p && q).
  - destruct (f x y) as [z|k]; [|reflexivity]. rewrite cons_ok_lift, IH. reflexivity.
  - rewrite cons_ok_lift, IH. reflexivity.
Qed.

(* the same without a validity vector: every row is valid *)
Definition somes (r : list Z + Z) : list (option Z) + Z :=
  match r with inl v => inl (map Some v) | inr k => inr k end.
Lemma cons_ok_somes z r : somes (cons_ok z r) = cons_row (Some z) (somes r).
Proof. destruct r; reflexivity. Qed.

Lemma try_zip_spec f : forall a b, somes (try_zip f a b) = spec_rows2 f (map Some a) (map Some b).
Proof.
  induction a as [|x a IH]; intros [|y b]; try reflexivity.
  cbn [try_zip map spec_rows2]. destruct (f x y); [|reflexivity]. now rewrite cons_ok_somes, IH.
Qed.
Lemma try_map_spec f : forall a, somes (try_map f a) = spec_rows1 f (map Some a).
Proof.
  induction a as [|x a IH]; [reflexivity|].
  cbn [try_map map spec_rows1]. destruct (f x); [|reflexivity]. now rewrite cons_ok_somes, IH.
Qed.

Lemma spec_rows2_nil_l f r : spec_rows2 f [] r = inl [].
Proof. reflexivity. Qed.

Lemma try_zip_valid_length f : forall n a b v, length n = length a -> length a = length b ->
  try_zip_valid f n a b = inl v -> length v = length a.
Proof.
  induction n as [|p n IH]; intros [|x a] [|y b] v Ln L E; cbn [length] in *; try discriminate.
  - inversion E. reflexivity.
  - cbn [try_zip_valid] in E. destruct p.
    + destruct (f x y); [|discriminate].
      destruct (try_zip_valid f n a b) as [t|] eqn:E'; cbn [cons_ok] in E; [|discriminate].
      inversion E. cbn [length]. f_equal. apply (IH a b t); [lia|lia|exact E'].
    + destruct (try_zip_valid f n a b) as [t|] eqn:E'; cbn [cons_ok] in E; [|discriminate].
      inversion E. cbn [length]. f_equal. apply (IH a b t); [lia|lia|exact E'].
Qed.

Lemma canon_no_nulls f a b :
  canon (try_binary_no_nulls f a b) = spec_rows2 f (map Some (a_vals a)) (map Some (a_vals b)).
Proof.
  unfold try_binary_no_nulls. rewrite <- try_zip_spec.
  destruct (try_zip f (a_vals a) (a_vals b)); reflexivity.
Qed.

Lemma map2_andb_length : forall x y : list bool, length x = length y -> length (map2 andb x y) = length x.
Proof. intros x y L. rewrite map2_length. lia. Qed.

Lemma nb_union_vof a b n : wf a -> wf b -> arr_len a = arr_len b ->
  nb_union (a_nulls a) (a_nulls b) = Some n -> n = map2 andb (vof a) (vof b).
Proof.
  unfold wf, vof, nb_union, arr_len. intros Wa Wb L.
  destruct (a_nulls a) as [x|], (a_nulls b) as [y|]; intros E; inversion E; subst.
  - reflexivity.
  - rewrite <- L, <- Wa. symmetry. apply and_true_r.
  - rewrite L, <- Wb. symmetry. apply and_true_l.
Qed.

Theorem try_binary_spec f a b : wf a -> wf b ->
  canon (try_binary f a b) =
  if negb (arr_len a =? arr_len b)%nat then inr E_INVALID else spec_rows2 f (denote a) (denote b).
Proof.
  intros Wa Wb. unfold try_binary.
  destruct (Nat.eqb_spec (arr_len a) (arr_len b)) as [L|L]; cbn [negb]; [|reflexivity].
  destruct (Nat.eqb_spec (arr_len a) 0) as [Z0|Z0].
  - now rewrite (denote_empty a Z0).
  - destruct ((null_count a =? 0)%nat && (null_count b =? 0)%nat) eqn:NC.
    + apply andb_true_iff in NC. destruct NC as [Na Nb]. apply Nat.eqb_eq in Na, Nb.
      rewrite (denote_mk a), (denote_mk b), (vof_no_nulls a Wa Na), (vof_no_nulls b Wb Nb).
      unfold arr_len in *. rewrite !mk_true. apply canon_no_nulls.
    + destruct (nb_union (a_nulls a) (a_nulls b)) as [n|] eqn:U.
      * pose proof (nb_union_vof a b n Wa Wb L U) as En.
        pose proof (try_zip_valid_spec f (vof a) (vof b) (a_vals a) (a_vals b)) as S.
        rewrite <- En in S. rewrite (denote_mk a), (denote_mk b), <- S.
        destruct (try_zip_valid f n (a_vals a) (a_vals b)) as [v|k] eqn:E; cbn [canon lift]; reflexivity.
      * unfold nb_union in U. destruct (a_nulls a) eqn:A1, (a_nulls b) eqn:B1; try discriminate.
        unfold denote. rewrite A1, B1. apply canon_no_nulls.
Qed.

Lemma try_map_valid_spec f : forall n a, lift n (try_map_valid f n a) = spec_rows1 f (mk n a).
Proof.
  induction n as [|p n IH]; intros [|x a]; try reflexivity.
  rewrite mk_cons. cbn [try_map_valid spec_rows1]. specialize (IH a).
  destruct p.
  - destruct (f x); [|reflexivity]. rewrite cons_ok_lift, IH. reflexivity.
  - rewrite cons_ok_lift, IH. reflexivity.
Qed.
Theorem try_unary_spec f a : canon (try_unary f a) = spec_rows1 f (denote a).
Proof.
  unfold try_unary, denote.
  destruct (a_nulls a) as [n|].
  - fold (mk n (a_vals a)). rewrite <- (try_map_valid_spec f n (a_vals a)).
    destruct (try_map_valid f n (a_vals a)); reflexivity.
  - rewrite <- try_map_spec. destruct (try_map f (a_vals a)); reflexivity.
Qed.

Lemma spec_rows2_bcast_l f x : forall r, spec_rows2 f (repeat (Some x) (length r)) r = spec_rows1 (f x) r.
Proof.
  induction r as [|[y|] r IH]; [reflexivity| |]; cbn [length repeat spec_rows2 spec_rows1]; rewrite IH; reflexivity.
Qed.
Lemma spec_rows2_bcast_r f y : forall l, spec_rows2 f l (repeat (Some y) (length l)) = spec_rows1 (fun x => f x y) l.
Proof.
  induction l as [|[x|] l IH]; [reflexivity| |]; cbn [length repeat spec_rows2 spec_rows1]; rewrite IH; reflexivity.
Qed.
Lemma spec_rows2_null_l f : forall r, spec_rows2 f (repeat None (length r)) r = inl (repeat None (length r)).
Proof. induction r as [|y r IH]; [reflexivity|]. cbn [length repeat spec_rows2]. rewrite IH. reflexivity. Qed.
Lemma spec_rows2_null_r f : forall l, spec_rows2 f l (repeat None (length l)) = inl (repeat None (length l)).
Proof. induction l as [|[x|] l IH]; [reflexivity| |]; cbn [length repeat spec_rows2]; rewrite IH; reflexivity. Qed.

Lemma canon_new_null n : canon (new_null n) = inl (repeat None n).
Proof.
  unfold new_null, canon, denote. cbn [a_nulls a_vals]. f_equal.
  induction n as [|n IH]; [reflexivity|]. cbn [repeat map2]. now rewrite IH.
Qed.

Lemma scalar_row a : wf a -> arr_len a = 1%nat ->
  denote a = [if (null_count a =? 0)%nat then Some (value0 a) else None].
Proof.
  unfold wf, arr_len, denote, null_count, value0. intros W L.
  destruct (a_vals a) as [|x [|? ?]]; try discriminate. cbn [hd].
  destruct (a_nulls a) as [[|p [|? ?]]|]; try discriminate; [|reflexivity].
  destruct p; reflexivity.
Qed.

(* The scalar / array dispatch of the macros op! and try_op!, for any array-array kernel bin and
   array kernels un_l x, un_r y (a scalar x on the left, y on the right) that compute f row-wise.
   The conclusion spells out the body the two macros share, so that each is an instance by [apply]. *)
Lemma dispatch_spec f (bin : parr -> parr -> ares) (un_l un_r : Z -> parr -> ares) l_s r_s l r :
  (forall a b, wf a -> wf b -> canon (bin a b) =
     if negb (arr_len a =? arr_len b)%nat then inr E_INVALID else spec_rows2 f (denote a) (denote b)) ->
  (forall x a, wf a -> canon (un_l x a) = spec_rows1 (f x) (denote a)) ->
  (forall y a, wf a -> canon (un_r y a) = spec_rows1 (fun x => f x y) (denote a)) ->
  wf l -> wf r -> (l_s = true -> arr_len l = 1%nat) -> (r_s = true -> arr_len r = 1%nat) ->
  canon (match l_s, r_s with
         | true, true | false, false => bin l r
         | true, false => if (null_count l =? 0)%nat then un_l (value0 l) r else new_null (arr_len r)
         | false, true => if (null_count r =? 0)%nat then un_r (value0 r) l else new_null (arr_len l)
         end)
  = spec_binary_kernel f l_s r_s (denote l) (denote r).
Proof.
  intros Hb Hl Hr Wl Wr Sl Sr. unfold spec_binary_kernel, broadcast.
  destruct l_s, r_s; cbn [andb negb].
  - rewrite Hb by assumption. now rewrite !denote_length.
  - specialize (Sl eq_refl). rewrite (scalar_row l Wl Sl). cbn [hd].
    rewrite repeat_length, Nat.eqb_refl. cbn [negb].
    destruct (null_count l =? 0)%nat.
    + rewrite spec_rows2_bcast_l. now apply Hl.
    + rewrite spec_rows2_null_l, canon_new_null. now rewrite denote_length.
  - specialize (Sr eq_refl). rewrite (scalar_row r Wr Sr). cbn [hd].
    rewrite repeat_length, Nat.eqb_refl. cbn [negb].
    destruct (null_count r =? 0)%nat.
    + rewrite spec_rows2_bcast_r. now apply Hr.
    + rewrite spec_rows2_null_r, canon_new_null. now rewrite denote_length.
  - rewrite Hb by assumption. now rewrite !denote_length.
Qed.

Theorem try_op_spec f l_s r_s l r :
  wf l -> wf r -> (l_s = true -> arr_len l = 1%nat) -> (r_s = true -> arr_len r = 1%nat) ->
  canon (try_op f l_s r_s l r) = spec_binary_kernel f l_s r_s (denote l) (denote r).
Proof.
  apply (dispatch_spec f (try_binary f) (fun x => try_unary (f x)) (fun y => try_unary (fun x => f x y))).
  - apply try_binary_spec.
  - intros x a _. apply try_unary_spec.
  - intros y a _. apply try_unary_spec.
Qed.

(* infallible forms: every row is computed, also under nulls; canon erases those rows *)
Lemma mk_map2 (g : Z -> Z -> Z) : forall va vb a b,
  inl (mk (map2 andb va vb) (map2 g a b)) = spec_rows2 (fun x y => Ok (g x y)) (mk va a) (mk vb b).
Proof.
  induction va as [|p va IH]; intros [|q vb] [|x a] [|y b]; try reflexivity.
  cbn [map2]. rewrite !mk_cons. cbn [spec_rows2].
  rewrite <- (IH vb a b). destruct p, q; reflexivity.
Qed.
Theorem binary_spec g a b : wf a -> wf b ->
  canon (binary g a b) =
  if negb (arr_len a =? arr_len b)%nat then inr E_INVALID
  else spec_rows2 (fun x y => Ok (g x y)) (denote a) (denote b).
Proof.
  intros Wa Wb. unfold binary.
  destruct (Nat.eqb_spec (arr_len a) (arr_len b)) as [L|L]; cbn [negb]; [|reflexivity].
  destruct (Nat.eqb_spec (arr_len a) 0) as [Z0|Z0].
  - now rewrite (denote_empty a Z0).
  - rewrite (denote_mk a), (denote_mk b).
    rewrite <- (mk_map2 g (vof a) (vof b) (a_vals a) (a_vals b)).
    cbn [canon]. f_equal. rewrite denote_mk. cbn [a_vals]. f_equal.
    unfold vof at 1. cbn [a_nulls arr_len a_vals].
    destruct (nb_union (a_nulls a) (a_nulls b)) as [n|] eqn:U.
    + apply (nb_union_vof a b n Wa Wb L U).
    + unfold nb_union in U. unfold vof. destruct (a_nulls a), (a_nulls b); try discriminate.
      unfold arr_len in *. cbn [a_vals]. rewrite map2_length, <- L, Nat.min_id. symmetry. apply and_true_true.
Qed.

Lemma mk_map (g : Z -> Z) : forall v a, inl (mk v (map g a)) = spec_rows1 (fun x => Ok (g x)) (mk v a).
Proof.
  induction v as [|p v IH]; intros [|x a]; try reflexivity.
  cbn [map]. rewrite !mk_cons. cbn [spec_rows1]. rewrite <- IH. now destruct p.
Qed.
Lemma unary_rows g a : canon (unary g a) = spec_rows1 (fun x => Ok (g x)) (denote a).
Proof.
  unfold unary. cbn [canon]. rewrite (denote_mk a), denote_mk, <- mk_map. cbn [a_vals].
  unfold vof, arr_len. cbn [a_nulls a_vals]. now rewrite map_length.
Qed.
(* the same with the premise dispatch_spec gives its array kernels *)
Theorem unary_spec g a : wf a -> canon (unary g a) = spec_rows1 (fun x => Ok (g x)) (denote a).
Proof. intros _. apply unary_rows. Qed.

Theorem inf_op_spec g l_s r_s l r :
  wf l -> wf r -> (l_s = true -> arr_len l = 1%nat) -> (r_s = true -> arr_len r = 1%nat) ->
  canon (inf_op g l_s r_s l r) = spec_binary_kernel (fun x y => Ok (g x y)) l_s r_s (denote l) (denote r).
Proof.
  apply (dispatch_spec (fun x y => Ok (g x y)) (binary g) (fun x => unary (g x)) (fun y => unary (fun x => g x y))).
  - apply binary_spec.
  - intros x a. apply (unary_spec (g x)).
  - intros y a. apply (unary_spec (fun x => g x y)).
Qed.

(* the specification applies the row function only to values that occur in the arrays *)
Lemma spec_rows2_ext f g : forall l r,
  (forall a b, In (Some a) l -> In (Some b) r -> f a b = g a b) -> spec_rows2 f l r = spec_rows2 g l r.
Proof.
  induction l as [|x l IH]; intros [|y r] E; try reflexivity.
  cbn [spec_rows2]. rewrite (IH r) by (intros a b Ia Ib; apply E; now right).
  destruct x as [a|], y as [b|]; try reflexivity. now rewrite (E a b) by now left.
Qed.
Lemma spec_rows1_ext f g : forall l,
  (forall a, In (Some a) l -> f a = g a) -> spec_rows1 f l = spec_rows1 g l.
Proof.
  induction l as [|x l IH]; intros E; [reflexivity|].
  cbn [spec_rows1]. rewrite IH by (intros a Ia; apply E; now right).
  destruct x as [a|]; [|reflexivity]. now rewrite (E a) by now left.
Qed.

Lemma In_denote x a : In (Some x) (denote a) -> In x (a_vals a).
Proof.
  rewrite denote_mk. generalize (vof a).
  induction (a_vals a) as [|y l IH]; intros [|b v]; [intros []..|].
  rewrite mk_cons. intros [E|I]; [left; destruct b; congruence|right; eauto].
Qed.
Lemma In_broadcast s o x other a : In (Some a) (broadcast s o x other) -> In (Some a) x.
Proof.
  unfold broadcast. destruct (s && negb o); [|auto]. intros I. apply repeat_spec in I.
  destruct x as [|h t]; [discriminate|]. left. now symmetry.
Qed.

Lemma spec_binary_kernel_ext f g l_s r_s l r :
  (forall a b, In a (a_vals l) -> In b (a_vals r) -> f a b = g a b) ->
  spec_binary_kernel f l_s r_s (denote l) (denote r) = spec_binary_kernel g l_s r_s (denote l) (denote r).
Proof.
  intros E. unfold spec_binary_kernel.
  destruct (negb (length (broadcast l_s r_s (denote l) (denote r)) =? length (broadcast r_s l_s (denote r) (denote l)))%nat);
    [reflexivity|].
  apply spec_rows2_ext. intros a b Ia Ib. apply E; apply In_denote; eapply In_broadcast; eassumption.
Qed.

Section Width.
Variable H : Z.
Hypothesis Hpos : (0 < H)%Z.

Definition vals_in_range (s : bool) (a : parr) : Prop := Forall (fun x => in_range s H x = true) (a_vals a).
Lemma vals_in_range_In s a x : vals_in_range s a -> In x (a_vals a) -> in_range s H x = true.
Proof. intros R. exact (proj1 (Forall_forall _ _) R x). Qed.

Theorem integer_op_spec s op l_s r_s l r :
  wf l -> wf r -> (l_s = true -> arr_len l = 1%nat) -> (r_s = true -> arr_len r = 1%nat) ->
  vals_in_range s l -> vals_in_range s r ->
  canon (integer_op s H op l_s r_s l r) = spec_binary_kernel (spec_scalar s H op) l_s r_s (denote l) (denote r).
Proof.
  intros Wl Wr Sl Sr Rl Rr. unfold integer_op.
  assert (E : forall a b, In a (a_vals l) -> In b (a_vals r) ->
            integer_op_elem s H op a b = spec_scalar s H op a b).
  { intros a b Ia Ib. apply (integer_op_elem_spec H Hpos); [exact (vals_in_range_In s l a Rl Ia)|exact (vals_in_range_In s r b Rr Ib)]. }
  destruct (is_wrapping op) eqn:Wp.
  - rewrite inf_op_spec by assumption. apply spec_binary_kernel_ext. intros a b Ia Ib.
    rewrite <- (E a b Ia Ib). destruct op; try discriminate; reflexivity.
  - rewrite try_op_spec by assumption. now apply spec_binary_kernel_ext.
Qed.

Theorem neg_kernel_spec a : vals_in_range true a ->
  canon (neg_kernel true H a) = spec_rows1 (spec_neg true H) (denote a).
Proof.
  intros R. unfold neg_kernel. rewrite try_unary_spec.
  apply spec_rows1_ext. intros x Ix. apply neg_checked_spec.
  exact (vals_in_range_In true a x R (In_denote x a Ix)).
Qed.

Theorem neg_wrapping_kernel_spec s a :
  canon (neg_wrapping_kernel s H a) = spec_rows1 (spec_neg_wrapping s H) (denote a).
Proof. apply unary_rows. Qed.

End Width.
