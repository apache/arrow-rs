(* C04 — split_batch_for_grpc_response: the pieces are non-empty, in order, and concatenate to the batch. *)
From Coq Require Import List Arith NArith Lia.
From AV Require Import Base.ListX Model.C04_Flight.
Import ListNotations.

Lemma split_loop_concat {A} (rows : list A) rp : 0 < rp ->
  forall fuel off, length rows - off <= fuel ->
  concat (map (slice_rows rows) (split_loop fuel rp off (length rows))) = skipn off rows.
Proof.
  intros Hrp. induction fuel as [|f IH]; intros off Hfuel.
  - cbn. now rewrite skipn_all2 by lia.
  - cbn [split_loop]. destruct (Nat.ltb_spec off (length rows)) as [Hlt|Hge].
    + cbn [map concat]. rewrite IH by lia.
      unfold slice_rows. cbn [fst snd]. rewrite <- skipn_skipn. apply firstn_skipn.
    + now rewrite skipn_all2 by lia.
Qed.

Lemma split_loop_bounds rp n : 0 < rp -> forall fuel off,
  Forall (fun p => 0 < snd p /\ fst p + snd p <= n /\ snd p <= rp) (split_loop fuel rp off n).
Proof.
  intros Hrp. induction fuel as [|f IH]; intros off; cbn [split_loop]; [constructor|].
  destruct (Nat.ltb_spec off n) as [Hlt|Hge]; [|constructor].
  constructor; [cbn [fst snd]; lia|apply IH].
Qed.

(* successive pieces are adjacent: piece k+1 starts where piece k ends (no reordering, no gap, no overlap) *)
Fixpoint adjacent (start : nat) (ps : list (nat * nat)) : Prop :=
  match ps with [] => True | (o, l) :: r => o = start /\ adjacent (o + l) r end.
Lemma split_loop_adjacent rp n : forall fuel off, adjacent off (split_loop fuel rp off n).
Proof.
  induction fuel as [|f IH]; intros off; cbn [split_loop]; [exact I|].
  destruct (off <? n); [|exact I]. cbn [adjacent]. split; [reflexivity|apply IH].
Qed.

Theorem flight_split_concat_all {A} (rows : list A) size max :
  let ps := split (length rows) size max in
  concat (map (slice_rows rows) ps) = rows /\
  Forall (fun p => 0 < snd p /\ fst p + snd p <= length rows) ps /\
  adjacent 0 ps.
Proof.
  cbn zeta. unfold split.
  assert (Hrp : 0 < rows_per_batch (length rows) (n_batches size max)) by (unfold rows_per_batch; lia).
  split; [apply (split_loop_concat rows _ Hrp); lia|]. split; [|apply split_loop_adjacent].
  eapply Forall_impl; [|exact (split_loop_bounds _ (length rows) Hrp _ 0)]. cbn. intros p Hp. lia.
Qed.

Theorem flight_split_piece_bound (num_rows : nat) (size max : N) :
  Forall (fun p => snd p <= rows_per_batch num_rows (n_batches size max)) (split num_rows size max).
Proof.
  unfold split.
  assert (Hrp : 0 < rows_per_batch num_rows (n_batches size max)) by (unfold rows_per_batch; lia).
  eapply Forall_impl; [|exact (split_loop_bounds _ num_rows Hrp _ 0)]. cbn. intros p Hp. lia.
Qed.
