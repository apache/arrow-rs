(* C07 — the UTF-8 codec of Model/C07_Trunc.v is, definition for definition, that of Base/Utf8.v;
   its round trips (both directions) are the ones proved there. *)
From Coq Require Import List NArith.
From AV Require Base.Utf8.
From AV Require Import Model.C07_Trunc.
Import ListNotations.
Local Open Scope N_scope.

Lemma scalar_eq : scalar = Utf8.scalar. Proof. reflexivity. Qed.
Lemma in_rng_eq : in_rng = Utf8.in_rng. Proof. reflexivity. Qed.
Lemma encode_eq : encode = Utf8.encode. Proof. reflexivity. Qed.
Lemma decode1_eq : decode1 = Utf8.decode1. Proof. reflexivity. Qed.
Lemma decode_all_eq : decode_all = Utf8.decode_all. Proof. reflexivity. Qed.
Lemma valid_utf8_eq : valid_utf8 = Utf8.valid_utf8. Proof. reflexivity. Qed.

Lemma in_rng_false_lo lo hi b : b < lo -> in_rng lo hi b = false.
Proof. rewrite in_rng_eq. apply Utf8.in_rng_false_lo. Qed.

Theorem decode1_encode c rest : scalar c = true -> decode1 (encode c ++ rest) = Some (c, rest).
Proof. rewrite scalar_eq, decode1_eq, encode_eq. apply Utf8.decode1_encode. Qed.

Theorem decode_all_encode cs : Forall (fun c => scalar c = true) cs ->
  forall fuel, (length (flat_map encode cs) <= fuel)%nat -> decode_all fuel (flat_map encode cs) = Some cs.
Proof. rewrite scalar_eq, decode_all_eq, encode_eq. apply Utf8.decode_all_encode. Qed.

Corollary decode_encode cs : Forall (fun c => scalar c = true) cs -> decode (flat_map encode cs) = Some cs.
Proof. intros H. unfold decode. now apply decode_all_encode. Qed.

Theorem decode1_inv bs c r : decode1 bs = Some (c, r) -> bs = encode c ++ r /\ scalar c = true.
Proof. rewrite scalar_eq, decode1_eq, encode_eq. apply Utf8.decode1_inv. Qed.

Corollary decode_inv bs cs : decode bs = Some cs -> bs = flat_map encode cs /\ Forall (fun c => scalar c = true) cs.
Proof. unfold decode. rewrite scalar_eq, decode_all_eq, encode_eq. apply Utf8.decode_all_inv. Qed.

Lemma valid_utf8_iff d : valid_utf8 d = true <-> exists cs, Forall (fun c => scalar c = true) cs /\ d = flat_map encode cs.
Proof. rewrite valid_utf8_eq, scalar_eq, encode_eq. apply Utf8.valid_utf8_iff. Qed.

Corollary valid_encode cs : Forall (fun c => scalar c = true) cs -> valid_utf8 (flat_map encode cs) = true.
Proof. intros H. apply valid_utf8_iff. now exists cs. Qed.
