(* C10 — the comparator as arrow-cmp builds it (compare_impl's four cases, total_cmp key, view keys,
   list zip loop) equals the specification comparator on well-formed values; so do the element tests
   and value comparators that the executable kernel and sort models run. *)
From Coq Require Import List ZArith Lia Bool.
From AV Require Import Model.C10_Order Model.C10_Rank Model.D_C10 Proofs.C10_Float Proofs.C10_Cmp Proofs.C10_Bytes.
Import ListNotations.

(* well-formed logical values: bytes are bytes, a float is a w-bit pattern with h = 2^(w-1) *)
Fixpoint wf_val (v : val) : Prop :=
  match v with
  | VInt _ => True
  | VFloat h b => exists w, (0 < w)%Z /\ h = (2 ^ (w - 1))%Z /\ (0 <= b < 2 ^ w)%Z
  | VBytes l => bytes l
  | VList l =>
      (fix go (l : list oval) : Prop :=
         match l with
         | [] => True
         | o :: r => match o with Some u => wf_val u | None => True end /\ go r
         end) l
  end.
Definition wf_slot (o : oval) : Prop := oP wf_val o.
Definition wf_col (a : list oval) : Prop := Forall wf_slot a.

Lemma wf_list l : wf_val (VList l) <-> Forall wf_slot l.
Proof.
  induction l as [|o l IH]; cbn.
  - split; [constructor|trivial].
  - split.
    + intros [H1 H2]. constructor; [destruct o; exact H1|]. apply IH. exact H2.
    + intros H. inversion H as [|? ? H1 H2]; subst. split; [destruct o; exact H1|]. apply IH. exact H2.
Qed.

Lemma m_vcmp_list bc cnf x y :
  m_vcmp bc cnf (VList x) (VList y) = m_list_cmp (ncmp cnf false (m_vcmp bc cnf)) x y.
Proof.
  revert y. induction x as [|p x IH]; intros [|q y]; try reflexivity.
  specialize (IH y). unfold m_list_cmp in *. cbn in IH |- *.
  destruct p as [u|], q as [v|]; cbn; try (destruct cnf; reflexivity).
  - destruct (m_vcmp bc cnf u v); try reflexivity. exact IH.
  - exact IH.
Qed.

Lemma w_of_pow w : (0 < w)%Z -> w_of_h (2 ^ (w - 1)) = w.
Proof. intros H. unfold w_of_h. rewrite Z.log2_pow2 by lia. lia. Qed.

Section M.
  Variable bc : list Z -> list Z -> comparison.
  Hypothesis Hbc : forall x y, bytes x -> bytes y -> bc x y = bytes_cmp x y.

  Theorem m_vcmp_spec cnf : forall a b, wf_val a -> wf_val b -> m_vcmp bc cnf a b = vcmp cnf a b.
  Proof.
    intros a. induction a as [z|h x|l|l IH] using val_ind'; intros [z'|h' x'|l'|l'] Wa Wb; try reflexivity.
    - cbn. destruct (h ?= h')%Z eqn:E; try reflexivity. apply Z.compare_eq in E. subst h'.
      destruct Wa as (w & Hw & Hh & Hx). destruct Wb as (w' & Hw' & Hh' & Hx').
      assert (w' = w). { subst h. apply Z.pow_inj_r in Hh'; lia. } subst w' h.
      rewrite w_of_pow by exact Hw. now apply float_key_total_order.
    - cbn. apply Hbc; assumption.
    - rewrite m_vcmp_list, m_list_cmp_lex, vcmp_list.
      apply wf_list in Wa. apply wf_list in Wb. rewrite Forall_forall in IH, Wa, Wb.
      apply lex_cmp_ext. intros [u|] [v|] Hu Hv; try reflexivity.
      exact (IH _ Hu v (Wa _ Hu) (Wb _ Hv)).
  Qed.

  Theorem m_cmp_idx_spec nf desc a b i j : wf_col a -> wf_col b -> i < length a -> j < length b ->
    m_cmp_idx bc nf desc a b i j = cmp_idx nf desc a b i j.
  Proof.
    intros Wa Wb Hi Hj. unfold m_cmp_idx, cmp_idx, cmp_opts, ocmp.
    rewrite (compare_impl_spec nf desc a b (null_buffer a) (null_buffer b)
               (m_vcmp bc (child_nf nf desc)) i j (null_buffer_ok a) (null_buffer_ok b) Hi Hj).
    pose proof (Forall_slot wf_val a i Wa) as Sa. pose proof (Forall_slot wf_val b j Wb) as Sb.
    destruct (slot a i) as [u|], (slot b j) as [v|]; cbn; try reflexivity.
    rewrite m_vcmp_spec by assumption. reflexivity.
  Qed.
End M.

Lemma view_cmp_bc : forall x y, bytes x -> bytes y -> view_cmp x y = bytes_cmp x y.
Proof. exact view_cmp_lex. Qed.

Definition leaf (v : val) : Prop := match v with VList _ => False | _ => True end.
Definition ok_leaf (v : val) : Prop := wf_val v /\ leaf v.

Lemma bc_of_lex ty x y : bytes x -> bytes y -> bc_of ty x y = bytes_cmp x y.
Proof. intros Hx Hy. unfold bc_of. destruct (is_view ty); [now apply view_cmp_lex|reflexivity]. Qed.

Lemma m_is_lt_ok ty a b : ok_leaf a -> ok_leaf b -> m_is_lt ty a b = is_lt_c (vcmp false a b).
Proof.
  intros [Wa _] [Wb _]. unfold m_is_lt. rewrite (m_vcmp_spec (bc_of ty) (bc_of_lex ty) false a b Wa Wb). reflexivity.
Qed.

(* an equality test agrees with a comparator whose Eq is equality *)
Lemma eqb_is_eq {A} (eqb : A -> A -> bool) (c : A -> A -> comparison) x y :
  (eqb x y = true <-> x = y) -> (c x y = Eq <-> x = y) -> eqb x y = is_eq_c (c x y).
Proof.
  intros H1 H2. destruct (c x y) eqn:E; cbn; [now apply H1, H2|..];
    apply not_true_iff_false; intros H; apply H1, H2 in H; congruence.
Qed.

Lemma m_is_eq_iff ty a b : ok_leaf a -> ok_leaf b -> m_is_eq ty a b = true <-> a = b.
Proof.
  intros [Wa La] [Wb Lb]. destruct a as [x|h x|x|x], b as [y|h' y|y|y]; try contradiction; cbn [m_is_eq val_eqb].
  (* different constructors: the test is false and the values differ; then integers, floats, byte strings *)
  all: try (split; discriminate).
  - rewrite Z.eqb_eq. split; congruence.
  - rewrite andb_true_iff, !Z.eqb_eq. split; [intros [-> ->]; reflexivity|intros [= -> ->]; now split].
  - cbn in Wa, Wb. replace (if is_view ty then view_eq x y else list_eqb x y) with (list_eqb x y)
      by (destruct (is_view ty); [now rewrite view_eq_spec|reflexivity]).
    rewrite list_eqb_iff. split; congruence.
Qed.

Lemma m_is_eq_ok ty a b : ok_leaf a -> ok_leaf b -> m_is_eq ty a b = is_eq_c (vcmp false a b).
Proof. intros Ha Hb. apply eqb_is_eq; [now apply m_is_eq_iff|apply vcmp_eq_iff]. Qed.

Lemma vcmp_leaf cnf a b : leaf a -> leaf b -> vcmp cnf a b = vcmp false a b.
Proof. destruct a, b; cbn; intros; try contradiction; reflexivity. Qed.

Lemma m_value_cmp_ok ty cnf a b : ok_leaf a -> ok_leaf b -> m_value_cmp ty a b = vcmp cnf a b.
Proof.
  intros [Wa La] [Wb Lb]. rewrite (vcmp_leaf cnf a b La Lb). unfold m_value_cmp.
  destruct (existsb _ ty).
  - (* sort_bytes: the prefix comparator on two byte strings, the plain comparator otherwise *)
    rewrite <- (m_vcmp_spec bytes_cmp (fun x y _ _ => eq_refl) false a b Wa Wb).
    destruct a as [x|h x|x|x], b as [y|h' y|y|y]; try reflexivity. now apply cmp_bytes_prefix_lex.
  - apply (m_vcmp_spec (bc_of ty) (bc_of_lex ty) false); assumption.
Qed.
