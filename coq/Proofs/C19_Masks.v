(* C19: UnalignedBitChunk — the prefix/suffix masks keep exactly the addressed bits, and when the
   addressed bytes fit one or two u64 words, [ubc_new] yields words that hold exactly those bits. *)
From Coq Require Import List ZArith Lia Bool.
From AV Require Import Base.Bits Base.Bytes Model.C19_Bits Proofs.C19_Chunks.
Import ListNotations.
Local Open Scope N_scope.

Lemma prefix_mask_spec lead i : lead < 64 -> i < 64 ->
  N.testbit (prefix_mask lead) i = (lead <=? i).
Proof.
  intros Hl Hi. unfold prefix_mask, u64_not. rewrite ones_pred, N.ldiff_spec.
  rewrite N.ones_spec_low by assumption.
  destruct (N.leb_spec lead i).
  - now rewrite N.ones_spec_high.
  - now rewrite N.ones_spec_low.
Qed.

Lemma suffix_mask_testbit len lead i : i < 64 ->
  N.testbit (fst (suffix_mask len lead)) i =
  (((len + lead) mod 64 =? 0) || (i <? (len + lead) mod 64)).
Proof.
  intros Hi. unfold suffix_mask.
  destruct (N.eqb_spec ((len + lead) mod 64) 0) as [E|NE]; cbn [fst orb].
  - now apply N.ones_spec_low.
  - rewrite ones_pred. destruct (N.ltb_spec i ((len + lead) mod 64)).
    + now rewrite N.ones_spec_low.
    + now rewrite N.ones_spec_high.
Qed.

(* no file here requires ZifyN, so lia alone knows nothing of [mod]: its division equations are called by hand *)
Lemma trailing_padding_gen len lead :
  (snd (suffix_mask len lead) + len + lead) mod 64 = 0 /\ snd (suffix_mask len lead) < 64.
Proof.
  unfold suffix_mask. destruct (N.eqb_spec ((len + lead) mod 64) 0); cbn [snd];
    zify; Z.to_euclidean_division_equations; lia.
Qed.

Lemma mod64_in_word n w : 64 * w < n <= 64 * w + 64 ->
  n mod 64 = if n =? 64 * w + 64 then 0 else n - 64 * w.
Proof.
  intros H. destruct (N.eqb_spec n (64 * w + 64)); symmetry.
  - apply (N.mod_unique n 64 (w + 1)); lia.
  - apply (N.mod_unique n 64 w); lia.
Qed.

(* if the range, counted from the lead padding, ends inside word w, the suffix mask keeps the bits of
   that word which lie inside the range and the trailing padding is the rest of the word *)
Lemma suffix_mask_word len lead w : 64 * w < len + lead <= 64 * w + 64 ->
  snd (suffix_mask len lead) = 64 * w + 64 - (len + lead) /\
  forall i, i < 64 -> N.testbit (fst (suffix_mask len lead)) i = (64 * w + i <? len + lead).
Proof.
  intros H. pose proof (mod64_in_word (len + lead) w H) as Hm. split.
  - unfold suffix_mask. rewrite Hm. destruct (N.eqb_spec (len + lead) (64 * w + 64)); [cbn [N.eqb snd]; lia|].
    destruct (N.eqb_spec (len + lead - 64 * w) 0); [lia|]. cbn [snd]. lia.
  - intros i Hi. rewrite suffix_mask_testbit, Hm by exact Hi.
    destruct (N.eqb_spec (len + lead) (64 * w + 64)).
    + cbn [N.eqb orb]. symmetry. apply N.ltb_lt. lia.
    + destruct (N.eqb_spec (len + lead - 64 * w) 0); [lia|]. cbn [orb].
      apply eq_true_iff_eq. rewrite !N.ltb_lt. lia.
Qed.

Lemma suffix_mask_spec len lead i : i < 64 -> 0 < len -> len + lead <= 64 ->
  N.testbit (fst (suffix_mask len lead)) i = (i <? len + lead).
Proof. intros Hi Hlen Hle. apply (suffix_mask_word len lead 0); [lia|exact Hi]. Qed.

Theorem single_word_spec x len lead i : i < 64 -> lead < 8 -> 0 < len -> len + lead <= 64 ->
  N.testbit (N.land (N.land x (fst (suffix_mask len lead))) (prefix_mask lead)) i
  = (N.testbit x i && (lead <=? i) && (i <? len + lead)).
Proof.
  intros Hi Hl Hlen Hle.
  rewrite !N.land_spec, prefix_mask_spec, suffix_mask_spec by lia.
  destruct (N.testbit x i), (lead <=? i), (i <? len + lead); reflexivity.
Qed.

(* [ubc_new] takes nat arguments and hands the masks [N.of_nat] of them: the facts above once more, read through
   [N.of_nat], which is the form the theorems about [ubc_new] need *)
Lemma prefix_mask_nat lead i : (lead < 64)%nat -> (i < 64)%nat ->
  N.testbit (prefix_mask (N.of_nat lead)) (N.of_nat i) = (lead <=? i)%nat.
Proof. intros Hl Hi. rewrite prefix_mask_spec by lia. apply N_leb_of_nat. Qed.

Lemma suffix_mask_nat len lead w : (64 * w < len + lead <= 64 * w + 64)%nat ->
  snd (suffix_mask (N.of_nat len) (N.of_nat lead)) = N.of_nat (64 * w + 64 - (len + lead)) /\
  forall i, (i < 64)%nat ->
    N.testbit (fst (suffix_mask (N.of_nat len) (N.of_nat lead))) (N.of_nat i) = (64 * w + i <? lead + len)%nat.
Proof.
  intros H. destruct (suffix_mask_word (N.of_nat len) (N.of_nat lead) (N.of_nat w) ltac:(lia)) as [Hs Hb].
  split; [lia|]. intros i Hi. rewrite Hb, <- (N_ltb_of_nat (64 * w + i)) by lia. f_equal; lia.
Qed.

(* the bytes [ubc_new] slices out of the buffer for a range *)
Definition addressed (bs : list N) (off len : nat) : list N :=
  firstn ((len + off mod 8 + 7) / 8) (skipn (off / 8) bs).

Lemma addressed_word_testbit bs off len w i : wf_bytes bs -> (i < 64)%nat ->
  (64 * w + i < len + off mod 8)%nat ->
  N.testbit (read_u64_slice (skipn (8 * w) (addressed bs off len))) (N.of_nat i)
  = bit_at bs (8 * (off / 8) + (64 * w + i)).
Proof.
  intros Hwf Hi Hin. rewrite read_u64_slice_testbit by (apply wf_skipn, wf_firstn_skipn, Hwf || exact Hi).
  unfold addressed. rewrite bit_at_skipn, bit_at_firstn, bit_at_skipn.
  - f_equal. lia.
  - replace (8 * (8 * w) + i)%nat with (64 * w + i)%nat by lia. now apply div8_lt_ceil.
Qed.

Lemma read_u64_slice_firstn bs n : (8 <= n)%nat -> read_u64_slice (firstn n bs) = read_u64_slice bs.
Proof. intros H. unfold read_u64_slice. now rewrite firstn_firstn, Nat.min_l. Qed.

Lemma ubc_new_single bs align off len : (0 < len)%nat -> ((len + off mod 8 + 7) / 8 <= 8)%nat ->
  ubc_new bs align off len =
  let lead := N.of_nat (off mod 8) in
  let m := suffix_mask (N.of_nat len) lead in
  {| u_lead := lead; u_trail := snd m;
     u_prefix := Some (N.land (N.land (read_u64_slice (addressed bs off len)) (fst m)) (prefix_mask lead));
     u_chunks := []; u_suffix := None |}.
Proof.
  intros Hlen H8. unfold ubc_new.
  rewrite (proj2 (Nat.eqb_neq len 0)), (proj2 (Nat.leb_le _ 8) H8) by lia.
  now destruct (suffix_mask _ _).
Qed.

Lemma ubc_new_two bs align off len : (8 < (len + off mod 8 + 7) / 8 <= 16)%nat ->
  ubc_new bs align off len =
  let lead := N.of_nat (off mod 8) in
  let m := suffix_mask (N.of_nat len) lead in
  {| u_lead := lead; u_trail := snd m;
     u_prefix := Some (N.land (read_u64_slice (firstn 8 (addressed bs off len))) (prefix_mask lead));
     u_chunks := [];
     u_suffix := Some (N.land (read_u64_slice (skipn 8 (addressed bs off len))) (fst m)) |}.
Proof.
  intros H. pose proof (ceil8_bounds (len + off mod 8)). pose proof (Nat.mod_upper_bound off 8 ltac:(discriminate)).
  unfold ubc_new.
  rewrite (proj2 (Nat.eqb_neq len 0)), (proj2 (Nat.leb_gt _ 8)), (proj2 (Nat.leb_le _ 16)) by lia.
  now destruct (suffix_mask _ _).
Qed.


(* the word in which the range ends, under the suffix mask *)
Lemma last_word_testbit bs off len w i : wf_bytes bs -> (i < 64)%nat ->
  (64 * w < len + off mod 8 <= 64 * w + 64)%nat ->
  N.testbit (N.land (read_u64_slice (skipn (8 * w) (addressed bs off len)))
                    (fst (suffix_mask (N.of_nat len) (N.of_nat (off mod 8))))) (N.of_nat i)
  = ((64 * w + i <? off mod 8 + len)%nat && bit_at bs (8 * (off / 8) + (64 * w + i))).
Proof.
  intros Hwf Hi Hw. destruct (suffix_mask_nat len (off mod 8) w Hw) as [_ Hsm].
  rewrite N.land_spec, Hsm by exact Hi.
  destruct (Nat.ltb_spec (64 * w + i) (off mod 8 + len)) as [Hin|Hout]; [|apply andb_false_r].
  rewrite addressed_word_testbit by (exact Hwf || exact Hi || lia). apply andb_true_r.
Qed.

Lemma only_word_testbit bs off len i : wf_bytes bs -> (i < 64)%nat -> (0 < len + off mod 8 <= 64)%nat ->
  N.testbit (N.land (read_u64_slice (addressed bs off len))
                    (fst (suffix_mask (N.of_nat len) (N.of_nat (off mod 8))))) (N.of_nat i)
  = ((i <? off mod 8 + len)%nat && bit_at bs (8 * (off / 8) + i)).
Proof. exact (last_word_testbit bs off len 0 i). Qed.

Lemma second_word_testbit bs off len i : wf_bytes bs -> (i < 64)%nat -> (64 < len + off mod 8 <= 128)%nat ->
  N.testbit (N.land (read_u64_slice (skipn 8 (addressed bs off len)))
                    (fst (suffix_mask (N.of_nat len) (N.of_nat (off mod 8))))) (N.of_nat i)
  = ((64 + i <? off mod 8 + len)%nat && bit_at bs (8 * (off / 8) + (64 + i))).
Proof. exact (last_word_testbit bs off len 1 i). Qed.

Theorem unaligned_single_word bs align off len :
  wf_bytes bs -> (0 < len)%nat ->
  let lead := (off mod 8)%nat in
  let bytes_len := ((len + lead + 7) / 8)%nat in
  (bytes_len <= 8)%nat ->
  let u := ubc_new bs align off len in
  u_lead u = N.of_nat lead /\ u_trail u = 64 - N.of_nat (len + lead) /\ u_chunks u = [] /\ u_suffix u = None /\
  exists p, u_prefix u = Some p /\
    forall i, (i < 64)%nat ->
      N.testbit p (N.of_nat i) = ((lead <=? i)%nat && (i <? lead + len)%nat && bit_at bs (8 * (off / 8) + i)).
Proof.
  intros Hwf Hlen lead bytes_len Hb8 u. subst u. rewrite ubc_new_single by assumption. subst lead bytes_len.
  cbv zeta. cbn [u_lead u_trail u_prefix u_chunks u_suffix].
  pose proof (Nat.mod_upper_bound off 8 ltac:(discriminate)) as Hl8. pose proof (ceil8_bounds (len + off mod 8)) as Hc.
  assert (Hw : (0 < len + off mod 8 <= 64)%nat) by lia.
  split; [reflexivity|]. split; [rewrite (proj1 (suffix_mask_nat len _ 0 Hw)); lia|].
  split; [reflexivity|]. split; [reflexivity|].
  eexists. split; [reflexivity|]. intros i Hi.
  rewrite N.land_spec, prefix_mask_nat, (only_word_testbit bs off len i Hwf Hi Hw) by (exact Hi || lia).
  now rewrite andb_comm, andb_assoc.
Qed.

Theorem unaligned_two_words bs align off len :
  wf_bytes bs ->
  let lead := (off mod 8)%nat in
  let bytes_len := ((len + lead + 7) / 8)%nat in
  (8 < bytes_len <= 16)%nat ->
  let u := ubc_new bs align off len in
  u_lead u = N.of_nat lead /\ u_trail u = N.of_nat (128 - (len + lead)) /\ u_chunks u = [] /\
  exists p q, u_prefix u = Some p /\ u_suffix u = Some q /\
    forall i, (i < 64)%nat ->
      N.testbit p (N.of_nat i) = ((lead <=? i)%nat && bit_at bs (8 * (off / 8) + i)) /\
      N.testbit q (N.of_nat i) = ((64 + i <? lead + len)%nat && bit_at bs (8 * (off / 8) + 64 + i)).
Proof.
  intros Hwf lead bytes_len Hb u. subst u. rewrite ubc_new_two by assumption. subst lead bytes_len.
  cbv zeta. cbn [u_lead u_trail u_prefix u_chunks u_suffix].
  pose proof (Nat.mod_upper_bound off 8 ltac:(discriminate)) as Hl8.
  pose proof (ceil8_bounds (len + off mod 8)) as Hc.
  assert (Hw : (64 < len + off mod 8 <= 128)%nat) by lia.
  split; [reflexivity|]. split; [exact (proj1 (suffix_mask_nat len _ 1 Hw))|]. split; [reflexivity|].
  do 2 eexists. split; [reflexivity|]. split; [reflexivity|]. intros i Hi. split.
  - rewrite N.land_spec, prefix_mask_nat, read_u64_slice_firstn, (addressed_word_testbit bs off len 0)
      by (exact Hwf || exact Hi || lia).
    rewrite Nat.add_0_l. apply andb_comm.
  - rewrite (second_word_testbit bs off len i Hwf Hi Hw), Nat.add_assoc. reflexivity.
Qed.
