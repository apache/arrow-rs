(* C05 — BitWriter::put_value, word level (64-bit accumulator, spill at 64 bits, checked shifts) = the
   bit-stream specification: the bytes produced are the concatenated w-bit groups, zero padded. *)
From Coq Require Import List NArith ZArith Lia ZifyNat.
From AV Require Import Base.Bits Model.C05_Enc Proofs.C05_Bits.
Import ListNotations.
Local Open Scope N_scope.

(* the model's offsets and widths are in N: bit groups with an N width *)
Definition bitsN (k v : N) : list bool := bits_of (N.to_nat k) v.

Lemma bitsN_app k m v : bitsN (k + m) v = bitsN k v ++ bitsN m (v / 2^k).
Proof. unfold bitsN. rewrite N2Nat.inj_add, bits_of_app, N2Nat.id. reflexivity. Qed.

Lemma bitsN_concat a v k m : a < 2^k -> bitsN (k + m) (a + 2^k * v) = bitsN k a ++ bitsN m v.
Proof.
  intros Ha. assert (Hp : 2^k <> 0) by (apply N.pow_nonzero; discriminate).
  rewrite bitsN_app, N.mul_comm. f_equal.
  - unfold bitsN. rewrite <- (bits_of_mod _ k) by (rewrite N2Nat.id; apply N.le_refl).
    rewrite N.mod_add, N.mod_small by assumption. reflexivity.
  - rewrite N.div_add, N.div_small by assumption. reflexivity.
Qed.

Lemma acc_or acc v off : acc < 2^off -> off <= 64 ->
  N.lor acc (u64 (N.shiftl v off)) = acc + 2^off * (v mod 2^(64 - off)).
Proof.
  intros Ha Ho. rewrite u64_shiftl, (N.mul_comm (2^off)) by exact Ho.
  now rewrite <- (lor_shift_add _ _ _ Ha), N.shiftl_mul_pow2.
Qed.

Lemma word_bits acc v off m : acc < 2^off -> off + m <= 64 ->
  bitsN (off + m) (N.lor acc (u64 (N.shiftl v off))) = bitsN off acc ++ bitsN m v.
Proof.
  intros Ha Hm. rewrite acc_or, bitsN_concat by (assumption || lia). f_equal. apply bits_of_mod. lia.
Qed.

Definition bw_bits (s : bitw) : list bool := bytes_bits (rev (bw_rbuf s)) ++ bitsN (bw_off s) (bw_acc s).
Definition bw_inv (s : bitw) : Prop :=
  bw_off s < 64 /\ bw_acc s < 2^(bw_off s) /\ Forall (fun b => b < 256) (bw_rbuf s).

Lemma shr_checked_bits v k m : k + m <= 64 -> bitsN m (shr_checked v k) = bitsN m (v / 2^k).
Proof.
  intros Hm. unfold shr_checked. destruct (N.ltb_spec k 64); [rewrite N.shiftr_div_pow2; reflexivity|].
  replace m with 0 by lia. reflexivity.
Qed.

Lemma shr_checked_lt v k m : v < 2^(k + m) -> shr_checked v k < 2^m.
Proof.
  intros Hv. unfold shr_checked. destruct (k <? 64); [|apply N.neq_0_lt_0, N.pow_nonzero; discriminate].
  rewrite N.shiftr_div_pow2. apply N.div_lt_upper_bound; [apply N.pow_nonzero; discriminate|].
  rewrite <- N.pow_add_r. exact Hv.
Qed.

Lemma put_value_ok s v nb : bw_inv s -> nb <= 64 -> v < 2^nb ->
  bw_bits (bw_put_value s v nb) = bw_bits s ++ bitsN nb v /\ bw_inv (bw_put_value s v nb).
Proof.
  intros (Hoff & Hacc & Hwf) Hnb Hv. destruct s as [rbuf acc off].
  unfold bw_inv, bw_bits, bw_put_value. cbn [bw_rbuf bw_acc bw_off] in *.
  destruct (N.leb_spec 64 (off + nb)) as [Hspill|Hfit]; cbn [bw_rbuf bw_acc bw_off].
  - (* the accumulator fills up: 8 bytes are emitted, the bits of v above the low k start the next word *)
    remember (64 - off) as k eqn:Ek. remember (off + nb - 64) as rem eqn:Er.
    assert (Hk : off + k = 64) by (clear - Ek Hoff; lia).
    assert (Enb : nb = k + rem) by (clear - Ek Er Hspill Hoff; lia). clear Ek Er.
    replace (nb - rem) with k by lia.
    split.
    + rewrite rev_app_distr, rev_involutive, bytes_bits_app, bytes_bits_le_bytes.
      change (bits_of (8 * 8)) with (bitsN 64). replace 64 with (off + k) at 1 by lia.
      rewrite word_bits, shr_checked_bits by lia. rewrite Enb, bitsN_app, <- !app_assoc. reflexivity.
    + repeat split; [lia|apply shr_checked_lt; rewrite <- Enb; exact Hv|].
      apply Forall_app; split; [apply Forall_rev, bits_bytes_wf|exact Hwf].
  - split; [rewrite word_bits by lia; apply app_assoc|]. repeat split; [lia| |exact Hwf].
    assert (Hv' : v < 2^(64 - off)) by (eapply N.lt_le_trans; [exact Hv|]; apply N.pow_le_mono_r; lia).
    rewrite acc_or, N.mod_small, N.mul_comm by (assumption || lia). apply add_shift_lt; assumption.
Qed.

Lemma put_values_ok : forall ops s, bw_inv s ->
  Forall (fun p => snd p <= 64 /\ fst p < 2^(snd p)) ops ->
  let s' := fold_left (fun s p => bw_put_value s (fst p) (snd p)) ops s in
  bw_bits s' = bw_bits s ++ flat_map (fun p => bitsN (snd p) (fst p)) ops /\ bw_inv s'.
Proof.
  induction ops as [|[v nb] ops IH]; intros s Hs Hops.
  - cbn. rewrite app_nil_r. split; [reflexivity|exact Hs].
  - inversion Hops as [|? ? [Hnb Hv] Hrest]; subst. cbn [fst snd] in *.
    destruct (put_value_ok s v nb Hs Hnb Hv) as [Hb Hi].
    destruct (IH (bw_put_value s v nb) Hi Hrest) as [Hb2 Hi2].
    cbn [fold_left flat_map fst snd]. split; [|exact Hi2].
    rewrite Hb2, Hb, <- app_assoc. reflexivity.
Qed.

(* flush and consume: the bits written, zero padded to a byte *)
Lemma consume_ok s : bw_inv s -> bw_consume s = bits_to_bytes (bw_bits s).
Proof.
  intros (Hoff & Hacc & Hwf). unfold bw_consume, bw_flush. cbn [bw_rbuf]. rewrite rev_app_distr, rev_involutive.
  unfold bits_to_bytes, bw_bits, bitsN. set (B := rev (bw_rbuf s)). set (off := N.to_nat (bw_off s)).
  rewrite app_length, bytes_bits_length, bits_of_length.
  rewrite <- Nat.add_assoc, (Nat.mul_comm 8), Nat.div_add_l by discriminate.
  rewrite bits_bytes_app_bytes by (apply Forall_rev, Hwf). f_equal.
  rewrite N2Nat.inj_div, N2Nat.inj_add. fold off.
  apply le_bytes_pad; [unfold off; rewrite N2Nat.id; exact Hacc|].
  change (N.to_nat 7) with 7%nat. change (N.to_nat 8) with 8%nat. lia.
Qed.

(* the word-level writer computes the bit-stream specification: any sequence of put_value calls followed by consume() *)
Theorem bitwriter_spec ops :
  Forall (fun p => snd p <= 64 /\ fst p < 2^(snd p)) ops -> bw_run ops = bw_run_spec ops.
Proof.
  intros Hops. assert (H0 : bw_inv bw_new) by (repeat split; constructor).
  destruct (put_values_ok ops bw_new H0 Hops) as [Hb Hi]. unfold bw_run. rewrite (consume_ok _ Hi), Hb. reflexivity.
Qed.

