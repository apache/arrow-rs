(* C04 — dictionary tracker vs reader dictionary state: refinement over every history. *)
From Coq Require Import List Arith Bool.
From AV Require Import Base.ListX Model.C04_Dict.
Import ListNotations.

Section D.
Variable V : Type.
Variable veq : V -> V -> bool.
Hypothesis veq_spec : forall a b, veq a b = true <-> a = b.

Notation leq := (leq V veq).
Notation compare_dictionaries := (compare_dictionaries V veq).
Notation insert_column := (insert_column V veq).
Notation apply_msg := (apply_msg V).
Notation run := (run V veq).
Notation emit := (emit V veq).
Notation is_prefix := (is_prefix V veq).

Lemma leq_spec a b : leq a b = true <-> a = b.
Proof. exact (eqb_list_eq_all veq veq_spec a b). Qed.

Lemma compare_spec old d :
  match compare_dictionaries old d with
  | CEqual => d = old
  | CDelta => d = old ++ skipn (length old) d
  | CNotEqual => True
  end.
Proof.
  unfold C04_Dict.compare_dictionaries. destruct (length old =? length d).
  - destruct (leq old d) eqn:L; [apply leq_spec in L; now subst|exact I].
  - destruct (length d <? length old); [exact I|].
    destruct (leq (firstn (length old) d) old) eqn:L; [|exact I].
    apply leq_spec in L. rewrite <- L at 1. symmetry. apply firstn_skipn.
Qed.

(* [d] extends what the tracker holds (anything extends an empty tracker) *)
Definition extends (w : option (list V)) (d : list V) : Prop :=
  match w with Some old => exists s, d = old ++ s | None => True end.

(* One call of insert_column, seen from the reader: when it accepts, tracker and reader both hold [d]
   afterwards; it refuses only under error_on_replacement, and under it accepts only extensions. *)
Lemma insert_spec eor h w d :
  match insert_column eor h w d with
  | Some (w', msgs) => w' = Some d /\ fold_left apply_msg msgs w = Some d /\ (eor = true -> extends w d)
  | None => eor = true
  end.
Proof.
  unfold C04_Dict.insert_column. destruct w as [old|]; [|now repeat split].
  pose proof (compare_spec old d) as C. cbn [extends].
  destruct (compare_dictionaries old d).
  - subst d. repeat split. exists []. now rewrite app_nil_r.
  - destruct eor; now repeat split.
  - destruct h; [destruct eor; now repeat split|].
    cbn [fold_left C04_Dict.apply_msg]. rewrite <- C. repeat split. eauto.
Qed.

(* The simulation over a whole history.  [run] (stream reader, state after each batch) and [emit] (all
   messages, file reader) walk the same calls of insert_column: they stop together; the stream reader has held
   each batch's dictionary in turn, the file reader ends with the last one; without error_on_replacement nothing
   is refused, and with it each dictionary extends the one before, hence the last one extends them all. *)
Theorem tracker_sim eor h : forall hist w,
  match emit eor h w hist with
  | Some ms =>
      run eor h w w hist = Some (map Some hist) /\
      fold_left apply_msg ms w = last (map Some hist) w /\
      (eor = true -> forall d, In (Some d) (w :: map Some hist) ->
                     exists s, last (map Some hist) w = Some (d ++ s))
  | None => run eor h w w hist = None /\ eor = true
  end.
Proof.
  induction hist as [|d rest IH]; intros w; cbn [C04_Dict.run C04_Dict.emit map].
  - repeat split. intros _ d [->|[]]. exists []. now rewrite app_nil_r.
  - pose proof (insert_spec eor h w d) as St.
    destruct (insert_column eor h w d) as [[w' msgs]|]; [|now split].
    destruct St as (-> & R & Ext). rewrite R. specialize (IH (Some d)). rewrite last_cons.
    destruct (emit eor h (Some d) rest) as [ms|]; cbn [option_map].
    + destruct IH as (-> & F & Pre). rewrite fold_left_app, R. repeat split; [exact F|].
      intros E x [->|Hin]; [|exact (Pre E x Hin)].
      (* the tracker's old dictionary is extended by [d], which the last one extends *)
      destruct (Ext E) as [s ->]. destruct (Pre E _ (or_introl eq_refl)) as [s' ->].
      exists (s ++ s'). now rewrite app_assoc.
    + destruct IH as (-> & E). now split.
Qed.

Theorem dict_refinement eor h : forall hist written obs,
  run eor h written written hist = Some obs -> obs = map Some hist.
Proof.
  intros hist w obs H. pose proof (tracker_sim eor h hist w) as S.
  destruct (emit eor h w hist); destruct S as [R _]; congruence.
Qed.

Theorem stream_never_rejects h : forall hist written, exists obs, run false h written written hist = Some obs.
Proof.
  intros hist w. pose proof (tracker_sim false h hist w) as S.
  destruct (emit false h w hist); [exists (map Some hist); apply S|destruct S; discriminate].
Qed.

Lemma is_prefix_spec a b : is_prefix a b = true <-> exists s, b = a ++ s.
Proof.
  revert b; induction a as [|x a IH]; intros b; cbn.
  - split; [intros _; exists b; reflexivity|auto].
  - destruct b as [|y b]; [split; [discriminate|intros [s Hs]; discriminate]|].
    rewrite andb_true_iff, veq_spec, IH. split.
    + intros [-> [s ->]]. exists s. reflexivity.
    + intros [s Hs]. inversion Hs. eauto.
Qed.

Theorem file_dict_prefix h : forall d0 hist ms,
  emit true h None (d0 :: hist) = Some ms ->
  exists final, fold_left apply_msg ms None = Some final /\
                Forall (fun d => exists s, final = d ++ s) (d0 :: hist).
Proof.
  intros d0 hist ms H. pose proof (tracker_sim true h (d0 :: hist) None) as S. rewrite H in S.
  destruct S as (_ & F & Pre). specialize (Pre eq_refl).
  destruct (Pre d0 (or_intror (or_introl eq_refl))) as [s0 L]. exists (d0 ++ s0). split; [congruence|].
  apply Forall_forall. intros d Hin. destruct (Pre d (or_intror (in_map Some _ d Hin))) as [s Hs].
  exists s. congruence.
Qed.

Theorem file_writer_rejects_replacement h old d :
  (forall s, d <> old ++ s) -> insert_column true h (Some old) d = None.
Proof.
  intros Hn. pose proof (insert_spec true h (Some old) d) as St.
  destruct (insert_column true h (Some old) d) as [[w' ms]|]; [|reflexivity].
  destruct St as (_ & _ & Ext). destruct (Ext eq_refl) as [s Hs]. now destruct (Hn s).
Qed.
End D.
