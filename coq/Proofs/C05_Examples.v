(* C05 — non-vacuity: the hypotheses of the round-trip theorems are met by concrete, non-trivial inputs. *)
From Coq Require Import List ZArith Lia.
From AV Require Import Model.C05_Enc Model.C05_Levels Proofs.C05_Wrap Proofs.C05_Delta.
Import ListNotations.

(* i64 extremes: every delta wraps *)
Example delta_i64_extremes :
  delta_decode 64 (delta_encode 64 [(-9223372036854775808)%Z; 9223372036854775807%Z; (-9223372036854775808)%Z; 0%Z; (-1)%Z])
  = Some ([(-9223372036854775808)%Z; 9223372036854775807%Z; (-9223372036854775808)%Z; 0%Z; (-1)%Z], []).
Proof. vm_compute. reflexivity. Qed.

(* more than one block of INT32 values, last mini block partly filled *)
Example delta_i32_blocks :
  let vs := map (fun i => (Z.of_nat i * 1000003 mod 4294967296 - 2147483648)%Z) (seq 0 300) in
  delta_decode 32 (delta_encode 32 vs) = Some (vs, []).
Proof.
  (* the values are residues modulo 2^32 shifted down by 2^31: the hypotheses of delta_bp_roundtrip hold *)
  intros vs. rewrite <- (app_nil_r (delta_encode 32 vs)). apply delta_bp_roundtrip; [left; reflexivity| |].
  - apply Forall_forall. intros z Hin. apply in_map_iff in Hin. destruct Hin as (i & <- & _).
    pose proof (Z.mod_pos_bound (Z.of_nat i * 1000003) 4294967296 eq_refl) as Hm.
    unfold in_range, Hz. change (Z.of_N (2^(32 - 1))) with 2147483648%Z. lia.
  - unfold vs. rewrite map_length, seq_length. reflexivity.
Qed.

(* RLE run, bit-packed run, run switch, padded last group *)
Example rle_mixed :
  let vs := repeat 5%N 20 ++ [1; 2; 3; 4; 5; 6; 7; 0; 1; 2]%N ++ repeat 7%N 9 ++ [3; 3]%N in
  rle_decode 3 (length vs) (rle_encode 3 vs) = Some vs.
Proof. vm_compute. reflexivity. Qed.

(* optional list of optional values: null list, empty list, null element *)
Example shred_nested :
  let p := [Opt; Rep; Opt] in
  let rows : list (val p) := [None; Some []; Some [None; Some 7%Z]; Some [Some 1%Z]] in
  map (fun e => (e_def e, e_rep e)) (shred_rows p rows) = [(0, 0); (1, 0); (2, 0); (3, 1); (3, 0)]%nat /\
  assemble_rows 10 p (shred_rows p rows) = Some rows.
Proof. vm_compute. split; reflexivity. Qed.
