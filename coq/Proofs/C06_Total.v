(* C06 — totality: and_then does not panic when the second selection has no empty run and exactly as
   many rows as the first one selects; hence the read plan can always be built when the selection
   fits the rows, and with read_plan_sound it reads the rows of the reference reader. *)
From Coq Require Import List ZArith Arith Lia.
From AV Require Import Model.C06_RowSel Model.C06_Reader Proofs.C06_AndThen
  Proofs.C06_Construct Proofs.C06_Plan.
Import ListNotations.

Definition nonzero_rowsel (s : rowsel) : Prop := match s with Sels l => nonzero l | Mask _ => True end.

Theorem and_then_total a b :
  nonzero_rowsel b -> count_true (den a) = length (den b) -> and_then a b <> None.
Proof.
  destruct a as [f|m], b as [s|o]; cbn [and_then den nonzero_rowsel]; intros Hnz Hc;
    apply option_map_not_none.
  - (* Sels, Sels *) now apply and_then_sels_total.
  - (* Sels, Mask *) apply and_then_sels_total; [apply mask_to_selectors_nonzero|now rewrite mask_to_selectors_dens].
  - (* Mask, Sels *) intros E. pose proof (and_then_mask_sels_cases m s) as C. now rewrite E in C.
  - (* Mask, Mask *) now apply and_then_masks_total.
Qed.

Example and_then_total_example :
  nonzero_rowsel (Sels [(false, 1); (true, 2); (false, 2)])
  /\ count_true (den (Sels [(true, 2); (false, 3); (true, 1); (false, 2)])) = length (den (Sels [(false, 1); (true, 2); (false, 2)]))
  /\ and_then (Sels [(true, 2); (false, 3); (true, 1); (false, 2)]) (Sels [(false, 1); (true, 2); (false, 2)])
     = Some (Sels [(true, 2); (false, 1); (true, 3); (false, 2)]).
Proof. split; [repeat constructor; cbn; discriminate|split; reflexivity]. Qed.

Lemma nonzero_selectors_of s : nonzero (selectors_of s) -> nonzero_rowsel s.
Proof. destruct s; [trivial|constructor]. Qed.

Definition fits (sel : option rowsel) (rows : list Z) : Prop :=
  match sel with Some s => length (den s) <= length rows | None => True end.

Lemma with_predicate_total rows f sel :
  fits sel rows -> exists sel', with_predicate rows f sel = Some sel' /\ fits sel' rows.
Proof.
  intros Hfit. destruct (with_predicate_shape rows f sel) as (raw & Hd & Hnz & ->).
  destruct (forallb _ _); [eauto|].
  destruct sel as [s|]; cbn [sel_rows fits] in *.
  - destruct (and_then s raw) as [r|] eqn:Ea.
    + exists (Some r). split; [reflexivity|]. apply den_and_then in Ea. cbn [fits]. now rewrite Ea, and_then_spec_length.
    + exfalso. revert Ea. apply and_then_total; [exact (nonzero_selectors_of _ Hnz)|].
      rewrite Hd, map_length. symmetry. now apply select_rows_length_eq.
  - exists (Some raw). split; [reflexivity|]. cbn [fits]. now rewrite Hd, map_length.
Qed.

Lemma with_predicates_total rows fs : forall sel,
  fits sel rows -> with_predicates rows fs sel <> None.
Proof.
  induction fs as [|f fs IH]; intros sel Hfit; cbn [with_predicates]; [discriminate|].
  destruct (match sel with Some s => selects_any s | None => true end); [|discriminate].
  destruct (with_predicate_total rows f sel Hfit) as (sel' & Hs & Hfit'). rewrite Hs. now apply IH.
Qed.

Theorem read_plan_refines nullmod rg_counts chosen selection preds off lim :
  fits selection (rows_of rg_counts chosen) ->
  plan_read nullmod rg_counts chosen selection preds off lim
  = Some (reference_read nullmod rg_counts chosen (option_map den selection) preds off lim).
Proof.
  intros Hfit.
  destruct (plan_read nullmod rg_counts chosen selection preds off lim) as [ids|] eqn:E.
  - f_equal. now apply read_plan_sound.
  - exfalso. unfold plan_read in E.
    pose proof (with_predicates_total (rows_of rg_counts chosen) (map (eval_pred nullmod) preds) selection Hfit) as Ht.
    destruct (with_predicates _ _ selection); [discriminate|contradiction].
Qed.

(* non-vacuity: a concrete plan (two row groups, run-length selection, one predicate, offset, limit) *)
Example plan_read_example :
  plan_read 3 [5; 4]%Z [0; 1] (Some (Sels (from_iter [(false, 3); (true, 2); (false, 4)])))
    [{| p_kind := 0; p_1 := 2; p_2 := 0 |}] (Some 1) (Some 2) = Some [5; 7]%Z.
Proof. vm_compute. reflexivity. Qed.
