(* C04 — framing: padding arithmetic, and the message reader inverts the message writer for every
   alignment and both prefix formats. *)
From Coq Require Import List Arith NArith Lia Bool.
From AV Require Import Base.ListX Base.Bytes Model.C04_Frame.
Import ListNotations.

(* the mask trick of pad_to_alignment, and so every lemma about padding, needs the alignment to be a power of two *)
Definition pow2 (a : nat) : Prop := exists k, a = 2 ^ k.

Lemma pow2_pos a : pow2 a -> 0 < a.
Proof. intros [k ->]. apply Nat.neq_0_lt_0, Nat.pow_nonzero. discriminate. Qed.

(* the four alignments the writer's options accept *)
Lemma aligned_pow2 a : a = 8 \/ a = 16 \/ a = 32 \/ a = 64 -> pow2 a.
Proof. intros [-> | [-> | [-> | ->]]]; [exists 3|exists 4|exists 5|exists 6]; reflexivity. Qed.

(* rounding up to a multiple of [a]; only the mask trick needs [a] to be a power of two *)
Definition round_up (a x : nat) : nat := (x + (a - 1)) / a * a.

Lemma round_up_spec a x : 0 < a -> round_up a x mod a = 0 /\ x <= round_up a x < x + a.
Proof.
  intros Ha. unfold round_up. split; [apply Nat.mod_mul; lia|].
  pose proof (Nat.div_mod (x + (a - 1)) a ltac:(lia)). pose proof (Nat.mod_upper_bound (x + (a - 1)) a ltac:(lia)). lia.
Qed.

(* (x + (a-1)) & !(a-1) rounds x up to the next multiple of a power of two *)
Lemma round_up_mask (a x : nat) : pow2 a ->
  N.to_nat (N.ldiff (N.of_nat x + N.of_nat (a - 1)) (N.of_nat (a - 1))) = round_up a x.
Proof.
  intros [k ->].
  assert (E : N.of_nat (2 ^ k - 1) = N.ones (N.of_nat k)).
  { rewrite N.ones_equiv, <- N.sub_1_r, Nat2N.inj_sub, Nat2N.inj_pow. reflexivity. }
  rewrite E, N.ldiff_ones_r, N.shiftr_div_pow2, N.shiftl_mul_pow2, <- E.
  unfold round_up. now rewrite N2Nat.inj_mul, N2Nat.inj_div, N2Nat.inj_add, N2Nat.inj_pow, !Nat2N.id.
Qed.

Lemma round_up_pad a len : 0 < a -> round_up a len - len = pad_spec a len.
Proof.
  intros Ha. unfold round_up, pad_spec.
  pose proof (Nat.div_mod len a ltac:(lia)) as E. pose proof (Nat.mod_upper_bound len a ltac:(lia)) as Hm.
  set (i := len / a) in *. set (m := len mod a) in *. destruct m as [|m].
  - rewrite <- (Nat.div_unique (len + (a - 1)) a i (a - 1)) by lia. rewrite Nat.sub_0_r, Nat.mod_same by lia. lia.
  - rewrite <- (Nat.div_unique (len + (a - 1)) a (S i) m) by lia. rewrite Nat.mod_small by lia. lia.
Qed.

Lemma pad_to_alignment_spec a len : pow2 a -> pad_to_alignment a len = pad_spec a len.
Proof.
  intros Ha. unfold pad_to_alignment. cbv zeta. rewrite (round_up_mask a len Ha). apply round_up_pad, pow2_pos, Ha.
Qed.

Lemma pad_to_alignment_aligned a len : pow2 a ->
  (len + pad_to_alignment a len) mod a = 0 /\ pad_to_alignment a len < a.
Proof.
  intros Ha. unfold pad_to_alignment. cbv zeta. rewrite (round_up_mask a len Ha).
  destruct (round_up_spec a len (pow2_pos a Ha)) as [Hm Hb].
  replace (len + (round_up a len - len)) with (round_up a len) by lia. split; [exact Hm|lia].
Qed.

Lemma padded_header_aligned o n : pow2 (o_align o) ->
  padded_header_len o n mod o_align o = 0 /\ n + prefix_size o <= padded_header_len o n.
Proof.
  intros Ha. unfold padded_header_len. cbv zeta. rewrite (round_up_mask (o_align o) (n + prefix_size o) Ha).
  destruct (round_up_spec (o_align o) (n + prefix_size o) (pow2_pos _ Ha)) as [Hm Hb]. split; [exact Hm|lia].
Qed.

Lemma metadata_layout o n : pow2 (o_align o) ->
  prefix_size o + n + metadata_padding o n = padded_header_len o n /\
  padded_metadata_len o n = n + metadata_padding o n.
Proof.
  intros Ha. destruct (padded_header_aligned o n Ha) as [_ Hle].
  unfold metadata_padding, padded_metadata_len. lia.
Qed.

Lemma zeros_length n : length (zeros n) = n.
Proof. apply repeat_length. Qed.

Lemma padded_aligned a b : pow2 a -> length (padded a b) mod a = 0.
Proof. intros Ha. unfold padded. rewrite app_length, zeros_length. apply (pad_to_alignment_aligned a _ Ha). Qed.

Lemma concat_padded_aligned a bufs : pow2 a -> length (concat (map (padded a) bufs)) mod a = 0.
Proof.
  intros Ha. pose proof (pow2_pos a Ha). induction bufs as [|b r IH]; [apply Nat.mod_0_l; lia|].
  cbn [map concat]. rewrite app_length, Nat.add_mod, IH, (padded_aligned a b Ha) by lia. apply Nat.mod_0_l. lia.
Qed.

(* the running offset of write_record_batch is the length of what has been written, padding included *)
Lemma batch_offset_concat a bufs : batch_offset a bufs = length (concat (map (padded a) bufs)).
Proof.
  unfold batch_offset. change (length (concat (map (padded a) bufs))) with (0 + length (concat (map (padded a) bufs))).
  generalize 0. induction bufs as [|b r IH]; intros off; cbn [fold_left map concat]; [symmetry; apply Nat.add_0_r|].
  rewrite IH. unfold padded at 2. rewrite !app_length, zeros_length. lia.
Qed.

Lemma batch_offset_aligned a bufs : pow2 a -> batch_offset a bufs mod a = 0.
Proof. intros Ha. rewrite batch_offset_concat. apply concat_padded_aligned, Ha. Qed.

(* so tail_pad of a record batch body is always zero: every buffer was already padded *)
Lemma tail_pad_zero a bufs : pow2 a -> pad_to_alignment a (batch_offset a bufs) = 0.
Proof.
  intros Ha. rewrite (pad_to_alignment_spec _ _ Ha). unfold pad_spec.
  rewrite (batch_offset_aligned a bufs Ha), Nat.sub_0_r. apply Nat.mod_same. pose proof (pow2_pos a Ha). lia.
Qed.

Lemma body_bytes_aligned a m : pow2 a -> length (body_bytes a m) mod a = 0.
Proof.
  intros Ha. destruct m as [meta body|meta bufs]; cbn [body_bytes].
  - destruct body as [|b r]; [apply Nat.mod_0_l; pose proof (pow2_pos a Ha); lia|apply (padded_aligned a _ Ha)].
  - rewrite (tail_pad_zero a bufs Ha). cbn [zeros repeat]. rewrite app_nil_r. apply (concat_padded_aligned a bufs Ha).
Qed.

Theorem pad_to_alignment_pow2 a len : pow2 a ->
  pad_to_alignment a len = pad_spec a len /\ (len + pad_to_alignment a len) mod a = 0 /\ pad_to_alignment a len < a.
Proof. intros Ha. exact (conj (pad_to_alignment_spec a len Ha) (pad_to_alignment_aligned a len Ha)). Qed.

Lemma take_exact {A} (w rest : list A) n : length w = n ->
  (length (w ++ rest) <? n) = false /\ firstn n (w ++ rest) = w /\ skipn n (w ++ rest) = rest.
Proof.
  intros H. split; [|split]; [apply ltb_app_exact|apply firstn_app_exact|apply skipn_app_exact]; exact H.
Qed.

Lemma le32_length n : length (le32 n) = 4.
Proof. reflexivity. Qed.
Lemma le32_digits n : le32 n = digits 4 (N.of_nat n).
Proof. unfold le32. cbn [digits]. now rewrite !N.div_div by discriminate. Qed.
Lemma le32_val_le_val b0 b1 b2 b3 r : le32_val (b0 :: b1 :: b2 :: b3 :: r) = le_val [b0; b1; b2; b3].
Proof. unfold le32_val. cbn [nth le_val]. change (2 ^ 8)%N with 256%N. lia. Qed.
Lemma le32_val_le32 n : (N.of_nat n < 4294967296)%N -> le32_val (le32 n) = N.of_nat n.
Proof.
  intros Hn. rewrite le32_digits. cbn [digits]. rewrite le32_val_le_val.
  exact (eq_trans (le_val_digits 4 (N.of_nat n)) (N.mod_small _ _ Hn)).
Qed.
Lemma le32_not_marker n : (N.of_nat n < 2147483648)%N -> list_eqb (le32 n) continuation_marker = false.
Proof.
  intros Hn. assert (Htop : (N.of_nat n / 16777216 < 128)%N) by (apply N.div_lt_upper_bound; [discriminate|exact Hn]).
  unfold list_eqb, le32, continuation_marker. cbv zeta. cbn [length combine forallb fst snd Nat.eqb andb].
  rewrite (N.mod_small (N.of_nat n / 16777216) 256) by lia. replace (N.of_nat n / 16777216 =? 255)%N with false by (symmetry; apply N.eqb_neq; lia).
  now rewrite !andb_false_r.
Qed.

(* what read_meta_len does with the length word, in either prefix format *)
Lemma read_len L rest : 0 < L -> (N.of_nat L < 2147483648)%N ->
  (if (le32_val (le32 L) =? 0)%N then LEnd
   else if (2147483648 <=? le32_val (le32 L))%N then LErr else LLen (N.to_nat (le32_val (le32 L))) rest) = LLen L rest.
Proof.
  intros Hpos Hlt. rewrite le32_val_le32 by lia.
  replace (N.of_nat L =? 0)%N with false by (symmetry; apply N.eqb_neq; lia).
  replace (2147483648 <=? N.of_nat L)%N with false by (symmetry; apply N.leb_gt; exact Hlt).
  now rewrite Nat2N.id.
Qed.

Lemma read_meta_len_marker L rest : 0 < L -> (N.of_nat L < 2147483648)%N ->
  read_meta_len (continuation_marker ++ le32 L ++ rest) = LLen L rest.
Proof.
  intros Hpos Hlt. unfold read_meta_len.
  destruct (take_exact continuation_marker (le32 L ++ rest) 4 eq_refl) as (-> & -> & ->).
  destruct (take_exact (le32 L) rest 4 eq_refl) as (-> & -> & ->).
  change (list_eqb continuation_marker continuation_marker) with true. cbv iota.
  now apply read_len.
Qed.
Lemma read_meta_len_legacy L rest : 0 < L -> (N.of_nat L < 2147483648)%N ->
  read_meta_len (le32 L ++ rest) = LLen L rest.
Proof.
  intros Hpos Hlt. unfold read_meta_len.
  destruct (take_exact (le32 L) rest 4 eq_refl) as (-> & -> & ->).
  rewrite (le32_not_marker L Hlt). now apply read_len.
Qed.

(* All that the size and round-trip theorems use of the prefix formats (V5, V4, V4 legacy): the prefix has the length
   MetadataLayout reserves for it, read_meta_len reads the length back from it, and a zero length ends the stream. *)
Lemma write_continuation_length o n : (o_legacy o = true -> o_v5 o = false) ->
  length (write_continuation o n) = prefix_size o.
Proof.
  intros Hl. unfold write_continuation, prefix_size. destruct (o_v5 o), (o_legacy o); try reflexivity.
  now specialize (Hl eq_refl).
Qed.

Lemma read_prefix o L rest : 0 < L -> (N.of_nat L < 2147483648)%N ->
  read_meta_len (write_continuation o L ++ rest) = LLen L rest.
Proof.
  intros Hp Hl. unfold write_continuation.
  destruct (o_v5 o); [|destruct (o_legacy o)].
  - rewrite <- app_assoc. now apply read_meta_len_marker.
  - now apply read_meta_len_legacy.
  - rewrite <- app_assoc. now apply read_meta_len_marker.
Qed.

Lemma unframe_eos bodylen o f : unframe bodylen (S f) (eos o) = RDone [].
Proof. unfold eos, write_continuation. destruct (o_v5 o), (o_legacy o); reflexivity. Qed.

Lemma frame_msg_length o m : pow2 (o_align o) -> (o_legacy o = true -> o_v5 o = false) ->
  length (frame_msg o m) = padded_header_len o (length (msg_meta m)) + length (body_bytes (o_align o) m).
Proof.
  intros Ha Hl. unfold frame_msg. cbv zeta. rewrite !app_length, zeros_length, (write_continuation_length o _ Hl).
  destruct (metadata_layout o (length (msg_meta m)) Ha) as [H1 _]. lia.
Qed.

Theorem frame_sizes_pow2 o m : pow2 (o_align o) -> (o_legacy o = true -> o_v5 o = false) ->
  length (frame_msg o m) = padded_header_len o (length (msg_meta m)) + length (body_bytes (o_align o) m) /\
  padded_header_len o (length (msg_meta m)) mod o_align o = 0 /\
  length (body_bytes (o_align o) m) mod o_align o = 0 /\
  (forall bufs, pad_to_alignment (o_align o) (batch_offset (o_align o) bufs) = 0).
Proof.
  intros Ha Hl. split; [exact (frame_msg_length o m Ha Hl)|].
  split; [exact (proj1 (padded_header_aligned o _ Ha))|].
  split; [exact (body_bytes_aligned _ m Ha)|]. intros bufs. exact (tail_pad_zero _ bufs Ha).
Qed.

Section RT.
Variable bodylen : list N -> nat.
Variable o : wopts.
Hypothesis Ha : pow2 (o_align o).

Definition padded_meta (m : msg) : list N := msg_meta m ++ zeros (metadata_padding o (length (msg_meta m))).
(* a zero length would read as end of stream and a length from 2^31 as negative; [bodylen] stands for the flatbuffer
   reader, applied to the PADDED metadata.  frame_ok (aligned bodies only) is not asked: body_bytes pads. *)
Definition msg_wf (m : msg) : Prop :=
  msg_meta m <> [] /\
  (N.of_nat (padded_metadata_len o (length (msg_meta m))) < 2147483648)%N /\
  bodylen (padded_meta m) = length (body_bytes (o_align o) m).

Lemma unframe_step f m s : msg_wf m ->
  unframe bodylen (S f) (frame_msg o m ++ s) =
  match unframe bodylen f s with
  | RDone r => RDone ((padded_meta m, body_bytes (o_align o) m) :: r)
  | RErr => RErr
  end.
Proof.
  intros (Hne & Hlt & Hbl).
  set (meta := msg_meta m) in *. set (body := body_bytes (o_align o) m) in *.
  set (L := padded_metadata_len o (length meta)) in *.
  destruct (metadata_layout o (length meta) Ha) as [_ HL]. fold L in HL.
  assert (HLpos : 0 < L) by (destruct meta; [congruence|cbn [length] in HL; lia]).
  assert (Hpm : length (padded_meta m) = L) by (unfold padded_meta; fold meta; rewrite app_length, zeros_length; lia).
  assert (Es : frame_msg o m ++ s = write_continuation o L ++ padded_meta m ++ body ++ s).
  { unfold frame_msg, padded_meta. cbv zeta. fold meta. fold L. fold body. now rewrite <- !app_assoc. }
  rewrite Es. cbn [unframe]. rewrite (read_prefix o L _ HLpos Hlt).
  destruct (take_exact (padded_meta m) (body ++ s) L Hpm) as (-> & -> & ->). rewrite Hbl.
  destruct (take_exact body s (length body) eq_refl) as (-> & -> & ->). reflexivity.
Qed.

(* the reader inverts the writer on every message sequence: what is read back is each message's metadata
   (followed by its alignment padding, which a flatbuffer reader ignores) and exactly its body bytes *)
Theorem frame_roundtrip_pow2 : forall ms fuel, Forall msg_wf ms -> length ms < fuel ->
  unframe bodylen fuel (frame_stream o ms) = RDone (map (fun m => (padded_meta m, body_bytes (o_align o) m)) ms).
Proof.
  unfold frame_stream.
  induction ms as [|m ms IH]; intros fuel Hwf Hf; (destruct fuel as [|f]; [cbn [length] in Hf; lia|]).
  - cbn [map concat app]. apply unframe_eos.
  - inversion Hwf as [|? ? Hm Hms]; subst. cbn [map concat]. rewrite <- app_assoc.
    rewrite (unframe_step f m _ Hm). rewrite (IH f Hms) by (cbn [length] in Hf; lia). reflexivity.
Qed.
End RT.
