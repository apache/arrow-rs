(* C17 — Avro: decode inverts encode, by induction over schemas, for every uniform block size bk of arrays / maps
   (blocks of bk items, the last one shorter; what arrow-avro writes is bk = 0, one block, sized = false), in the
   positive-count form and in the negative-count + byte-size form.  That the block reader accepts every division into
   non-empty blocks is C17_AvroLemmas.read_chunks; it is not lifted to decode, since encode knows only bk. *)
From Coq Require Import List NArith ZArith Lia Bool.
From AV Require Import Model.C17_Avro Proofs.C17_Varint Proofs.C17_AvroLemmas.
Import ListNotations.
Local Open Scope N_scope.

(* The two decimal round trips, to which the sign-byte lemmas of C17_AvroLemmas.v lead.
   Over bytes: minimal two's complement form, sign extension back to w bytes, value *)
Theorem decimal_bytes_roundtrip w v : (0 < w)%nat -> (- 2^(8 * Z.of_nat w - 1) <= v < 2^(8 * Z.of_nat w - 1))%Z ->
  sign_fit w (minimal_twos (be_bytes w v)) = Some (be_bytes w v) /\ from_be (be_bytes w v) = v.
Proof.
  intros Hw Hv. split; [|now apply from_be_be_bytes].
  pose proof (be_bytes_length w v) as HL.
  destruct (minimal_twos_skip (be_bytes w v)) as (d & Hd & ->).
  { intros E. rewrite E in HL. cbn [length] in HL. lia. }
  rewrite <- HL at 1. now apply sign_fit_skip.
Qed.

(* decimal over fixed(n): whatever the writer's sign extension / truncation accepts is read back *)
Theorem decimal_fixed_roundtrip w n v R : (0 < w)%nat -> (0 < n)%nat ->
  (- 2^(8 * Z.of_nat w - 1) <= v < 2^(8 * Z.of_nat w - 1))%Z ->
  sign_fit n (be_bytes w v) = Some R ->
  length R = n /\ sign_fit w R = Some (be_bytes w v) /\ from_be (be_bytes w v) = v.
Proof.
  intros Hw Hn Hv HR. split; [now apply sign_fit_length in HR|]. split; [|now apply from_be_be_bytes].
  pose proof (be_bytes_length w v) as HL. rewrite <- HL at 1.
  apply (sign_fit_back _ n R); [lia|exact Hn|exact HR].
Qed.

(* schema_ind says nothing about the schemas in the lists under SUnion and SRecord.  The last line of sub_hyp, and of
   the match in schema_ind2, is for the constructors without sub-schemas.  A constructor added to schema with
   sub-schemas needs a line of its own in both: left to the last line it still compiles, with True for its
   induction hypothesis. *)
Definition sub_hyp (P : schema -> Prop) (s : schema) : Prop :=
  match s with
  | SArray t | SMap t | SNullable _ t => P t
  | SUnion l | SRecord l => Forall P l
  | _ => True
  end.

Definition schema_ind2 (P : schema -> Prop) (H : forall s, sub_hyp P s -> P s) : forall s, P s :=
  fix IH (s : schema) : P s :=
    H s (match s as s0 return sub_hyp P s0 with
         | SArray t => IH t
         | SMap t => IH t
         | SNullable _ t => IH t
         | SUnion l => (fix go (l : list schema) : Forall P l :=
                          match l with [] => Forall_nil P | x :: r => Forall_cons x (IH x) (go r) end) l
         | SRecord l => (fix go (l : list schema) : Forall P l :=
                           match l with [] => Forall_nil P | x :: r => Forall_cons x (IH x) (go r) end) l
         | _ => I
         end).

Section Main.
Variable bk : nat.
Variable sized : bool.

Notation encd := (encode bk sized).
Notation fit := (sized_len_ok sized).
Definition decodes_back (s : schema) : Prop :=
  forall d rest, wf s d -> fit (encd s d) -> decode s (encd s d ++ rest) = Some (d, rest).

(* dec_pick, enc_fields, dec_fields and wf_fields are the anonymous nested `fix` of the model's decode, encode and wf
   under SUnion and SRecord, written out again under a name so that equations can be stated for them; dec_union,
   enc_record, dec_record and wf_record, all by reflexivity, tie each to the model *)
Definition dec_pick (r : list N) :=
  fix pick (l : list schema) (k : nat) (idx : Z) {struct l} : option (datum * list N) :=
    match l with
    | [] => None
    | t :: l' => if (idx =? 0)%Z then map_res (DUnion k) (decode t r) else pick l' (S k) (idx - 1)%Z
    end.
Definition enc_fields :=
  fix fields (l : list schema) (vs : list datum) {struct l} : list N :=
    match l, vs with t :: l', v :: vs' => encd t v ++ fields l' vs' | _, _ => [] end.
Definition dec_fields :=
  fix fields (l : list schema) (b : list N) {struct l} : option (list datum * list N) :=
    match l with
    | [] => Some ([], b)
    | t :: l' => match decode t b with
                 | None => None
                 | Some (d, b') => match fields l' b' with None => None | Some (ds, b'') => Some (d :: ds, b'') end
                 end
    end.
Definition wf_fields :=
  fix fields (l : list schema) (vs : list datum) {struct l} : Prop :=
    match l, vs with [], [] => True | t :: l', v :: vs' => wf t v /\ fields l' vs' | _, _ => False end.

Lemma enc_union brs k x : encd (SUnion brs) (DUnion k x) =
  write_long (Z.of_nat k) ++ match nth_error brs k with Some t => encd t x | None => [] end.
Proof. cbn [encode]. f_equal. revert k. induction brs as [|t brs IH]; intros [|k]; try reflexivity. apply IH. Qed.
Lemma wf_union brs k x : wf (SUnion brs) (DUnion k x) <->
  (Z.of_nat k < 2^31)%Z /\ exists t, nth_error brs k = Some t /\ wf t x.
Proof.
  cbn [wf]. apply and_iff_compat_l. revert k. induction brs as [|t brs IH]; intros [|k]; cbn [nth_error]; try apply IH.
  1,2: split; [contradiction|intros (? & [=] & _)].
  split; [intros H; now exists t|now intros (? & [= <-] & H)].
Qed.
Lemma dec_union brs bs : decode (SUnion brs) bs =
  match get_long bs with None => None | Some (i, r) => if (i <? 0)%Z then None else dec_pick r brs O i end.
Proof. reflexivity. Qed.
Lemma dec_pick_cons r t l k idx : dec_pick r (t :: l) k idx =
  if (idx =? 0)%Z then map_res (DUnion k) (decode t r) else dec_pick r l (S k) (idx - 1)%Z.
Proof. reflexivity. Qed.
(* the reader counts the branch index down while it counts the branch number up from k0 *)
Lemma dec_pick_nth r : forall brs k0 k t, nth_error brs k = Some t ->
  dec_pick r brs k0 (Z.of_nat k) = map_res (DUnion (k0 + k)) (decode t r).
Proof.
  induction brs as [|t' brs IH]; intros k0 [|k] t E; try discriminate E; rewrite dec_pick_cons.
  - injection E as ->. now rewrite Nat.add_0_r.
  - rewrite Nat2Z.inj_succ, (proj2 (Z.eqb_neq _ 0)), Z.sub_1_r, Z.pred_succ by lia.
    rewrite (IH (S k0) k t E). now rewrite Nat.add_succ_comm.
Qed.

Lemma enc_record fs ds : encd (SRecord fs) (DRecord ds) = enc_fields fs ds.
Proof. reflexivity. Qed.
Lemma dec_record fs bs : decode (SRecord fs) bs = map_res DRecord (dec_fields fs bs).
Proof. reflexivity. Qed.
Lemma wf_record fs ds : wf (SRecord fs) (DRecord ds) = wf_fields fs ds.
Proof. reflexivity. Qed.
Lemma enc_fields_cons t l v vs : enc_fields (t :: l) (v :: vs) = encd t v ++ enc_fields l vs.
Proof. reflexivity. Qed.
Lemma wf_fields_cons t l v vs : wf_fields (t :: l) (v :: vs) = (wf t v /\ wf_fields l vs).
Proof. reflexivity. Qed.
Lemma dec_fields_cons t l b : dec_fields (t :: l) b =
  match decode t b with
  | None => None
  | Some (d, b') => match dec_fields l b' with None => None | Some (ds, b'') => Some (d :: ds, b'') end
  end.
Proof. reflexivity. Qed.

Lemma fields_ok : forall fs ds rest, Forall decodes_back fs -> wf_fields fs ds -> fit (enc_fields fs ds) ->
  dec_fields fs (enc_fields fs ds ++ rest) = Some (ds, rest).
Proof.
  induction fs as [|t fs IH]; intros ds rest Hall Hwf Hfit.
  - destruct ds; [reflexivity|contradiction].
  - destruct ds as [|v ds]; [contradiction|]. inversion Hall as [|? ? Ht Hrest]; subst.
    rewrite wf_fields_cons in Hwf. destruct Hwf as [Hv Hds]. rewrite enc_fields_cons in *. rewrite dec_fields_cons.
    rewrite <- app_assoc, (Ht v _ Hv) by exact (sized_len_ok_app_l _ _ _ Hfit).
    now rewrite (IH ds rest Hrest Hds) by exact (sized_len_ok_app_r _ _ _ Hfit).
Qed.

Theorem decode_encode_all : forall s, decodes_back s.
Proof.
  apply schema_ind2. intros s IH d rest Hwf Hfit.
  (* wf s d is False unless d has the shape s asks for; the cases left come in the order of the constructors of schema *)
  destruct s as [ | | | | | | | |n|nsym|w|w n|it|vt|ns t|brs|fs], d as [ |b|v|v|x|x|l|l|l|i|v|items|entries|o|k x|ds];
    try exact (False_ind _ Hwf); cbn [sub_hyp] in IH.
  - (* null *) reflexivity.
  - (* boolean *) now destruct b.
  - (* int *) cbn [encode decode]. now rewrite get_int_write by exact Hwf.
  - (* long *) cbn [encode decode]. now rewrite get_long_write by exact Hwf.
  - (* float *) cbn [encode decode]. rewrite take_le_bytes. cbn [map_res]. now rewrite le_value_small by exact Hwf.
  - (* double *) cbn [encode decode]. rewrite take_le_bytes. cbn [map_res]. now rewrite le_value_small by exact Hwf.
  - (* bytes *) destruct Hwf as [_ Hl]. cbn [encode decode]. now rewrite get_bytes_write by exact Hl.
  - (* string *) destruct Hwf as (_ & Hl & Hu). cbn [encode decode]. now rewrite get_bytes_write, Hu by exact Hl.
  - (* fixed *) destruct Hwf as [_ Hn]. cbn [encode decode]. now rewrite take_len by exact Hn.
  - (* enum *) destruct Hwf as [Hr Hi]. cbn [encode decode]. rewrite get_int_write by exact Hi.
    now replace ((0 <=? i)%Z && (i <? Z.of_nat nsym)%Z) with true by lia.
  - (* decimal over bytes *) destruct Hwf as [Hw Hv]. cbn [encode decode].
    destruct (decimal_bytes_roundtrip w v) as [Hback Hval]; [lia|exact Hv|].
    rewrite get_bytes_write, Hback, Hval; [reflexivity|].
    unfold len_ok. pose proof (minimal_twos_le (be_bytes w v)) as Hle. rewrite be_bytes_length in Hle. lia.
  - (* decimal over fixed *) destruct Hwf as (Hw & Hn & Hv & Hacc). cbn [encode decode].
    destruct (sign_fit n (be_bytes w v)) as [R|] eqn:HR; [|contradiction].
    destruct (decimal_fixed_roundtrip w n v R) as (HRl & Hback & Hval); [lia|exact Hn|exact Hv|exact HR|].
    now rewrite take_len, Hback, Hval by exact HRl.
  - (* array *) destruct Hwf as [Hlen Hall]. cbn [encode decode] in *.
    rewrite read_blocks_blocks; [reflexivity|exact Hfit|exact Hlen|].
    intros a r Hin Hfa. apply IH; [|exact Hfa]. rewrite Forall_forall in Hall. now apply Hall.
  - (* map *) destruct Hwf as [Hlen Hall]. cbn [encode decode] in *.
    rewrite (read_blocks_blocks _ (fun kv : list N * datum => write_len_prefixed (fst kv) ++ encd vt (snd kv)));
      [reflexivity|exact Hfit|exact Hlen|].
    intros [key x] r Hin Hfa. rewrite Forall_forall in Hall. destruct (Hall _ Hin) as (_ & Hk & Hu & Hx). cbn [fst snd] in *.
    rewrite <- app_assoc, get_bytes_write, Hu by exact Hk.
    now rewrite (IH x r Hx) by exact (sized_len_ok_app_r _ _ _ Hfa).
  - (* nullable *) cbn [encode decode]. destruct o as [x|].
    + assert (Hx : decode t (encd t x ++ rest) = Some (x, rest)) by (apply IH; [exact Hwf|exact (sized_len_ok_app_r _ [_] _ Hfit)]).
      destruct ns; cbn [app]; rewrite read_varint_byte by reflexivity; cbn [N.eqb negb]; now rewrite Hx.
    + destruct ns; cbn [app]; now rewrite read_varint_byte by reflexivity.
  - (* union *)
    apply wf_union in Hwf. destruct Hwf as (Hk & t & E & Hx). rewrite enc_union, E in *.
    rewrite dec_union, <- app_assoc, get_long_write by lia.
    destruct (Z.ltb_spec (Z.of_nat k) 0) as [?|_]; [lia|]. rewrite (dec_pick_nth _ _ 0 k t E).
    now rewrite (proj1 (Forall_forall _ _) IH t (nth_error_In _ _ E) x rest Hx) by exact (sized_len_ok_app_r _ _ _ Hfit).
  - (* record *)
    rewrite wf_record in Hwf. rewrite enc_record in Hfit. rewrite enc_record, dec_record.
    now rewrite (fields_ok fs ds rest IH Hwf Hfit).
Qed.
End Main.

Theorem decode_encode bk s d rest : wf s d -> decode s (encode bk false s d ++ rest) = Some (d, rest).
Proof. intros H. apply (decode_encode_all bk false s d rest H). discriminate. Qed.

(* the negative-count + byte-size block form: the sizes written must fit an i64 *)
Theorem decode_encode_sized bk s d rest : wf s d -> (Z.of_nat (length (encode bk true s d)) < 2^63)%Z ->
  decode s (encode bk true s d ++ rest) = Some (d, rest).
Proof. intros H Hl. apply (decode_encode_all bk true s d rest H). intros _. exact Hl. Qed.

Corollary decode_encode_writer s d : wf s d -> decode s (encode_w s d) = Some (d, []).
Proof. intros H. rewrite <- (app_nil_r (encode_w s d)). now apply decode_encode. Qed.

(* non-vacuity: a nested datum satisfying wf, and its round trip computed *)
Definition ex_schema : schema :=
  SRecord [SLong; SNullable false SString; SArray (SNullable true SInt); SMap SDouble;
           SUnion [SNull; SBool; SBytes]; SDecBytes 16; SDecFixed 16 5; SEnum 3].
Definition ex_datum : datum :=
  DRecord [DLong (-9223372036854775808)%Z; DOpt (Some (DString [104; 195; 169]));
           DArray [DOpt (Some (DInt 7%Z)); DOpt None; DOpt (Some (DInt (-2147483648)%Z))];
           DMap [([97], DDouble 4611686018427387904); ([98; 99], DDouble 0)];
           DUnion 2 (DBytes [1; 2; 255]); DDec (-129)%Z; DDec 70000%Z; DEnum 2%Z].
Example ex_wf : wf ex_schema ex_datum.
Proof.
  (* the leaves are closed comparisons, Forall over literal lists, and sign_fit accepting 70000 in 5 bytes *)
  cbn [wf ex_schema ex_datum]. unfold byte_list, max_items, len_ok.
  repeat split; repeat (constructor; cbn [fst snd]; repeat split); cbv; discriminate.
Qed.
Example ex_roundtrip : decode ex_schema (encode 2 false ex_schema ex_datum) = Some (ex_datum, [])
  /\ decode ex_schema (encode 1 true ex_schema ex_datum) = Some (ex_datum, []).
Proof. split; vm_compute; reflexivity. Qed.
