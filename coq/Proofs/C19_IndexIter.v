(* C19: BitIndexIterator — trailing_zeros reports the lowest set bit (ctz_spec), which the step of C19_LowBit.v clears;
   hence the whole loop over any list of 64-bit words yields exactly the positions of the set bits, in increasing
   order. *)
From Coq Require Import List NArith ZArith Lia Bool.
From AV Require Import Model.C19_Bits Proofs.C19_LowBit Proofs.C19_Runs.
Import ListNotations.
Local Open Scope N_scope.

Lemma ctz_aux_spec fuel : forall w, w <> 0 -> w < 2 ^ N.of_nat fuel ->
  N.testbit w (N.of_nat (ctz_aux fuel w)) = true /\
  (forall i, i < N.of_nat (ctz_aux fuel w) -> N.testbit w i = false) /\ (ctz_aux fuel w < fuel)%nat.
Proof.
  induction fuel as [|f IH]; intros w Hnz Hlt.
  - cbn in Hlt. lia.
  - cbn [ctz_aux]. destruct (N.odd w) eqn:Ho.
    + cbn. rewrite N.bit0_odd. repeat split; [exact Ho | intros i Hi; lia | lia].
    + assert (Hd : N.div2 w <> 0).
      { intro E. apply Hnz. rewrite (N.div2_odd w), E, Ho. reflexivity. }
      assert (Hl : N.div2 w < 2 ^ N.of_nat f).
      { rewrite N.div2_div. apply N.div_lt_upper_bound; [lia|].
        rewrite Nat2N.inj_succ, N.pow_succ_r' in Hlt. exact Hlt. }
      destruct (IH _ Hd Hl) as (H1 & H2 & H3).
      rewrite Nat2N.inj_succ. repeat split.
      * rewrite N.testbit_succ_r_div2 by apply N.le_0_l. exact H1.
      * intros i Hi. destruct (N.eq_dec i 0) as [->|Hi0].
        -- rewrite N.bit0_odd. exact Ho.
        -- replace i with (N.succ (i - 1)) by lia. rewrite N.testbit_succ_r_div2 by apply N.le_0_l. apply H2. lia.
      * lia.
Qed.

Lemma ctz_spec w : w <> 0 -> w < 2^64 ->
  N.testbit w (N.of_nat (ctz w)) = true /\ (forall i, i < N.of_nat (ctz w) -> N.testbit w i = false) /\ (ctz w < 64)%nat.
Proof.
  intros Hnz Hlt. unfold ctz. rewrite (proj2 (N.eqb_neq w 0) Hnz).
  apply ctz_aux_spec; assumption.
Qed.

Lemma land_le a b : N.land a b <= a.
Proof.
  apply N.ldiff_le, N.bits_inj_0. intro k. rewrite N.ldiff_spec, N.land_spec.
  now destruct (N.testbit a k), (N.testbit b k).
Qed.

Definition word_positions (w : N) (lo n : nat) : list nat :=
  filter (fun i => N.testbit w (N.of_nat i)) (seq lo n).

Lemma filter_all_false {A} (f : A -> bool) l : (forall x, In x l -> f x = false) -> filter f l = [].
Proof.
  induction l as [|a l IH]; intros H; [reflexivity|]. cbn. rewrite (H a) by now left.
  apply IH. intros x Hx. apply H. now right.
Qed.

Lemma word_positions_lowest w t lo hi :
  N.testbit w (N.of_nat t) = true -> (forall j, j < N.of_nat t -> N.testbit w j = false) -> (lo <= t < hi)%nat ->
  word_positions w lo (hi - lo) = t :: word_positions (N.land w (w - 1)) (S t) (hi - S t).
Proof.
  intros Ht Hlow H. unfold word_positions.
  replace (hi - lo)%nat with ((t - lo) + S (hi - S t))%nat by lia.
  rewrite seq_app, filter_app, (filter_all_false _ (seq lo (t - lo))).
  2:{ intros x Hx. apply in_seq in Hx. apply Hlow. lia. }
  replace (lo + (t - lo))%nat with t by lia. cbn [seq filter app]. rewrite Ht. f_equal.
  apply filter_ext_in. intros x Hx. apply in_seq in Hx.
  rewrite (clear_lowest_gen w (N.of_nat t)) by assumption.
  destruct (N.eqb_spec (N.of_nat x) (N.of_nat t)); [lia|]. now rewrite andb_true_r.
Qed.

(* the inner loop: fuel 64 always suffices.  [lo]: every bit below it is clear; each step reports the lowest set bit
   t >= lo, clears it and goes on with lo = t + 1, so 64 - lo bounds the steps left *)
Lemma word_indices_spec fuel : forall w lo base, w < 2^64 ->
  (forall i, i < N.of_nat lo -> N.testbit w i = false) -> (64 - lo <= fuel)%nat -> (lo <= 64)%nat ->
  word_indices fuel w base = map (fun i => (base + Z.of_nat i)%Z) (word_positions w lo (64 - lo)).
Proof.
  induction fuel as [|f IH]; intros w lo base Hw Hlo Hf Hl64.
  - assert (lo = 64)%nat by lia. subst lo. reflexivity.
  - cbn [word_indices]. destruct (N.eqb_spec w 0) as [->|Hnz].
    + unfold word_positions. rewrite filter_all_false; [reflexivity|]. intros x _. apply N.bits_0.
    + destruct (ctz_spec w Hnz Hw) as (Ht & Hlow & Ht64).
      assert (Hlot : (lo <= ctz w)%nat).
      { destruct (Nat.le_gt_cases lo (ctz w)) as [H|H]; [exact H|]. rewrite Hlo in Ht by lia. discriminate. }
      rewrite (word_positions_lowest w (ctz w)) by (assumption || lia). cbn [map]. f_equal.
      apply IH; [eapply N.le_lt_trans; [apply land_le|exact Hw]| |lia|lia].
      intros i Hi. rewrite (clear_lowest_gen w (N.of_nat (ctz w))) by assumption.
      destruct (N.eqb_spec i (N.of_nat (ctz w))) as [->|Hne]; [apply andb_false_r|].
      rewrite Hlow by lia. reflexivity.
Qed.

Corollary word_indices_64 w base : w < 2^64 ->
  word_indices 64 w base = map (fun i => (base + Z.of_nat i)%Z) (word_positions w 0 64).
Proof. intros Hw. apply (word_indices_spec 64 w 0 base Hw); [intros i Hi; lia | lia | lia]. Qed.

(* bits denoted by a list of words, LSB first *)
Definition word_bits (w : N) : list bool := map (fun i => N.testbit w (N.of_nat i)) (seq 0 64).
Definition words_bits (ws : list N) : list bool := flat_map word_bits ws.

Lemma word_bits_length w : length (word_bits w) = 64%nat.
Proof. unfold word_bits. now rewrite map_length, seq_length. Qed.

Lemma word_positions_bits w : word_positions w 0 64 = positions_from 0 (word_bits w).
Proof. symmetry. apply positions_from_map_seq. Qed.

Theorem index_iter_words_spec ws : forall c, Forall (fun w => w < 2^64) ws ->
  index_iter_words ws c = map (fun i => (c + Z.of_nat i)%Z) (positions (words_bits ws)).
Proof.
  unfold positions. induction ws as [|w ws IH]; intros c Hws; [reflexivity|].
  inversion Hws as [|? ? Hw Hr]; subst.
  cbn [index_iter_words words_bits flat_map].
  rewrite positions_from_app, map_app, word_indices_64 by exact Hw.
  rewrite word_positions_bits. f_equal.
  rewrite IH by exact Hr. rewrite word_bits_length, Nat.add_0_l.
  rewrite (positions_from_shift _ 64), map_map. apply map_ext. intros i. cbv beta. lia.
Qed.

