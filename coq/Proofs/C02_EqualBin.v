(* C02 — arrow-data's variable_sized_equal (Binary / LargeBinary / Utf8 / LargeUtf8): the null-free
   path (lengths_equal with its first-offset-zero shortcut, then ONE comparison of the two value
   windows at their own start offsets) and the per-slot path decide exactly the equality of the
   logical columns, for any first offsets, any padding of the value buffers and any payload under nulls.
   The first half (windows of a sequence cut by monotone offsets, offsets of a well-formed array, slots
   cut out of a sequence by such offsets and their comparison, lengths_equal) also serves the (Large)List
   comparator, whose slots are cut out of the child's column the same way. *)
From Coq Require Import List Arith NArith ZArith Bool Lia.
From AV Require Import Base.ListX Base.Bytes Model.C09_Layout Model.C02_Logical Model.C02_Equal.
From AV Require Import Proofs.C09_Offsets Proofs.C02_EqualNulls.
Import ListNotations.

Lemma mono_le (f : nat -> nat) n : (forall i, i < n -> f i <= f (S i)) -> forall i j, i <= j -> j <= n -> f i <= f j.
Proof.
  intros Hm i j Hij Hj. induction j as [|j IH]; [replace i with 0 by lia; lia|].
  destruct (Nat.eq_dec i (S j)) as [->|]; [lia|]. specialize (IH ltac:(lia) ltac:(lia)). specialize (Hm j ltac:(lia)). lia.
Qed.

Section Windows.
  Context {A : Type}.
  Variables (l r : list A) (fa fb : nat -> nat).

  (* equal consecutive differences telescope to equal totals; the sums are kept free of subtraction, on which
     lia would split cases *)
  Lemma diffs_sum_add n : (forall i, i < n -> fa i <= fa (S i)) -> (forall i, i < n -> fb i <= fb (S i)) ->
    (forall i, i < n -> fa (S i) - fa i = fb (S i) - fb i) -> fa n + fb 0 = fb n + fa 0.
  Proof.
    induction n as [|n IH]; intros Ha Hb Hd; [apply Nat.add_comm|].
    specialize (IH (fun i Hi => Ha i (Nat.lt_lt_succ_r _ _ Hi)) (fun i Hi => Hb i (Nat.lt_lt_succ_r _ _ Hi))
                   (fun i Hi => Hd i (Nat.lt_lt_succ_r _ _ Hi))).
    specialize (Ha n (Nat.lt_succ_diag_r n)). specialize (Hb n (Nat.lt_succ_diag_r n)). specialize (Hd n (Nat.lt_succ_diag_r n)). lia.
  Qed.

  Lemma diffs_last n : (forall i, i < S n -> fa i <= fa (S i)) -> (forall i, i < S n -> fb i <= fb (S i)) ->
    (forall i, i < n -> fa (S i) - fa i = fb (S i) - fb i) -> fa (S n) - fa 0 = fb (S n) - fb 0 ->
    forall i, i < S n -> fa (S i) - fa i = fb (S i) - fb i.
  Proof.
    intros Ha Hb Hd Ht i Hi. destruct (Nat.eq_dec i n) as [->|]; [|apply Hd; lia].
    pose proof (diffs_sum_add n (fun i Hi => Ha i (Nat.lt_lt_succ_r _ _ Hi)) (fun i Hi => Hb i (Nat.lt_lt_succ_r _ _ Hi)) Hd) as Hs.
    pose proof (mono_le fa (S n) Ha 0 (S n) (Nat.le_0_l _) (Nat.le_refl _)) as H0a.
    pose proof (mono_le fb (S n) Hb 0 (S n) (Nat.le_0_l _) (Nat.le_refl _)) as H0b.
    assert (Ht' : fa (S n) + fb 0 = fb (S n) + fa 0) by lia. clear Ht H0a H0b.
    specialize (Ha n (Nat.lt_succ_diag_r n)). specialize (Hb n (Nat.lt_succ_diag_r n)). lia.
  Qed.

  Lemma window_split (x : list A) (f : nat -> nat) n : f 0 <= f n -> f n <= f (S n) ->
    firstn (f (S n) - f 0) (skipn (f 0) x) = firstn (f n - f 0) (skipn (f 0) x) ++ firstn (f (S n) - f n) (skipn (f n) x).
  Proof.
    intros H0 H1. replace (f (S n) - f 0) with ((f n - f 0) + (f (S n) - f n)) by lia.
    rewrite firstn_plus, skipn_skipn. f_equal. f_equal. f_equal. lia.
  Qed.

  Lemma concat_eq_iff (xs : list (list A)) : forall ys, map (@length A) xs = map (@length A) ys ->
    (concat xs = concat ys <-> xs = ys).
  Proof.
    induction xs as [|x xs IH]; intros [|y ys] Hl; cbn [map] in Hl; try discriminate; [tauto|].
    injection Hl as Hxy Hl. cbn [concat]. rewrite (app_eq_len x y _ _ Hxy), (IH ys Hl).
    split; [intros [-> ->]; reflexivity | intros E; injection E; tauto].
  Qed.

  Lemma concat_windows (x : list A) (f : nat -> nat) n : (forall i, i < n -> f i <= f (S i)) ->
    concat (map (fun i => firstn (f (S i) - f i) (skipn (f i) x)) (seq 0 n)) = firstn (f n - f 0) (skipn (f 0) x).
  Proof.
    induction n as [|n IH]; intros M; [now rewrite Nat.sub_diag|].
    rewrite seq_S, map_app, concat_app, IH by (intros; apply M; lia). cbn [map concat Nat.add]. rewrite app_nil_r.
    symmetry. apply window_split; [apply (mono_le f n); [intros; apply M; lia | lia | lia] | apply M; lia].
  Qed.

  (* the whole window is the concatenation of the slot windows (concat_windows), and concatenations of pieces of
     equal lengths are equal only piece by piece (concat_eq_iff) *)
  Lemma windows_eq n :
    (forall i, i < n -> fa i <= fa (S i)) -> (forall i, i < n -> fb i <= fb (S i)) -> fa n <= length l -> fb n <= length r ->
    (((forall i, i < n -> fa (S i) - fa i = fb (S i) - fb i) /\
      firstn (fa n - fa 0) (skipn (fa 0) l) = firstn (fb n - fb 0) (skipn (fb 0) r))
     <-> forall i, i < n -> firstn (fa (S i) - fa i) (skipn (fa i) l) = firstn (fb (S i) - fb i) (skipn (fb i) r)).
  Proof.
    intros Ma Mb La Lb. rewrite <- (concat_windows l fa n Ma), <- (concat_windows r fb n Mb).
    rewrite <- (map_seq_ext_iff (fun i => firstn (fa (S i) - fa i) (skipn (fa i) l)) (fun i => firstn (fb (S i) - fb i) (skipn (fb i) r)) n).
    assert (Hlen : forall (x : list A) f i, (forall i, i < n -> f i <= f (S i)) -> f n <= length x -> i < n ->
              length (firstn (f (S i) - f i) (skipn (f i) x)) = f (S i) - f i).
    { intros x f i M L Hi. apply firstn_skipn_length.
      pose proof (mono_le f n M (S i) n ltac:(lia) ltac:(lia)). specialize (M i Hi). lia. }
    split.
    - intros [Hd Hc]. apply concat_eq_iff; [|exact Hc]. rewrite !map_map. apply map_seq_ext_iff. intros i Hi.
      now rewrite !Hlen, (Hd i Hi) by assumption.
    - intros E. split; [|now rewrite E]. intros i Hi.
      rewrite <- (Hlen l fa i Ma La Hi), <- (Hlen r fb i Mb Lb Hi). f_equal. revert i Hi. now apply map_seq_ext_iff.
  Qed.
End Windows.

Lemma window_eq_length {A} (l r : list A) sa ea sb eb : sa <= ea -> ea <= length l -> sb <= eb -> eb <= length r ->
  firstn (ea - sa) (skipn sa l) = firstn (eb - sb) (skipn sb r) -> ea - sa = eb - sb.
Proof. intros H1 H2 H3 H4 E. apply (f_equal (@length _)) in E. now rewrite !firstn_skipn_length in E by lia. Qed.

Definition noff (a : parr) (w j : nat) : nat := Z.to_nat (off_at a w j).

Record offs_ok (a : parr) (w limit : nat) : Prop := {
  bo_nonneg : forall i, i <= p_len a -> (0 <= off_at a w i)%Z;
  bo_mono : forall i, i < p_len a -> (off_at a w i <= off_at a w (S i))%Z;
  bo_last : (off_at a w (p_len a) <= Z.of_nat limit)%Z }.
(* (Large)Binary / Utf8: the offsets index the value buffer *)
Notation bin_ok a w := (offs_ok a w (length (buf a 1))).

(* what the validator's spec_offsets grants; an empty array may come with an empty offsets buffer, which
   reads as 0 everywhere, or with a single offset *)
Lemma spec_offsets_ok a w limit : spec_offsets a w limit = true -> offs_ok a w limit.
Proof.
  intros Es. unfold spec_offsets in Es.
  destruct (Nat.eqb_spec (p_len a) 0) as [E0|Hpos]; cbn [andb] in Es.
  - destruct (Nat.eqb_spec (length (buf a 0)) 0) as [Eb|Eb].
    + assert (Hz : forall i, off_at a w i = 0%Z).
      { intros i. unfold off_at, sle_at, le_at. destruct (buf a 0); [|discriminate Eb].
        rewrite skipn_nil, firstn_nil. cbn [le_val]. unfold signed_of.
        destruct (N.ltb_spec 0 (2 ^ N.of_nat (8 * w - 1))) as [_|Hn]; [reflexivity|].
        pose proof (N.pow_nonzero 2 (N.of_nat (8 * w - 1)) ltac:(discriminate)). lia. }
      constructor; intros; rewrite ?Hz; lia.
    + apply andb_true_iff in Es as [Es Hlast]. apply andb_true_iff in Es as [_ Hm]. apply Z.leb_le in Hlast.
      unfold offsets_of in Hm, Hlast. rewrite E0 in Hm, Hlast. cbn [seq map monotone_from last] in Hm, Hlast.
      apply andb_true_iff in Hm as [Hm _]. apply Z.leb_le in Hm.
      constructor; rewrite ?E0.
      * intros i Hi. replace i with 0 by lia. exact Hm.
      * intros i Hi. lia.
      * exact Hlast.
  - apply andb_true_iff in Es as [Es Hlast]. apply andb_true_iff in Es as [_ Hm]. apply Z.leb_le in Hlast.
    pose proof (offsets_of_length a w) as Hlen. constructor; unfold off_at.
    + intros i Hi. rewrite <- offsets_of_nth by exact Hi. apply (monotone_sorted _ 0 i i Hm). lia.
    + intros i Hi. rewrite <- !offsets_of_nth by lia. apply (monotone_sorted _ 0 i (S i) Hm). lia.
    + now rewrite offsets_of_last in Hlast.
Qed.

Section Offsets.
  Variables (a : parr) (w lim : nat).
  Hypothesis H : offs_ok a w lim.

  Lemma noff_mono i : i < p_len a -> noff a w i <= noff a w (S i).
  Proof. intros Hi. unfold noff. pose proof (bo_mono a w lim H i Hi). pose proof (bo_nonneg a w lim H i ltac:(lia)). lia. Qed.
  Lemma noff_le i j : i <= j -> j <= p_len a -> noff a w i <= noff a w j.
  Proof. intros Hij Hj. apply (mono_le (noff a w) (p_len a)); [apply noff_mono | exact Hij | exact Hj]. Qed.
  Lemma noff_last : noff a w (p_len a) <= lim.
  Proof. unfold noff. pose proof (bo_last a w lim H). pose proof (bo_nonneg a w lim H (p_len a) ltac:(lia)). lia. Qed.
  Lemma off_noff i : i <= p_len a -> off_at a w i = Z.of_nat (noff a w i).
  Proof. intros Hi. unfold noff. pose proof (bo_nonneg a w lim H i Hi). lia. Qed.
  Lemma off_diff i j : i <= j -> j <= p_len a -> (off_at a w j - off_at a w i)%Z = Z.of_nat (noff a w j - noff a w i).
  Proof. intros Hij Hj. rewrite (off_noff i), (off_noff j) by lia. pose proof (noff_le i j Hij Hj). lia. Qed.

  (* the span [i, j) of offsets on naturals: start, length, end = start + length, end within the limit *)
  Lemma off_span i j : i <= j -> j <= p_len a ->
    off_at a w i = Z.of_nat (noff a w i) /\
    (off_at a w j - off_at a w i)%Z = Z.of_nat (noff a w j - noff a w i) /\
    noff a w i + (noff a w j - noff a w i) = noff a w j /\ noff a w j <= lim.
  Proof.
    intros Hij Hj. pose proof (noff_le i j Hij Hj). split; [apply off_noff; lia|]. split; [now apply off_diff|]. split; [lia|].
    etransitivity; [exact (noff_le j (p_len a) Hj (Nat.le_refl _)) | apply noff_last].
  Qed.

  Lemma noff_step i : i < p_len a -> noff a w i <= noff a w (S i) /\ noff a w (S i) <= lim.
  Proof.
    intros Hi. split; [now apply noff_mono|].
    etransitivity; [exact (noff_le (S i) (p_len a) Hi (Nat.le_refl _)) | apply noff_last].
  Qed.

  Lemma noff_range s n : s + n <= p_len a ->
    (forall i, i < n -> noff a w (s + i) <= noff a w (s + S i)) /\ noff a w (s + n) <= lim.
  Proof.
    intros Hs. split.
    - intros i Hi. rewrite Nat.add_succ_r. apply noff_mono. lia.
    - etransitivity; [apply (noff_le (s + n) (p_len a)); lia | apply noff_last].
  Qed.

  Lemma noff_flat s n : s + n <= p_len a -> noff a w (s + n) - noff a w s = 0 ->
    forall i, i < n -> noff a w (s + S i) - noff a w (s + i) = 0.
  Proof.
    intros Hs E i Hi. pose proof (noff_le s (s + i) ltac:(lia) ltac:(lia)).
    pose proof (noff_le (s + S i) (s + n) ltac:(lia) ltac:(lia)). lia.
  Qed.
End Offsets.
Arguments noff_mono {a w lim} H i.
Arguments noff_le {a w lim} H i j.
Arguments noff_last {a w lim} H.
Arguments off_noff {a w lim} H i.
Arguments off_diff {a w lim} H i j.
Arguments off_span {a w lim} H i j.
Arguments noff_step {a w lim} H i.
Arguments noff_range {a w lim} H s n.
Arguments noff_flat {a w lim} H s n.

(* Binary and List have the same layout: slot j is the piece of a sequence x (the value buffer; the child's
   logical column) between offsets j and j+1, and the code compares pieces of the two sequences (bytes with
   equal_len_z, child slots with equal_range) at positions read from the offsets.  The names of slot j: [cut] here,
   [bin_slice] as the model reads Binary (bin_slice_cut), [lslice] = cut of the child's column (C02_EqualList, by
   conversion); the fixed-stride layouts have [chunk] (C02_EqualPrim) and [fslice] (C02_EqualFixedList). *)
Definition cut {A} (w : nat) (x : list A) (c : parr) (j : nat) : list A :=
  firstn (noff c w (S j) - noff c w j) (skipn (noff c w j) x).
(* the slots s .. s+n-1 taken together *)
Definition stretch {A} (w : nat) (x : list A) (c : parr) (s n : nat) : list A :=
  firstn (noff c w (s + n) - noff c w s) (skipn (noff c w s) x).
Definition same_lens (a b : parr) (w ls rs n : nat) : Prop :=
  forall i, i < n -> noff a w (ls + S i) - noff a w (ls + i) = noff b w (rs + S i) - noff b w (rs + i).

Section Cut.
  Context {A : Type}.
  Variables (xa xb : list A) (a b : parr) (w la lb : nat).
  Hypotheses (Ea : length xa = la) (Eb : length xb = lb) (Ha : offs_ok a w la) (Hb : offs_ok b w lb).
  Variable cmp : Z -> Z -> Z -> bool.
  Hypothesis cmp_nat : forall s1 s2 m, s1 + m <= la -> s2 + m <= lb ->
    (cmp (Z.of_nat s1) (Z.of_nat s2) (Z.of_nat m) = true <-> firstn m (skipn s1 xa) = firstn m (skipn s2 xb)).

  Lemma lens_total ls rs n : ls + n <= p_len a -> rs + n <= p_len b -> same_lens a b w ls rs n ->
    noff a w (ls + n) - noff a w ls = noff b w (rs + n) - noff b w rs.
  Proof.
    intros Hla Hlb Hd. destruct (noff_range Ha ls n Hla) as [Ma _]. destruct (noff_range Hb rs n Hlb) as [Mb _].
    pose proof (diffs_sum_add (fun i => noff a w (ls + i)) (fun i => noff b w (rs + i)) n Ma Mb Hd) as Hs.
    cbn beta in Hs. rewrite !Nat.add_0_r in Hs. clear - Hs. lia.
  Qed.

  (* list.rs hands lengths_equal one offset fewer than variable_size.rs (as many offsets as slots) and compares the
     two totals itself: the last length is what the totals leave *)
  Lemma lens_last ls rs m : ls + S m <= p_len a -> rs + S m <= p_len b -> same_lens a b w ls rs m ->
    noff a w (ls + S m) - noff a w ls = noff b w (rs + S m) - noff b w rs -> same_lens a b w ls rs (S m).
  Proof.
    intros Hla Hlb Hd Ht. destruct (noff_range Ha ls (S m) Hla) as [Ma _]. destruct (noff_range Hb rs (S m) Hlb) as [Mb _].
    unfold same_lens. apply (diffs_last (fun i => noff a w (ls + i)) (fun i => noff b w (rs + i)) m Ma Mb Hd). cbn beta. now rewrite !Nat.add_0_r.
  Qed.

  (* a run of slots compared in one go: equal extents, then the two windows *)
  Lemma stretch_compare_iff i k n : i + n <= p_len a -> k + n <= p_len b ->
    ((if Z.eqb (off_at a w (i + n) - off_at a w i) (off_at b w (k + n) - off_at b w k)
      then cmp (off_at a w i) (off_at b w k) (off_at a w (i + n) - off_at a w i) else false) = true
     <-> noff a w (i + n) - noff a w i = noff b w (k + n) - noff b w k /\ stretch w xa a i n = stretch w xb b k n).
  Proof.
    intros Hi Hk. unfold stretch.
    destruct (off_span Ha i (i + n) (Nat.le_add_r _ _) Hi) as (Oa & Da & SA & La).
    destruct (off_span Hb k (k + n) (Nat.le_add_r _ _) Hk) as (Ob & Db & SB & Lb).
    rewrite Da, Db, Oa, Ob.
    destruct (Z.eqb_spec (Z.of_nat (noff a w (i + n) - noff a w i)) (Z.of_nat (noff b w (k + n) - noff b w k))) as [E|E].
    - apply Nat2Z.inj in E. rewrite cmp_nat; [rewrite <- E; tauto | now rewrite SA | now rewrite E, SB].
    - split; [discriminate | intros [E' _]; now rewrite E' in E].
  Qed.

  (* one slot: equal pieces have equal lengths *)
  Lemma stretch_one_iff j k : j < p_len a -> k < p_len b ->
    (noff a w (j + 1) - noff a w j = noff b w (k + 1) - noff b w k /\ stretch w xa a j 1 = stretch w xb b k 1
     <-> cut w xa a j = cut w xb b k).
  Proof.
    intros Hj Hk. unfold stretch, cut. rewrite !Nat.add_1_r.
    destruct (noff_step Ha j Hj) as [Ma La]. destruct (noff_step Hb k Hk) as [Mb Lb]. rewrite <- Ea in La. rewrite <- Eb in Lb.
    split; [tauto|]. intros E. split; [|exact E]. revert E. now apply window_eq_length.
  Qed.

  Lemma cut_compare_iff j k : j < p_len a -> k < p_len b ->
    ((if Z.eqb (off_at a w (j + 1) - off_at a w j) (off_at b w (k + 1) - off_at b w k)
      then cmp (off_at a w j) (off_at b w k) (off_at a w (j + 1) - off_at a w j) else false) = true
     <-> cut w xa a j = cut w xb b k).
  Proof. intros Hj Hk. rewrite (stretch_compare_iff j k 1) by lia. now apply stretch_one_iff. Qed.

  Lemma cuts_iff ls rs n : ls + n <= p_len a -> rs + n <= p_len b ->
    (same_lens a b w ls rs n /\ stretch w xa a ls n = stretch w xb b rs n
     <-> forall i, i < n -> cut w xa a (ls + i) = cut w xb b (rs + i)).
  Proof.
    intros Hla Hlb. unfold same_lens, stretch.
    destruct (noff_range Ha ls n Hla) as [Ma La]. destruct (noff_range Hb rs n Hlb) as [Mb Lb].
    rewrite <- Ea in La. rewrite <- Eb in Lb.
    pose proof (windows_eq xa xb (fun i => noff a w (ls + i)) (fun i => noff b w (rs + i)) n Ma Mb La Lb) as W.
    cbn beta in W. rewrite !Nat.add_0_r in W. rewrite W. unfold cut.
    split; intros H i Hi; specialize (H i Hi); [rewrite !Nat.add_succ_r in H | rewrite !Nat.add_succ_r]; exact H.
  Qed.
End Cut.
Arguments lens_total {a b w la lb} Ha Hb ls rs n.
Arguments lens_last {a b w la lb} Ha Hb ls rs m.
Arguments stretch_compare_iff {A xa xb a b w la lb} Ha Hb {cmp} cmp_nat i k n.
Arguments stretch_one_iff {A xa xb a b w la lb} Ea Eb Ha Hb j k.
Arguments cut_compare_iff {A xa xb a b w la lb} Ea Eb Ha Hb {cmp} cmp_nat j k.
Arguments cuts_iff {A xa xb a b w la lb} Ea Eb Ha Hb ls rs n.

(* the value of slot j as the model reads it; it is the piece [cut] of the value buffer, the form in which everything
   above is proved *)
Definition bin_slice (a : parr) (w j : nat) : list N := bytes_between (buf a 1) (off_at a w j) (off_at a w (j + 1)).

Lemma bin_slice_cut a w j : bin_ok a w -> j < p_len a -> bin_slice a w j = cut w (buf a 1) a j.
Proof.
  intros H Hj. destruct (noff_step H j Hj) as [M1 M2]. unfold bin_slice, cut.
  rewrite Nat.add_1_r, (off_noff H j (Nat.lt_le_incl _ _ Hj)), (off_noff H (S j) Hj).
  now apply bytes_between_nat.
Qed.

Lemma diffs_cons2 x y r : diffs (x :: y :: r) = (y - x)%Z :: diffs (y :: r).
Proof. reflexivity. Qed.

Lemma diffs_map (f : nat -> Z) n : forall s, diffs (map f (seq s (S n))) = map (fun i => (f (S i) - f i)%Z) (seq s n).
Proof.
  induction n as [|n IH]; intros s; [reflexivity|].
  cbn [seq map]. rewrite diffs_cons2. f_equal. exact (IH (S s)).
Qed.

Lemma forallb_combine_eq (p : list Z) : forall q, length p = length q ->
  (forallb (fun x : Z * Z => Z.eqb (fst x) (snd x)) (List.combine p q) = true <-> p = q).
Proof.
  induction p as [|u p IH]; intros [|v q] Hl; cbn [length] in Hl; try discriminate; [tauto|].
  cbn [List.combine forallb fst snd]. rewrite andb_true_iff, Z.eqb_eq, IH by lia. split; [intros [-> ->]; reflexivity | intros E; injection E; tauto].
Qed.

Lemma same_head_diffs (p : list Z) : forall q, length p = length q -> hd 0%Z p = hd 0%Z q -> diffs p = diffs q -> p = q.
Proof.
  induction p as [|u p IH]; intros [|v q] Hl Hh Hd; cbn [length] in Hl; try discriminate; [reflexivity|].
  cbn [hd] in Hh. subst v. f_equal.
  destruct p as [|u' p], q as [|v' q]; cbn [length] in Hl; try discriminate; [reflexivity|].
  cbn [diffs] in Hd. injection Hd as Hd0 Hd. apply IH; [cbn [length]; lia | cbn [hd]; lia | exact Hd].
Qed.

Lemma diffs_length (p : list Z) : length (diffs p) = length p - 1.
Proof.
  induction p as [|u p IH]; [reflexivity|]. destruct p as [|v p]; [reflexivity|].
  rewrite diffs_cons2. cbn [length] in *. lia.
Qed.

Lemma lengths_equal_iff p q : length p = length q -> (lengths_equal p q = true <-> diffs p = diffs q).
Proof.
  intros Hl. unfold lengths_equal. destruct p as [|l0 p'] eqn:Ep.
  - destruct q; [|discriminate]. tauto.
  - rewrite <- Ep in *. assert (Hh : hd 0%Z p = l0) by now rewrite Ep.
    destruct (Z.eqb l0 0 && Z.eqb (hd 0%Z q) 0) eqn:E0.
    + apply andb_true_iff in E0 as [E1 E2]. apply Z.eqb_eq in E1, E2. rewrite zs_eqb_eq. split; [now intros -> |].
      intros Hd. apply same_head_diffs; [exact Hl | lia | exact Hd].
    + apply forallb_combine_eq. rewrite !diffs_length. lia.
Qed.

Lemma lengths_equal_offs a b w la lb ls rs m : offs_ok a w la -> offs_ok b w lb -> ls + m <= p_len a -> rs + m <= p_len b ->
  (lengths_equal (offs_range a w ls (S m)) (offs_range b w rs (S m)) = true <-> same_lens a b w ls rs m).
Proof.
  intros Ha Hb Hla Hlb. rewrite lengths_equal_iff by (unfold offs_range; now rewrite !map_length, !seq_length).
  unfold offs_range. rewrite !diffs_map, map_seq_ext_iff.
  split; intros H i Hi; specialize (H i Hi).
  - rewrite (off_diff Ha (ls + i) (ls + S i)), (off_diff Hb (rs + i) (rs + S i)) in H by lia. now apply Nat2Z.inj.
  - rewrite (off_diff Ha (ls + i) (ls + S i)), (off_diff Hb (rs + i) (rs + S i)) by lia. now f_equal.
Qed.

Lemma equal_len_z_iff lv rv (s1 s2 n : nat) : s1 + n <= length lv -> s2 + n <= length rv ->
  (equal_len_z lv rv (Z.of_nat s1) (Z.of_nat s2) (Z.of_nat n) = true <-> firstn n (skipn s1 lv) = firstn n (skipn s2 rv)).
Proof.
  intros H1 H2. unfold equal_len_z. rewrite !leb_0_of_nat, !leb_of_nat_add by assumption. rewrite !Nat2Z.id. apply equal_len_iff.
Qed.

(* offset_value_equal answers before comparing when both extents are empty: two empty windows *)
Lemma empty_shortcut (dl dr : Z) (X : bool) (P : Prop) :
  ((if Z.eqb dl dr then X else false) = true <-> P) -> (dl = 0%Z -> dr = 0%Z -> P) ->
  ((if Z.eqb dl 0 && Z.eqb dr 0 then true else if Z.eqb dl dr then X else false) = true <-> P).
Proof.
  intros HX H0. destruct (Z.eqb_spec dl 0) as [E1|_]; [|exact HX].
  destruct (Z.eqb_spec dr 0) as [E2|_]; [|exact HX]. cbn [andb]. split; [intros _; now apply H0 | reflexivity].
Qed.

Lemma offset_value_equal_iff a b w lpos rpos n : bin_ok a w -> bin_ok b w -> lpos + n <= p_len a -> rpos + n <= p_len b ->
  (offset_value_equal (buf a 1) (buf b 1) a b w lpos rpos n = true
   <-> noff a w (lpos + n) - noff a w lpos = noff b w (rpos + n) - noff b w rpos /\
       stretch w (buf a 1) a lpos n = stretch w (buf b 1) b rpos n).
Proof.
  intros Ha Hb Hla Hlb. unfold offset_value_equal. cbn zeta.
  apply empty_shortcut; [exact (stretch_compare_iff Ha Hb (equal_len_z_iff (buf a 1) (buf b 1)) lpos rpos n Hla Hlb)|].
  intros E1 E2. rewrite (off_diff Ha lpos (lpos + n)) in E1 by lia. rewrite (off_diff Hb rpos (rpos + n)) in E2 by lia.
  apply (Nat2Z.inj _ 0) in E1, E2. unfold stretch. now rewrite E1, E2.
Qed.

Lemma offset_value_equal_one a b w p q : bin_ok a w -> bin_ok b w -> p < p_len a -> q < p_len b ->
  (offset_value_equal (buf a 1) (buf b 1) a b w p q 1 = true <-> bin_slice a w p = bin_slice b w q).
Proof.
  intros Ha Hb Hp Hq. rewrite (offset_value_equal_iff a b w p q 1 Ha Hb) by lia.
  rewrite !bin_slice_cut by assumption. exact (stretch_one_iff eq_refl eq_refl Ha Hb p q Hp Hq).
Qed.

Theorem variable_sized_equal_iff w a b ls rs n :
  bin_ok a w -> bin_ok b w -> ls + n <= p_len a -> rs + n <= p_len b ->
  (forall i, i < n -> slot_valid a (ls + i) = slot_valid b (rs + i)) ->
  (variable_sized_equal w a b ls rs n = true
   <-> forall i, i < n -> slot_valid a (ls + i) = true -> bin_slice a w (ls + i) = bin_slice b w (rs + i)).
Proof.
  intros Ha Hb Hla Hlb Hv. unfold variable_sized_equal. cbn zeta.
  destruct (contains_nulls (p_nulls a) ls n) eqn:Ec; cbn [negb].
  - destruct (nulls_present Hv Ec) as (ln & rn & Ea & Eb). rewrite Ea, Eb.
    apply (slot_loop_iff Hv Ea Eb). intros i Hi _. apply offset_value_equal_one; (assumption || lia).
  - rewrite (all_valid_iff _ Ec), Nat.add_1_r.
    transitivity (forall i, i < n -> cut w (buf a 1) a (ls + i) = cut w (buf b 1) b (rs + i)).
    + rewrite <- (cuts_iff (xa := buf a 1) (xb := buf b 1) eq_refl eq_refl Ha Hb ls rs n Hla Hlb).
      pose proof (lengths_equal_offs a b w _ _ ls rs n Ha Hb Hla Hlb) as Hle.
      destruct (lengths_equal (offs_range a w ls (S n)) (offs_range b w rs (S n))).
      * rewrite (offset_value_equal_iff a b w ls rs n Ha Hb Hla Hlb).
        split; [intros [_ Hw]; split; [now apply Hle | exact Hw]|]. intros [Hd Hw]. split; [|exact Hw].
        exact (lens_total Ha Hb ls rs n Hla Hlb Hd).
      * split; [discriminate | intros [Hd _]; now apply Hle in Hd].
    + split; intros H i Hi; specialize (H i Hi);
        [rewrite !bin_slice_cut by (assumption || lia) | rewrite !bin_slice_cut in H by (assumption || lia)]; exact H.
Qed.

Lemma spec_node_bin a large utf8 : p_ty a = TBin large utf8 -> spec_node a = true ->
  spec_nulls a = true /\ bin_ok a (offw large).
Proof.
  intros Ht H. unfold spec_node in H. rewrite Ht in H. cbn zeta in H.
  rewrite !andb_true_iff in H. destruct H as (_ & ((Hn & _) & _) & Ho). split; [exact Hn|].
  destruct (spec_offsets a (offw large) (length (buf a 1))) eqn:Es; [|discriminate]. now apply spec_offsets_ok.
Qed.

Lemma reads_bin a l u : p_ty a = TBin l u -> reads a (fun i => LBytes (bin_slice a (offw l) i)).
Proof.
  intros Ht i _. split; [|reflexivity]. destruct a as [ty len off nulls bufs kids]. cbn [p_ty] in Ht. subst ty. cbn [logical_at].
  unfold slot_valid, bin_slice, off_at, buf. cbn [p_nulls p_bufs p_off]. now rewrite Nat.add_assoc.
Qed.

Lemma equal_values_bin a b l u ls rs n : p_ty a = TBin l u ->
  equal_values a b ls rs n = variable_sized_equal (offw l) a b ls rs n.
Proof. destruct a. cbn [p_ty]. now intros ->. Qed.

Lemma bin_comparable l u ka kb : p_ty ka = TBin l u -> p_ty kb = TBin l u -> spec_node ka = true -> spec_node kb = true ->
  comparable ka kb.
Proof.
  intros Hta Htb Hsa Hsb.
  destruct (spec_node_bin ka l u Hta Hsa) as [Hna Hoa]. destruct (spec_node_bin kb l u Htb Hsb) as [Hnb Hob].
  apply (slots_comparable ka kb _ _ Hna Hnb (reads_bin ka l u Hta) (reads_bin kb l u Htb)).
  intros s1 s2 m H1 H2 Hv. rewrite (equal_values_bin ka kb l u) by exact Hta.
  rewrite variable_sized_equal_iff by assumption.
  split; intros H i Hi Hval; specialize (H i Hi Hval); congruence.
Qed.

Theorem equal_iff_logical_bin large utf8 a b :
  p_ty a = TBin large utf8 -> spec_node a = true -> spec_node b = true ->
  (equal a b = true <-> p_ty a = p_ty b /\ logical a = logical b).
Proof.
  intros Ht Hsa Hsb. apply equal_iff_comparable. intros Htb. rewrite Ht in Htb. now apply (bin_comparable large utf8).
Qed.

Example equal_bin_nonvacuous :
  let a := PArr (TBin false true) 2 1 None [[9; 0; 0; 0; 2; 0; 0; 0; 3; 0; 0; 0; 5; 0; 0; 0]%N; [0; 0; 97; 98; 99; 7]%N] [] in
  let b := PArr (TBin false true) 2 0 None [[0; 0; 0; 0; 1; 0; 0; 0; 3; 0; 0; 0]%N; [97; 98; 99]%N] [] in
  spec_node a = true /\ spec_node b = true /\ equal a b = true /\ logical a = [LBytes [97%N]; LBytes [98; 99]%N].
Proof. vm_compute. repeat split. Qed.
