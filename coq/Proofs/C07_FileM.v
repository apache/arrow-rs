(* C07 — the column-chunk model: the chunk minimum/maximum the writer accumulates over pages and
   mini-batches (add_data_page / update_min / update_max on top of get_min_max) bound every
   non-null, non-NaN value of the chunk and are attained; the null count is exact.  All of it is for
   the generic encoder with an ordered type ([has_order := true], [bapath := None]): the arrow
   byte-array encoder has its page-level theorem in C07_BaPath.v and no chunk-level one, and an
   INTERVAL column keeps no bounds at all. *)
From Coq Require Import List Arith Lia.
From AV Require Import Model.C07_Trunc Model.C07_Stats Model.C07_File Proofs.C07_MinMax.
Import ListNotations.

Lemma somes_app {A} (a b : list (option A)) : somes (a ++ b) = somes a ++ somes b.
Proof. induction a as [|[x|] a IH]; cbn [app somes]; [reflexivity| |assumption]. now rewrite IH. Qed.

Lemma somes_concat {A} (ls : list (list (option A))) : somes (concat ls) = concat (map somes ls).
Proof. induction ls as [|l ls IH]; cbn [concat map somes]; [reflexivity|]. now rewrite somes_app, IH. Qed.

Lemma chunks_concat {A} fuel bs : forall (l : list A), (1 <= bs)%nat -> (length l <= fuel)%nat -> concat (chunks fuel bs l) = l.
Proof.
  induction fuel as [|f IH]; intros l Hb Hl.
  - destruct l; [reflexivity|cbn [length] in Hl; lia].
  - destruct l as [|x l]; [reflexivity|]. cbn [chunks concat].
    rewrite IH; [apply firstn_skipn|exact Hb|].
    rewrite skipn_length. cbn [length] in *. lia.
Qed.

Lemma somes_length_le {A} (l : list (option A)) : (length (somes l) <= length l)%nat.
Proof. induction l as [|[x|] l IH]; cbn [somes length]; lia. Qed.

Lemma count_none_app {A} (a b : list (option A)) : count_none (a ++ b) = (count_none a + count_none b)%nat.
Proof.
  unfold count_none. rewrite somes_app, !app_length.
  pose proof (somes_length_le a). pose proof (somes_length_le b). lia.
Qed.

Section FileProofs.
  Variable T : Type.
  Variable gt : T -> T -> bool.
  Variable nan : T -> bool.
  Variable le : T -> T -> bool.
  Hypothesis le_trans : forall a b c, le a b = true -> le b c = true -> le a c = true.
  Hypothesis le_total : forall a b, le a b = true \/ le b a = true.
  Hypothesis gt_spec : forall a b, gt a b = negb (le a b).
  Variable enc : T -> bytes.
  Variable float : bool.
  Variable can_trunc utf8 : bool.

  Notation bounded := (bounds T nan le).
  Notation pmm := (page_minmax T gt nan float true None).

  Lemma page_minmax_spec bs rows : bounded (somes rows) (fst (fst (pmm bs rows))) (snd (fst (pmm bs rows))).
  Proof.
    unfold page_minmax. cbn [negb].
    set (batches := map somes (chunks (length rows) (Nat.max bs 1) rows)).
    assert (Hc : concat batches = somes rows).
    { unfold batches. rewrite <- somes_concat, chunks_concat; [reflexivity|lia|lia]. }
    pose proof (fold_left_concat_inv _ _ (write_slice_ok T gt nan le le_trans le_total gt_spec float) batches _ (st_ok_init T nan le float)) as K.
    rewrite Hc in K.
    destruct (fold_left (fun st s => write_slice gt nan float s st) batches (None, None, None)) as [[mn mx] nc].
    now destruct K as [Km _].
  Qed.

  Notation addp := (add_page T gt nan enc float true None can_trunc utf8).

  (* add_page ends in four record literals, chosen by two tests and a match, that agree on the
     chunk-level fields; the statement below has the shape of that choice so that it applies to the
     unfolded body of add_page as it stands *)
  Lemma outcome_cases {A} (f : wstate T -> A) (v : A) (b1 b2 : bool) (ps : option (T * T)) x1 x2 x3 x4 :
    f x1 = v -> f x2 = v -> f x3 = v -> (forall mn mx, f (x4 mn mx) = v) ->
    f (if b1 then x1 else if b2 then x2 else match ps with None => x3 | Some (mn, mx) => x4 mn mx end) = v.
  Proof. intros. destruct b1, b2, ps as [[? ?]|]; auto. Qed.

  (* whatever happens to the column index, add_page updates the chunk extrema with
     update_min/update_max and adds the page's nulls (the right-hand side is add_page's own
     [cmin'], [cmax'] and null count) *)
  Lemma add_page_chunk pl tli bs w rows :
    let w' := addp pl tli bs w rows in
    (w_cmin T w', w_cmax T w', w_nulls T w') =
    let '(pmin, pmax, _) := pmm bs rows in
    let stats := match pmin, pmax with Some mn, Some mx => Some (mn, mx) | _, _ => None end in
    (match stats with Some (mn, _) => update_min gt nan mn (w_cmin T w) | None => w_cmin T w end,
     match stats with Some (_, mx) => update_max gt nan mx (w_cmax T w) | None => w_cmax T w end,
     (w_nulls T w + count_none rows)%nat).
  Proof.
    unfold add_page. destruct (pmm bs rows) as [[pmin pmax] pn].
    apply (outcome_cases (fun w' => (w_cmin T w', w_cmax T w', w_nulls T w')));
      [reflexivity..|intros; destruct (w_last T w) as [[? ?]|]; reflexivity].
  Qed.

  Definition chunk_inv (rows : list (option T)) (w : wstate T) : Prop :=
    w_nulls T w = count_none rows /\ bounded (somes rows) (w_cmin T w) (w_cmax T w).

  Lemma add_page_inv pl tli bs seen w rows : chunk_inv seen w -> chunk_inv (seen ++ rows) (addp pl tli bs w rows).
  Proof.
    intros [Hn Hb]. pose proof (add_page_chunk pl tli bs w rows) as E. cbv zeta in E.
    pose proof (page_minmax_spec bs rows) as P.
    destruct (pmm bs rows) as [[[a|] [b|]] pn]; cbn [fst snd bounds] in P; injection E as Emin Emax En.
    all: split; [rewrite En, Hn; symmetry; apply count_none_app|]; rewrite Emin, Emax, somes_app.
    - destruct P as [Pa Pb]. now apply (bounds_update T gt nan le le_trans le_total gt_spec).
    - destruct P.
    - destruct P.
    - now rewrite P, app_nil_r.
  Qed.

  (* [bounds] in the words of the chunk theorem *)
  Lemma bounds_read vs mn mx : bounded vs mn mx ->
    match vs with
    | [] => mn = None /\ mx = None
    | _ => exists a b, mn = Some a /\ mx = Some b /\ In a vs /\ In b vs /\
           forall v, In v vs -> nan v = false ->
             nan a = false /\ nan b = false /\ le a v = true /\ le v b = true
    end.
  Proof.
    destruct mn as [a|], mx as [b|]; cbn [bounds].
    - intros [Ha Hb]. pose proof (bounds_sound T nan le vs a b Ha Hb) as S.
      destruct vs; [destruct (proj1 S)|]. now exists a, b.
    - intros [].
    - intros [].
    - intros ->. now split.
  Qed.

  Theorem chunk_merges_pages pl tli bs pages :
    let w := run_pages T gt nan enc float true None can_trunc utf8 pl tli bs pages in
    let vs := somes (concat pages) in
    w_nulls T w = count_none (concat pages) /\
    match vs with
    | [] => w_cmin T w = None /\ w_cmax T w = None
    | _ => exists mn mx, w_cmin T w = Some mn /\ w_cmax T w = Some mx /\ In mn vs /\ In mx vs /\
           forall v, In v vs -> nan v = false ->
             nan mn = false /\ nan mx = false /\ le mn v = true /\ le v mx = true
    end.
  Proof using le_trans le_total gt_spec.
    intros w vs.
    destruct (fold_left_concat_inv _ chunk_inv (add_page_inv pl tli bs) pages (w_init T pl)) as [Kn K];
      [now split|].
    split; [exact Kn|exact (bounds_read _ _ _ K)].
  Qed.
End FileProofs.
