(* C08 — arithmetic of the varint readers: bounds, agreement with the bounded ULEB128 specification,
   decode∘encode, zig-zag, and the two bounds that do not hold (ten bytes; the count read_thrift_vec allocates for). *)
From Coq Require Import List NArith ZArith Bool Lia.
From AV Require Import Base.Bits Base.Leb128 Model.C08_Thrift Model.C08_Avro Proofs.C08_Thrift.
Import ListNotations.
Local Open Scope N_scope.

Lemma lor_lt_pow2 a b n : a < 2^n -> b < 2^n -> N.lor a b < 2^n.
Proof.
  intros Ha Hb. replace (N.lor a b) with (N.lor a b mod 2^n); [apply N.mod_lt, N.pow_nonzero; discriminate|].
  apply N.bits_inj. intros i. destruct (N.ltb_spec i n) as [Hi|Hi].
  - apply N.mod_pow2_bits_low. exact Hi.
  - rewrite N.mod_pow2_bits_high by exact Hi. rewrite N.lor_spec.
    rewrite (testbit_high a n i Ha Hi), (testbit_high b n i Hb Hi). reflexivity.
Qed.

Lemma wshl64_small x s : s < 64 -> x * 2^s < 2^64 -> wshl64 x s = x * 2^s.
Proof.
  intros Hs Hx. unfold wshl64. rewrite (N.mod_small s 64) by exact Hs.
  rewrite N.shiftl_mul_pow2. apply N.mod_small. exact Hx.
Qed.

(* one iteration of the thrift loop adds the septet at its place, as long as nothing is shifted out *)
Lemma vlq_step acc b sh : acc < 2^sh -> sh < 64 -> (b mod 128) * 2^sh < 2^64 ->
  N.lor acc (wshl64 (N.land b 127) sh) = acc + (b mod 128) * 2^sh.
Proof. intros Ha Hs Hf. rewrite land_127, wshl64_small by assumption. now rewrite <- (lor_shift_add _ _ _ Ha), N.shiftl_mul_pow2. Qed.

(* at every shift but 63 a whole septet fits; the tenth byte, 0 or 1 at shift 63, is the one use of vlq_step itself *)
Lemma vlq_step7 acc b sh : acc < 2^sh -> sh + 7 <= 64 ->
  N.lor acc (wshl64 (N.land b 127) sh) = acc + (b mod 128) * 2^sh.
Proof. intros Ha Hs. apply vlq_step; [exact Ha|lia|apply (shift_fits _ 7); [apply septet_lt|exact Hs]]. Qed.

Lemma vlq_loop_bounded bs : forall acc sh v r, acc < 2^64 -> vlq_loop bs acc sh = Ok v r -> v < 2^64.
Proof.
  induction bs as [|b t IH]; intros acc sh v r Ha; cbn [vlq_loop]; [discriminate|].
  assert (Hacc : N.lor acc (wshl64 (N.land b 127) sh) < 2^64) by (apply lor_lt_pow2; [exact Ha|apply N.mod_lt; discriminate]).
  destruct (b <? 128); [intros H; inversion H; subst; exact Hacc|].
  apply IH. exact Hacc.
Qed.

Lemma read_vlq_eq_loop bs : read_vlq bs = vlq_loop bs 0 0.
Proof.
  destruct bs as [|b t]; [reflexivity|]. cbn [read_vlq vlq_loop].
  rewrite vlq_step7, N.pow_0_r, N.mul_1_r, N.add_0_l, <- land_127 by (reflexivity || discriminate).
  destruct (N.ltb_spec b 128) as [Hb|Hb]; [|reflexivity].
  rewrite land_127, N.mod_small by exact Hb. reflexivity.
Qed.

Lemma read_vlq_bounded bs v r : read_vlq bs = Ok v r -> v < 2^64 /\ (length r < length bs)%nat.
Proof.
  intros H. split.
  - rewrite read_vlq_eq_loop in H. apply (vlq_loop_bounded bs 0 0 v r); [reflexivity|exact H].
  - pose proof (eats_consumed _ _ _ (read_vlq_eats bs)) as Hc. rewrite H in Hc. lia.
Qed.

(* the model's encoder and zig-zag are those of Base/Leb128 under other names (the same bodies, hence convertible) *)
Lemma uleb_enc_leb : uleb_enc = leb_enc.
Proof. reflexivity. Qed.
Lemma zigzag_zz : C08_Thrift.zigzag = zz.
Proof. reflexivity. Qed.
Lemma zigzag_enc_unzz : zigzag_enc = unzz.
Proof. reflexivity. Qed.

(* The specification is the reader of Base/Leb128 under the limit.  Its test for the tenth byte sits in the last-byte
   branch; a continuation byte in tenth place is at least 2 and finds the fuel spent instead. *)
Lemma uleb_dec_run : forall bs k a, leb_inv true k a ->
  uleb_dec (10 - k) bs (leb_shift k) a = value_rest (leb_run true bs k a).
Proof.
  apply (leb_run_reads_any true (fun o x => x = value_rest o) (fun k a bs => uleb_dec (10 - k) bs (leb_shift k) a)).
  - (* the input ends *)
    intros k a _. destruct (10 - k)%nat; reflexivity.
  - (* one byte *)
    intros k a b r [_ Hk]. specialize (Hk eq_refl). replace (10 - k)%nat with (S (10 - S k)) by lia.
    cbn [uleb_dec]. cbv zeta. unfold over_limit. cbn [andb]. rewrite leb_shift_63, leb_shift_S, ltb_1.
    destruct (Nat.eqb_spec k 9) as [->|H9]; cbn [andb]; [|destruct (b <? 128); reflexivity].
    (* the tenth byte *)
    destruct (N.leb_spec 2 b); destruct (N.ltb_spec b 128); reflexivity || lia.
Qed.

Lemma varint_spec_run bs : varint_spec bs = value_rest (leb_run true bs 0 0).
Proof. exact (uleb_dec_run bs 0 0 (leb_inv_0 true)). Qed.

(* The thrift loop has no limit and wraps where the specification gives up; where that has a value nothing has been
   shifted out yet, and lor / wrapping_shl compute the sum. *)
Lemma vlq_loop_run : forall bs k a, leb_inv true k a ->
  match leb_run true bs k a with Val v _ r => vlq_loop bs a (leb_shift k) = Ok v r | _ => True end.
Proof.
  apply (leb_run_reads_any true (fun o x => match o with Val v _ r => x = Ok v r | _ => True end)
           (fun k a bs => vlq_loop bs a (leb_shift k))).
  - (* the input ends: no value *)
    exact (fun _ _ _ => I).
  - (* one byte *)
    intros k a b r [Ha Hk]. specialize (Hk eq_refl). destruct (over_limit true k b) eqn:Ho; [exact I|].
    cbn [vlq_loop]. cbv zeta. rewrite leb_shift_S.
    replace (N.lor a (wshl64 (N.land b 127) (leb_shift k))) with (a + b mod 128 * 2^leb_shift k);
      [destruct (b <? 128); reflexivity|].
    symmetry. unfold over_limit in Ho. cbn [andb] in Ho. destruct (Nat.eqb_spec k 9) as [->|H9]; cbn [andb] in Ho.
    + (* the tenth byte is 0 or 1 *)
      apply N.leb_gt in Ho. apply vlq_step; [exact Ha|reflexivity|]. rewrite N.mod_small by lia.
      apply (shift_fits b 1); [exact Ho|discriminate].
    + apply vlq_step7; [exact Ha|unfold leb_shift; lia].
Qed.

Lemma read_vlq_agrees_spec bs v r : varint_spec bs = Some (v, r) -> read_vlq bs = Ok v r.
Proof.
  rewrite read_vlq_eq_loop, varint_spec_run.
  pose proof (vlq_loop_run bs 0 0 (leb_inv_0 true)) as H. destruct (leb_run true bs 0 0); try discriminate.
  now intros [= <- <-].
Qed.

Lemma varint_spec_enc n rest : n < 2^64 -> varint_spec (uleb_enc 10 n ++ rest) = Some (n, rest).
Proof.
  intros H. rewrite uleb_enc_leb, varint_spec_run, leb_run_enc;
    [cbn [value_rest]; now rewrite N.mul_1_r|now apply N.lt_trans with (2^64)|now rewrite N.mul_1_r].
Qed.

Lemma read_vlq_enc n rest : n < 2^64 -> read_vlq (uleb_enc 10 n ++ rest) = Ok n rest.
Proof. intros H. apply read_vlq_agrees_spec, varint_spec_enc, H. Qed.

Lemma zigzag_enc_dec z : C08_Thrift.zigzag (zigzag_enc z) = z.
Proof. rewrite zigzag_zz, zigzag_enc_unzz. apply zz_unzz. Qed.

Lemma zigzag_enc_range z : (- 2^63 <= z < 2^63)%Z -> zigzag_enc z < 2^64.
Proof. intros H. rewrite zigzag_enc_unzz. apply N2Z.inj_lt, (unzz_lt (2^63)), H. Qed.

Lemma zigzag_range v : v < 2^64 -> (- 2^63 <= C08_Thrift.zigzag v < 2^63)%Z.
Proof. intros H. rewrite zigzag_zz. apply (zz_range v (2^63)), (proj1 (N2Z.inj_lt _ _) H). Qed.

Lemma read_zig_zag_enc z rest : (- 2^63 <= z < 2^63)%Z -> read_zig_zag (uleb_enc 10 (zigzag_enc z) ++ rest) = Ok z rest.
Proof.
  intros H. unfold read_zig_zag. rewrite read_vlq_enc by (apply zigzag_enc_range; exact H). cbn [bind].
  rewrite zigzag_enc_dec. reflexivity.
Qed.

(* at most 10 bytes?  refuted for the pinned reader *)
Lemma vlq_at_most_10_bytes_refuted :
  exists bs v r, read_vlq bs = Ok v r /\ (length bs - length r > 10)%nat.
Proof. exists (repeat 128 11 ++ [0]), 0, []. split; [vm_compute; reflexivity|cbn; lia]. Qed.

(* 15 02: field 1, an i32; 19: field 2, a list; FC: struct elements, the count follows as a varint;
   FF FF FF FF 07 = 2^31 - 1; 00 *)
Lemma thrift_vec_len_le_input_refuted :
  exists bs n, schema_alloc_request bs = Some n /\ N.of_nat (length bs) < n.
Proof. exists [21; 2; 25; 252; 255; 255; 255; 255; 7; 0], 2147483647. split; vm_compute; reflexivity. Qed.
