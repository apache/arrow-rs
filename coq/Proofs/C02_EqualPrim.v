(* C02 — arrow-data's primitive_equal / fixed_binary_equal (all three paths: whole-slice comparison,
   per-slot loop above the 0.4 null selectivity, valid-run loop below it) decide exactly the equality
   of the logical columns, whatever lies under null slots, for any offsets and any compared range. *)
From Coq Require Import List Arith NArith ZArith Bool Lia.
From AV Require Import Base.ListX Base.Bytes Model.C09_Layout Model.C02_Logical Model.C02_Equal Proofs.C02_EqualNulls.
Import ListNotations.

(* the body of Model.C02_Logical.fixed_bytes: logical_at reads FixedSizeBinary slots through that name *)
Definition chunk (l : list N) (w i : nat) : list N := firstn w (skipn (i * w) l).

Lemma equal_len_chunks w l r oa ob ls rs n :
  (oa + ls + n) * w <= length l -> (ob + rs + n) * w <= length r ->
  (equal_len (skipn (oa * w) l) (skipn (ob * w) r) (ls * w) (rs * w) (n * w) = true
   <-> forall i, i < n -> chunk l w (oa + ls + i) = chunk r w (ob + rs + i)).
Proof.
  intros Hl Hr. rewrite equal_len_iff, !skipn_skipn, <- !Nat.mul_add_distr_r.
  now apply blocks_eq.
Qed.

Theorem primitive_equal_iff w a b ls rs n :
  (p_off a + ls + n) * w <= length (buf a 0) -> (p_off b + rs + n) * w <= length (buf b 0) ->
  (forall i, i < n -> slot_valid a (ls + i) = slot_valid b (rs + i)) ->
  (primitive_equal w a b ls rs n = true
   <-> forall i, i < n -> slot_valid a (ls + i) = true ->
         chunk (buf a 0) w (p_off a + ls + i) = chunk (buf b 0) w (p_off b + rs + i)).
Proof.
  intros Hla Hlb Hv. unfold primitive_equal.
  (* every comparison the three paths make is one of slots s .. s+m-1 of the range *)
  assert (Hsub : forall s m, s + m <= n ->
            (equal_len (skipn (p_off a * w) (buf a 0)) (skipn (p_off b * w) (buf b 0)) ((ls + s) * w) ((rs + s) * w) (m * w) = true
             <-> forall i, i < m -> chunk (buf a 0) w (p_off a + ls + (s + i)) = chunk (buf b 0) w (p_off b + rs + (s + i)))).
  { intros s m Hs. rewrite equal_len_chunks by (eapply mul_le_trans; [|eassumption]; lia).
    split; intros H i Hi; specialize (H i Hi); now rewrite !Nat.add_assoc in H |- *. }
  apply (null_paths_iff Hv).
  - intros _. now apply equal_len_chunks.
  - intros ln rn Ea Eb. destruct (selective a).
    + apply (slot_loop_iff Hv Ea Eb). intros i Hi _.
      pose proof (Hsub i 1 ltac:(lia)) as H1. rewrite Nat.mul_1_l in H1. rewrite H1.
      split; [intros H; specialize (H 0 ltac:(lia)); now rewrite Nat.add_0_r in H | intros H k Hk; replace k with 0 by lia; now rewrite Nat.add_0_r].
    + apply (runs_loop_iff Hv Ea Eb). intros s e Hse He. rewrite !Nat.eqb_refl. apply (Hsub s (e - s)). lia.
Qed.

Lemma spec_node_fixed a w : p_ty a = TFixed w -> spec_node a = true ->
  spec_nulls a = true /\ (p_off a + p_len a) * w <= length (buf a 0).
Proof.
  intros Ht H. unfold spec_node in H. rewrite Ht in H. cbn zeta in H. rewrite !andb_true_iff, Nat.leb_le in H. tauto.
Qed.

Lemma reads_fixed a w : p_ty a = TFixed w -> reads a (fun i => LInt (le_at (buf a 0) w (p_off a + i))).
Proof. intros Ht i _. split; [|reflexivity]. destruct a as [ty len off nulls bufs kids]. cbn [p_ty] in Ht. now subst ty. Qed.

Lemma equal_values_fixed a b w ls rs n : p_ty a = TFixed w -> equal_values a b ls rs n = primitive_equal w a b ls rs n.
Proof. destruct a. cbn [p_ty]. now intros ->. Qed.

(* why the fixed-width theorems ask for wf_bytes and FixedSizeBinary does not: a slot denotes the NUMBER its bytes
   encode, and le_val is injective only on bytes below 256 *)
Lemma lint_chunk_iff l r w i j : wf_bytes l -> wf_bytes r -> (i + 1) * w <= length l -> (j + 1) * w <= length r ->
  (LInt (le_at l w i) = LInt (le_at r w j) <-> chunk l w i = chunk r w j).
Proof.
  intros Hl Hr Bi Bj. split; [|unfold le_at, chunk; now intros ->].
  intros E. injection E as E. apply le_val_inj in E; [exact E | now apply wf_firstn_skipn | now apply wf_firstn_skipn|].
  rewrite !firstn_skipn_length; lia.
Qed.

Lemma prim_comparable w ka kb : p_ty ka = TFixed w -> p_ty kb = TFixed w ->
  spec_node ka = true -> spec_node kb = true -> wf_bytes (buf ka 0) -> wf_bytes (buf kb 0) -> comparable ka kb.
Proof.
  intros Hta Htb Hsa Hsb Hwa Hwb.
  destruct (spec_node_fixed ka w Hta Hsa) as [Hna Hba]. destruct (spec_node_fixed kb w Htb Hsb) as [Hnb Hbb].
  apply (slots_comparable ka kb _ _ Hna Hnb (reads_fixed ka w Hta) (reads_fixed kb w Htb)).
  (* lia translates every boolean hypothesis it finds (ZifyBool, loaded with Base/Utf8.v through the model) *)
  clear Hna Hnb Hsa Hsb.
  intros s1 s2 m H1 H2 Hv. rewrite (equal_values_fixed ka kb w) by exact Hta.
  assert (Ba : (p_off ka + s1 + m) * w <= length (buf ka 0)) by (eapply mul_le_trans; [|exact Hba]; lia).
  assert (Bb : (p_off kb + s2 + m) * w <= length (buf kb 0)) by (eapply mul_le_trans; [|exact Hbb]; lia).
  rewrite (primitive_equal_iff w ka kb s1 s2 m Ba Bb Hv).
  assert (Hslot : forall i, i < m ->
            (LInt (le_at (buf ka 0) w (p_off ka + (s1 + i))) = LInt (le_at (buf kb 0) w (p_off kb + (s2 + i)))
             <-> chunk (buf ka 0) w (p_off ka + s1 + i) = chunk (buf kb 0) w (p_off kb + s2 + i))).
  { intros i Hi. rewrite !Nat.add_assoc. apply lint_chunk_iff; try assumption; (eapply mul_le_trans; [|eassumption]; lia). }
  split; intros H i Hi Hval; [apply (proj2 (Hslot i Hi)) | apply (proj1 (Hslot i Hi))]; exact (H i Hi Hval).
Qed.

Theorem equal_iff_logical_prim w a b :
  p_ty a = TFixed w -> spec_node a = true -> spec_node b = true ->
  wf_bytes (buf a 0) -> wf_bytes (buf b 0) ->
  (equal a b = true <-> p_ty a = p_ty b /\ logical a = logical b).
Proof.
  intros Ht Hsa Hsb Hwa Hwb. apply equal_iff_comparable. intros Htb. rewrite Ht in Htb. now apply (prim_comparable w).
Qed.

Example equal_prim_nonvacuous :
  let a := PArr (TFixed 2) 3 1 (Some {| nb_bytes := [10%N]; nb_off := 1; nb_len := 3; nb_count := 1 |}) [[9; 9; 1; 0; 7; 7; 3; 0]%N] [] in
  let b := PArr (TFixed 2) 3 0 (Some {| nb_bytes := [5%N]; nb_off := 0; nb_len := 3; nb_count := 1 |}) [[1; 0; 8; 8; 3; 0]%N] [] in
  spec_node a = true /\ spec_node b = true /\ equal a b = true /\ logical a = [LInt 1; LNull; LInt 3].
Proof. vm_compute. repeat split. Qed.

(* FixedSizeBinary: fixed_binary.rs has the same three paths *)
Lemma spec_node_fixedbin a s : p_ty a = TFixedBin s -> spec_node a = true ->
  spec_nulls a = true /\ (p_off a + p_len a) * Z.to_nat s <= length (buf a 0).
Proof.
  intros Ht H. unfold spec_node in H. rewrite Ht in H. cbn zeta in H. rewrite !andb_true_iff, Nat.leb_le in H. tauto.
Qed.

Lemma reads_fixedbin a s : p_ty a = TFixedBin s -> reads a (fun i => LBytes (chunk (buf a 0) (Z.to_nat s) (p_off a + i))).
Proof. intros Ht i _. split; [|reflexivity]. destruct a as [ty len off nulls bufs kids]. cbn [p_ty] in Ht. now subst ty. Qed.

Lemma equal_values_fixedbin a b s ls rs n : p_ty a = TFixedBin s ->
  equal_values a b ls rs n = primitive_equal (Z.to_nat s) a b ls rs n.
Proof. destruct a. cbn [p_ty]. now intros ->. Qed.

Lemma fixedbin_comparable s ka kb : p_ty ka = TFixedBin s -> p_ty kb = TFixedBin s ->
  spec_node ka = true -> spec_node kb = true -> comparable ka kb.
Proof.
  intros Hta Htb Hsa Hsb.
  destruct (spec_node_fixedbin ka s Hta Hsa) as [Hna Hba]. destruct (spec_node_fixedbin kb s Htb Hsb) as [Hnb Hbb].
  apply (slots_comparable ka kb _ _ Hna Hnb (reads_fixedbin ka s Hta) (reads_fixedbin kb s Htb)).
  clear Hna Hnb Hsa Hsb. (* as in prim_comparable *)
  intros s1 s2 m H1 H2 Hv. rewrite (equal_values_fixedbin ka kb s) by exact Hta.
  assert (Ba : (p_off ka + s1 + m) * Z.to_nat s <= length (buf ka 0)) by (eapply mul_le_trans; [|exact Hba]; lia).
  assert (Bb : (p_off kb + s2 + m) * Z.to_nat s <= length (buf kb 0)) by (eapply mul_le_trans; [|exact Hbb]; lia).
  rewrite (primitive_equal_iff _ ka kb s1 s2 m Ba Bb Hv).
  split; intros H i Hi Hval; specialize (H i Hi Hval); rewrite ?Nat.add_assoc in *; congruence.
Qed.

Theorem equal_iff_logical_fixedbin s a b :
  p_ty a = TFixedBin s -> spec_node a = true -> spec_node b = true ->
  (equal a b = true <-> p_ty a = p_ty b /\ logical a = logical b).
Proof.
  intros Ht Hsa Hsb. apply equal_iff_comparable. intros Htb. rewrite Ht in Htb. now apply (fixedbin_comparable s).
Qed.
