(* C09: the hypothesis [covered] of accept_implies_valid cannot be dropped — at exactly the known gaps
   (known_findings.json F4, F5) the transcription of ArrayData::validate_full accepts a tree that the
   specification rejects.  Witnesses, decided by computation. *)
From Coq Require Import List Bool NArith ZArith.
From AV Require Import Model.C09_Layout Model.C09_Validate Model.C09_Gaps Model.C01_Access Proofs.C09_Accept.
Import ListNotations.

Definition w_leaf2 : parr := PArr (TFixed 4) 2 0 None [[1;0;0;0; 2;0;0;0]%N] [].
(* F4: Struct<Int32> of length 2 at offset 1 over a child of length 2 (offset + len = 3 slots are needed) *)
Definition w_struct_offset : parr := PArr (TStruct [(true, TFixed 4)]) 2 1 None [] [w_leaf2].
(* F5: sparse Union with the single type id 5 whose type-id buffer holds 9, 9 *)
Definition w_union_ids : parr := PArr (TUnion false [(5%Z, TFixed 4)]) 2 0 None [[9;9]%N] [w_leaf2].
(* F4: FixedSizeList(2) with a NON-nullable child at offset 1: the child is null at slot 2 (inside the addressed
   range [2,4)) while the only parent slot is valid; validation looks at child slots [0,2) *)
Definition w_leaf4_null2 : parr :=
  PArr (TFixed 4) 4 0 (Some {| nb_bytes := [11%N]; nb_off := 0; nb_len := 4; nb_count := 1 |})
       [[1;0;0;0; 2;0;0;0; 3;0;0;0; 4;0;0;0]%N] [].
Definition w_fsl_offset : parr :=
  PArr (TFixedList 2 false (TFixed 4)) 1 1 (Some {| nb_bytes := [1%N]; nb_off := 0; nb_len := 1; nb_count := 0 |}) [] [w_leaf4_null2].

Definition gap_witness (a : parr) : bool :=
  tree_all phys a && impl_validate_full a && negb (spec_valid a).

Lemma struct_offset_gap : gap_witness w_struct_offset = true /\ gap_kinds w_struct_offset = [1%Z].
Proof. split; vm_compute; reflexivity. Qed.
Lemma union_ids_gap : gap_witness w_union_ids = true /\ gap_kinds w_union_ids = [3%Z].
Proof. split; vm_compute; reflexivity. Qed.
Lemma fsl_offset_gap : gap_witness w_fsl_offset = true /\ gap_kinds w_fsl_offset = [2%Z].
Proof. split; vm_compute; reflexivity. Qed.

Lemma gap_refutes a : gap_witness a = true ->
  tree_all phys a = true /\ impl_validate_full a = true /\ spec_valid a = false.
Proof. unfold gap_witness. intros [[H1 H2]%andb_true_iff H3%negb_true_iff]%andb_true_iff. auto. Qed.

(* consequence for C01 on the accepted struct: value(1) addresses child slot 2 of a 2-slot child *)
Lemma struct_offset_child_slot_missing :
  forallb (child_slots_in_bounds w_struct_offset) (child_slots w_struct_offset 1) = false.
Proof. vm_compute. reflexivity. Qed.

Lemma gap_not_covered a k : gap_kind a = Some k -> k <> 0%Z -> covered a = false.
Proof.
  unfold gap_kind, covered. destruct (node_ok a && negb (spec_node a && spec_nullability a))%bool; [|discriminate].
  (* for every type but the three below the kind is 0, against Hk *)
  intros [= <-] Hk. destruct (p_ty a) as [ | | | | | | | | s nullable c | fs | | | ]; try contradiction.
  - (* TFixedList *) destruct nullable; [contradiction|]. destruct (Nat.eqb (p_off a) 0); [contradiction|reflexivity].
  - (* TStruct *) destruct (Nat.eqb (p_off a) 0); [contradiction|reflexivity].
  - (* TUnion *) reflexivity.
Qed.
