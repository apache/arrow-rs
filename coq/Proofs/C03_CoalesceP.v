(* C03 — BatchCoalescer, for all histories: row conservation and the buffer invariant; without a bypass limit the machine
   is the naive coalescer, hence the batch sizes. *)
From Coq Require Import List Arith Bool Lia.
From AV Require Import Base.ListX Model.C03_Select Model.C03_Coalesce Proofs.C03_Filter.
Import ListNotations.

Section P.
Context {A : Type}.
Notation rows := (list (option A)).
Notation st := (cst A).

Definition Inv (t : nat) (s : st) : Prop := length (buf s) < t.

(* emit: a batch goes to the back of the completed queue *)
Lemma all_rows_emit (s : st) (b : rows) :
  all_rows {| buf := []; done := done s ++ [b]; out := out s |} = concat (out s) ++ concat (done s) ++ b.
Proof. unfold all_rows; cbn [buf done out]. rewrite concat_app. cbn [concat]. now rewrite !app_nil_r. Qed.

Lemma all_rows_finish (s : st) : all_rows (finish s) = all_rows s.
Proof.
  unfold finish. destruct (buf s) eqn:E; [reflexivity|]. rewrite all_rows_emit. unfold all_rows. now rewrite E.
Qed.
Lemma inv_finish t (s : st) : 0 < t -> Inv t (finish s).
Proof. intros Ht. unfold finish, Inv. destruct (buf s) eqn:E; cbn [buf]; [rewrite E|]; cbn; lia. Qed.

Lemma all_rows_pop (s : st) : all_rows (pop s) = all_rows s.
Proof.
  unfold pop, all_rows. destruct (done s) as [|b d] eqn:E; [now rewrite E|].
  cbn [buf done out]. rewrite concat_app. cbn [concat]. now rewrite ?app_nil_r, <- ?app_assoc.
Qed.
Lemma inv_pop t (s : st) : Inv t s -> Inv t (pop s).
Proof. unfold pop, Inv. destruct (done s); auto. Qed.
Lemma batches_pop (s : st) : batches (pop s) = batches s.
Proof. unfold pop, batches. destruct (done s) as [|b d] eqn:E; [now rewrite E|]. cbn. now rewrite <- app_assoc. Qed.

(* [l] cut into full batches of [t] rows and a shorter rest: what both the split loop of push_batch and the naive
   [chunks] produce, and it determines them *)
Definition cuts (t : nat) (l : rows) (full : list rows) (rem : rows) : Prop :=
  concat full ++ rem = l /\ Forall (fun b => length b = t) full /\ length rem < t.

Lemma cuts_unique t : forall full l rem full' rem',
  cuts t l full rem -> cuts t l full' rem' -> full = full' /\ rem = rem'.
Proof.
  induction full as [|b full IH]; intros l rem [|b' full'] rem' (E & F & R) (E' & F' & R');
    cbn [concat app] in *; rewrite <- ?app_assoc in *.
  - (* no full batch on either side *) split; congruence.
  - (* a full batch only on the right: the rest on the left is too long *)
    inversion F'; subst. rewrite app_length in R. lia.
  - (* only on the left *) inversion F; subst. rewrite app_length in R'. lia.
  - (* the first batches are both the first t rows *)
    inversion F as [|? ? Hb F1]; inversion F' as [|? ? Hb' F1']; subst.
    assert (b' = b)
      by (rewrite <- (firstn_app_exact (length b) b' (concat full' ++ rem') Hb'), E'; now apply firstn_app_exact).
    subst b'. apply app_inv_head in E'.
    destruct (IH (concat full ++ rem) rem full' rem') as [-> ->]; repeat split; auto.
Qed.

Lemma chunks_spec t (Ht : 0 < t) fuel : forall l : rows, length l <= fuel ->
  let '(full, rem) := chunks fuel t l in
  concat full ++ rem = l /\ Forall (fun b => length b = t) full /\ length rem < t.
Proof.
  induction fuel as [|fuel IH]; intros l Hl.
  - destruct l; [|cbn in Hl; lia]. cbn. repeat split; [constructor|lia].
  - cbn [chunks]. destruct (Nat.ltb_spec (length l) t) as [Hlt|Hge].
    + repeat split; [constructor|exact Hlt].
    + specialize (IH (skipn t l)). rewrite skipn_length in IH.
      destruct (chunks fuel t (skipn t l)) as [full rem]. destruct IH as (E & F & R); [lia|].
      repeat split; [|constructor; [rewrite firstn_length; lia|exact F]|exact R].
      cbn [concat]. rewrite <- app_assoc, E. apply firstn_skipn.
Qed.

Lemma chunks_cuts t (Ht : 0 < t) (l : rows) : let '(full, rem) := chunks (length l) t l in cuts t l full rem.
Proof. exact (chunks_spec t Ht (length l) l (le_n _)). Qed.

Lemma chunks_exact t (Ht : 0 < t) (l : rows) : length l = t -> chunks (length l) t l = ([l], []).
Proof.
  intros El. rewrite El. destruct t as [|t']; [lia|]. cbn [chunks]. rewrite El, Nat.ltb_irrefl.
  rewrite (firstn_all2 l), (skipn_all2 l) by lia.
  destruct t'; reflexivity.
Qed.

Lemma fill_cuts t (Ht : 0 < t) fuel : forall (s : st) r, length r < fuel -> Inv t s ->
  exists full rem, cuts t (buf s ++ r) full rem /\
                   fill fuel t s r = {| buf := rem; done := done s ++ full; out := out s |}.
Proof.
  induction fuel as [|fuel IH]; intros s r Hf Hi; [lia|]. cbn [fill]. unfold Inv in Hi.
  destruct (Nat.ltb_spec (t - length (buf s)) (length r)) as [Hlt|Hge].
  - (* one iteration completes the batch [b] and goes on with an empty buffer *)
    set (room := t - length (buf s)) in *. set (b := buf s ++ firstn room r).
    assert (Hb : length b = t) by (unfold b; rewrite app_length, firstn_length; lia).
    assert (Efin : finish {| buf := b; done := done s; out := out s |}
                   = {| buf := []; done := done s ++ [b]; out := out s |})
      by (unfold finish; cbn [buf done out]; destruct b; [cbn in Hb; lia|reflexivity]).
    rewrite Efin.
    destruct (IH {| buf := []; done := done s ++ [b]; out := out s |} (skipn room r))
      as (full & rem & (E & F & R) & ->); [rewrite skipn_length; lia|unfold Inv; cbn; lia|].
    exists (b :: full), rem. cbn [buf done out app] in *. split; [|now rewrite <- app_assoc].
    split; [|split; [now constructor|exact R]]. cbn [concat]. unfold b. now rewrite <- !app_assoc, E, firstn_skipn.
  - cbn [buf]. set (l := buf s ++ r). assert (Hl : length l <= t) by (unfold l; rewrite app_length; lia).
    destruct (Nat.leb_spec t (length l)).
    + exists [l], []. split.
      * split; [cbn; now rewrite !app_nil_r|]. split; [constructor; [lia|constructor]|exact Ht].
      * unfold finish; cbn [buf done out]. destruct l; [cbn in *; lia|reflexivity].
    + exists [], l. split; [repeat split; auto|]. now rewrite app_nil_r.
Qed.

Lemma fill_spec t (Ht : 0 < t) fuel (s : st) r : length r < fuel -> Inv t s ->
  all_rows (fill fuel t s r) = all_rows s ++ r /\ Inv t (fill fuel t s r).
Proof.
  intros Hf Hi. destruct (fill_cuts t Ht fuel s r Hf Hi) as (full & rem & (E & _ & R) & ->).
  split; [|exact R]. unfold all_rows; cbn [buf done out]. now rewrite concat_app, <- !app_assoc, E.
Qed.

(* a batch that fits the room: the split loop does not iterate *)
Lemma fill_fits fuel t (s : st) r : length r <= t - length (buf s) ->
  fill (S fuel) t s r = (let s' := {| buf := buf s ++ r; done := done s; out := out s |} in
                         if t <=? length (buf s') then finish s' else s').
Proof. intros H. cbn [fill]. now rewrite (proj2 (Nat.ltb_ge _ _) H). Qed.

Lemma push_fits (c : cfg) (s : st) r : r <> [] -> length r <= target c - length (buf s) ->
  match limit c with Some l => l <? length r | None => false end = false ->
  push c s r = (let s' := {| buf := buf s ++ r; done := done s; out := out s |} in
                if target c <=? length (buf s') then finish s' else s').
Proof.
  intros Hr Hfit Hlim. unfold push. destruct r as [|x r]; [congruence|].
  rewrite fill_fits by exact Hfit. destruct (limit c); [now rewrite Hlim|reflexivity].
Qed.

Lemma push_spec (c : cfg) (s : st) r : 0 < target c -> Inv (target c) s ->
  all_rows (push c s r) = all_rows s ++ r /\ Inv (target c) (push c s r).
Proof.
  intros Ht Hi. unfold push. destruct r as [|x r]; [rewrite app_nil_r; auto|].
  set (R := x :: r).
  assert (N : all_rows (fill (S (length R)) (target c) s R) = all_rows s ++ R
              /\ Inv (target c) (fill (S (length R)) (target c) s R))
    by (apply fill_spec; [exact Ht|lia|exact Hi]).
  destruct (limit c) as [l|]; [|exact N].
  destruct (l <? length R); [|exact N].
  destruct (buf s) as [|x0 b0] eqn:Eb.
  - split; [|unfold Inv; cbn [buf]; cbn; lia].
    rewrite all_rows_emit. unfold all_rows. now rewrite Eb, app_nil_r, <- app_assoc.
  - destruct (l <? length (x0 :: b0)); [|exact N].
    split; [|unfold Inv; cbn [buf]; cbn; lia].
    set (s1 := finish s).
    assert (Eb1 : buf s1 = []) by (unfold s1, finish; rewrite Eb; reflexivity).
    assert (F : all_rows s1 = all_rows s) by apply all_rows_finish.
    rewrite <- F, all_rows_emit. unfold all_rows. now rewrite Eb1, app_nil_r, <- app_assoc.
Qed.

Lemma filtered_length (r : rows) (m : pcol bool) : wf_col m -> length (fst m) <= length r ->
  length (filter_spec r (logical_mask m)) = count_true (prep_mask m).
Proof.
  intros Hm Hl. rewrite filter_spec_bfilter, map_sel_logical by exact Hm.
  apply bfilter_length_count. now rewrite prep_mask_length.
Qed.

Lemma push_nil c (s : st) : push c s [] = s.
Proof. reflexivity. Qed.

Lemma push_filter_is_push (c : cfg) (s : st) r m : wf_col m ->
  push_filter c s r m = push c s (selected_rows (PushFilter r m)).
Proof.
  intros Hm. unfold push_filter. cbn [selected_rows].
  destruct (Nat.ltb_spec (length r) (length (fst m))) as [Hlong|Hle]; [reflexivity|].
  pose proof (filtered_length r m Hm Hle) as HL.
  pose proof (prep_mask_length m Hm) as HP.
  set (filtered := filter_spec r (logical_mask m)) in *.
  set (selected := count_true (prep_mask m)) in *.
  destruct (Nat.eqb_spec selected 0) as [E0|N0].
  - destruct filtered; [reflexivity|cbn in HL; lia].
  - destruct ((selected =? length r) && (length (fst m) =? length r)) eqn:Eall.
    + apply andb_prop in Eall. destruct Eall as [E1 E2]. apply Nat.eqb_eq in E1, E2.
      f_equal. unfold filtered. rewrite filter_spec_bfilter, map_sel_logical by exact Hm.
      rewrite count_true_full_bfilter by (fold selected; lia).
      rewrite HP, E2. symmetry. apply firstn_all.
    + destruct ((match limit c with Some l => l <? selected | None => false end)
                || nonspec c || (target c - length (buf s) <? selected)
                || negb (sparse_ok (length (fst m)) selected)) eqn:Emat; [reflexivity|].
      (* only the limit and the room decide; [nonspec] and [sparse_ok] choose between two copies of the same rows *)
      rewrite !orb_false_iff in Emat. destruct Emat as [[[Elim _] Efit] _]. apply Nat.ltb_ge in Efit.
      symmetry. apply push_fits; rewrite ?HL; [|exact Efit|exact Elim].
      intros E. rewrite E in HL. cbn in HL. lia.
Qed.

Lemma push_idx_is_push (c : cfg) (s : st) r idx : push_idx c s r idx = push c s (selected_rows (PushIdx r idx)).
Proof. unfold push_idx. cbn [selected_rows]. destruct (take_spec r (logical_idx idx)); reflexivity. Qed.

Definition wf_op (o : cop A) : Prop := match o with PushFilter _ m => wf_col m | _ => True end.

Lemma cstep_push c (s : st) o : wf_op o -> is_finish o = false -> o <> Pop ->
  cstep c s o = push c s (selected_rows o).
Proof.
  destruct o; cbn; intros Hw Hf Hp; try reflexivity; try discriminate; try congruence.
  - now apply push_filter_is_push.
  - apply push_idx_is_push.
Qed.

Lemma cstep_spec c (s : st) o : 0 < target c -> wf_op o -> Inv (target c) s ->
  all_rows (cstep c s o) = all_rows s ++ selected_rows o /\ Inv (target c) (cstep c s o).
Proof.
  intros Ht Hw Hi. destruct o.
  - cbn [cstep selected_rows]. now apply push_spec.
  - cbn [cstep]. rewrite push_filter_is_push by exact Hw. now apply push_spec.
  - cbn [cstep]. rewrite push_idx_is_push. now apply push_spec.
  - cbn [cstep selected_rows]. rewrite app_nil_r, all_rows_finish. split; [reflexivity|now apply inv_finish].
  - cbn [cstep selected_rows]. rewrite app_nil_r, all_rows_pop. split; [reflexivity|now apply inv_pop].
Qed.

Lemma crun_spec_from c ops : 0 < target c -> Forall wf_op ops -> forall s : st, Inv (target c) s ->
  all_rows (fold_left (cstep c) ops s) = all_rows s ++ rows_out ops /\ Inv (target c) (fold_left (cstep c) ops s).
Proof.
  intros Ht Hw. induction Hw as [|o ops Ho Hops IH]; intros s Hi; cbn [fold_left rows_out flat_map].
  - rewrite app_nil_r. auto.
  - destruct (cstep_spec c s o Ht Ho Hi) as [R I]. destruct (IH _ I) as [R' I'].
    split; [|exact I']. rewrite R', R. unfold rows_out. now rewrite <- app_assoc.
Qed.

Lemma crun_spec c ops : 0 < target c -> Forall wf_op ops ->
  all_rows (crun c ops) = rows_out ops /\ Inv (target c) (crun c ops).
Proof.
  intros Ht Hw. destruct (crun_spec_from c ops Ht Hw cinit) as [R I]; [unfold Inv; cbn; lia|].
  split; [|exact I]. exact R.
Qed.

(* [limit c = None]: with a limit, cases 1 and 2 of [push] emit the oversize batch uncut, so the machine is neither the
   naive coalescer nor bounded by target rows *)
Lemma push_is_spush (c : cfg) (s : st) r : 0 < target c -> limit c = None -> Inv (target c) s ->
  push c s r = spush (target c) s r.
Proof.
  intros Ht Hl Hi. unfold push, spush. rewrite Hl.
  pose proof (chunks_cuts (target c) Ht (buf s ++ r)) as C.
  destruct (chunks _ _ (buf s ++ r)) as [full rem]. destruct r as [|x r].
  - rewrite app_nil_r in C. destruct (cuts_unique _ _ _ _ [] (buf s) C) as [-> ->]; [repeat split; auto|].
    rewrite app_nil_r. now destruct s.
  - destruct (fill_cuts _ Ht (S (length (x :: r))) s (x :: r) (Nat.lt_succ_diag_r _) Hi) as (full' & rem' & C' & ->).
    now destruct (cuts_unique _ _ _ _ _ _ C C') as [-> ->].
Qed.

Lemma spush_inv t (Ht : 0 < t) (s : st) r : Inv t (spush t s r).
Proof.
  unfold spush, Inv. pose proof (chunks_cuts t Ht (buf s ++ r)) as C.
  destruct (chunks (length (buf s ++ r)) t (buf s ++ r)) as [full rem]. exact (proj2 (proj2 C)).
Qed.

Lemma crun_is_srun_from c ops : 0 < target c -> limit c = None -> Forall wf_op ops ->
  forall s : st, Inv (target c) s -> fold_left (cstep c) ops s = fold_left (sstep (target c)) ops s.
Proof.
  intros Ht Hl Hw. induction Hw as [|o ops Ho Hops IH]; intros s Hi; [reflexivity|].
  cbn [fold_left].
  assert (E : cstep c s o = sstep (target c) s o).
  { destruct o; cbn [cstep sstep].
    - now apply push_is_spush.
    - rewrite push_filter_is_push by exact Ho. now apply push_is_spush.
    - rewrite push_idx_is_push. now apply push_is_spush.
    - reflexivity.
    - reflexivity. }
  rewrite E. apply IH. rewrite <- E. exact (proj2 (cstep_spec c s o Ht Ho Hi)).
Qed.

Lemma crun_is_srun c ops : 0 < target c -> limit c = None -> Forall wf_op ops ->
  crun c ops = srun (target c) ops.
Proof. intros Ht Hl Hw. unfold crun, srun. apply crun_is_srun_from; auto; unfold Inv; cbn; lia. Qed.

Definition count_finish (ops : list (cop A)) : nat := length (filter is_finish ops).
Definition batches_sized (t : nat) (s : st) (k : nat) : Prop :=
  Inv t s /\ Forall (fun b : rows => 0 < length b <= t) (batches s) /\ short_batches t (batches s) <= k.

Lemma short_app t (a b : list rows) : short_batches t (a ++ b) = short_batches t a + short_batches t b.
Proof. unfold short_batches. now rewrite filter_app, app_length. Qed.

Lemma short_full t (full : list rows) : Forall (fun b => length b = t) full -> short_batches t full = 0.
Proof.
  unfold short_batches. induction 1 as [|b full Hb _ IH]; [reflexivity|]. cbn [filter].
  replace (length b <? t) with false by (symmetry; apply Nat.ltb_ge; lia). exact IH.
Qed.

Lemma sstep_sized t (Ht : 0 < t) (s : st) o k : batches_sized t s k ->
  batches_sized t (sstep t s o) (if is_finish o then S k else k).
Proof.
  intros (Hi & Hb & Hs).
  assert (Push : forall r, batches_sized t (spush t s r) k).
  { intros r. split; [now apply spush_inv|].
    unfold spush. pose proof (chunks_cuts t Ht (buf s ++ r)) as C.
    destruct (chunks (length (buf s ++ r)) t (buf s ++ r)) as [full rem]. destruct C as (_ & F & _).
    unfold batches in *; cbn [out done]. rewrite app_assoc. split.
    - apply Forall_app. split; [exact Hb|]. eapply Forall_impl; [|exact F]. cbn; intros; lia.
    - rewrite short_app, (short_full t full F). lia. }
  destruct o; cbn [sstep is_finish]; try apply Push.
  - unfold finish. destruct (buf s) as [|x b] eqn:Eb.
    + split; [exact Hi|]. split; [exact Hb|lia].
    + unfold Inv in Hi. rewrite Eb in Hi. split; [unfold Inv; cbn; lia|].
      unfold batches in *; cbn [out done]. rewrite app_assoc. split.
      * apply Forall_app. split; [exact Hb|]. constructor; [cbn in *; lia|constructor].
      * rewrite short_app. unfold short_batches at 2. cbn [filter].
        destruct (length (x :: b) <? t); cbn; lia.
  - split; [now apply inv_pop|]. rewrite batches_pop. split; [exact Hb|exact Hs].
Qed.

Lemma srun_sized_from t (Ht : 0 < t) ops : forall (s : st) k, batches_sized t s k ->
  batches_sized t (fold_left (sstep t) ops s) (k + count_finish ops).
Proof.
  induction ops as [|o ops IH]; intros s k H; cbn [fold_left].
  - unfold count_finish; cbn. now rewrite Nat.add_0_r.
  - pose proof (sstep_sized t Ht s o k H) as H1. specialize (IH _ _ H1).
    unfold count_finish in *. cbn [filter]. destruct (is_finish o); cbn [length]; [|exact IH].
    now rewrite Nat.add_succ_r.
Qed.

Lemma srun_sized t (Ht : 0 < t) ops : batches_sized t (srun t ops) (count_finish ops).
Proof.
  apply (srun_sized_from t Ht ops cinit 0). split; [unfold Inv; cbn; lia|].
  split; [constructor|cbn; lia].
Qed.

Lemma crun_sized c ops : 0 < target c -> limit c = None -> Forall wf_op ops ->
  Forall (fun b : rows => 0 < length b <= target c) (batches (crun c ops)) /\
  short_batches (target c) (batches (crun c ops)) <= count_finish ops.
Proof.
  intros Ht Hl Hw. rewrite crun_is_srun by assumption.
  destruct (srun_sized (target c) Ht ops) as (_ & B & S). auto.
Qed.

End P.
