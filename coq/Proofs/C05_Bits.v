(* C05 — bit lists, bit packing, bytes<->bits and the u64 word; the ULEB128 and zig-zag round trips of the model's
   functions, as corollaries of Base/Leb128.v. *)
From Coq Require Import List NArith ZArith Lia ZifyN.
From AV Require Import Base.ListX Base.Leb128 Model.C05_Enc.
Import ListNotations.

Lemma firstn_repeat {A} (x : A) n c : firstn n (repeat x c) = repeat x (Nat.min n c).
Proof.
  revert c; induction n as [|n IH]; intros c; [reflexivity|].
  destruct c as [|c]; [reflexivity|]. cbn [repeat firstn Nat.min]. f_equal. apply IH.
Qed.

Lemma skipn_repeat {A} (x : A) n c : skipn n (repeat x c) = repeat x (c - n).
Proof.
  revert c; induction n as [|n IH]; intros c; [rewrite Nat.sub_0_r; reflexivity|].
  destruct c as [|c]; [reflexivity|]. cbn [repeat skipn Nat.sub]. apply IH.
Qed.

Lemma bits_of_length w n : length (bits_of w n) = w.
Proof. revert n; induction w; intros; cbn [bits_of length]; auto. Qed.

Lemma val_bits w : forall n, (n < 2^N.of_nat w)%N -> val_of (bits_of w n) = n.
Proof.
  induction w as [|w IH]; intros n Hn.
  - cbn in *. lia.
  - cbn [bits_of val_of]. rewrite IH.
    + pose proof (N.div2_odd n) as E. lia.
    + rewrite Nat2N.inj_succ, N.pow_succ_r' in Hn. rewrite N.div2_div.
      apply N.div_lt_upper_bound; lia.
Qed.

Lemma val_of_bound bs : (val_of bs < 2^N.of_nat (length bs))%N.
Proof.
  induction bs as [|b r IH]; [cbn; lia|].
  cbn [val_of length]. rewrite Nat2N.inj_succ, N.pow_succ_r'. destruct b; cbn [N.b2n]; lia.
Qed.

Lemma bits_of_val w : forall bs, length bs = w -> bits_of w (val_of bs) = bs.
Proof.
  induction w as [|w IH]; intros [|b r] Hl; try discriminate; [reflexivity|].
  cbn [val_of bits_of]. injection Hl as Hl.
  assert (Ho : N.odd (N.b2n b + 2 * val_of r) = b).
  { rewrite N.odd_add_mul_2. destruct b; reflexivity. }
  assert (Hd : N.div2 (N.b2n b + 2 * val_of r) = val_of r).
  { rewrite N.div2_div. apply N.add_b2n_double_div2. }
  rewrite Ho, Hd, IH by assumption. reflexivity.
Qed.

Lemma bits_of_ext w : forall a b, (forall i, (i < N.of_nat w)%N -> N.testbit a i = N.testbit b i) ->
  bits_of w a = bits_of w b.
Proof.
  induction w as [|w IH]; intros a b H; [reflexivity|].
  cbn [bits_of]. rewrite <- !N.bit0_odd. f_equal; [apply H; lia|].
  apply IH. intros i Hi. rewrite <- !N.testbit_succ_r_div2 by apply N.le_0_l. apply H. lia.
Qed.

Lemma bits_of_mod w k n : (N.of_nat w <= k)%N -> bits_of w (n mod 2^k) = bits_of w n.
Proof. intros H. apply bits_of_ext. intros i Hi. apply N.mod_pow2_bits_low. lia. Qed.

Lemma bits_of_app a : forall b n, bits_of (a + b) n = bits_of a n ++ bits_of b (n / 2^N.of_nat a).
Proof.
  induction a as [|a IH]; intros b n.
  - cbn [plus bits_of app N.of_nat]. rewrite N.pow_0_r, N.div_1_r. reflexivity.
  - cbn [plus bits_of app]. f_equal. rewrite IH. f_equal. f_equal.
    rewrite N.div2_div, Nat2N.inj_succ, N.pow_succ_r', N.div_div by (try apply N.pow_nonzero; lia). reflexivity.
Qed.

Lemma val_of_app a b : val_of (a ++ b) = (val_of a + 2^N.of_nat (length a) * val_of b)%N.
Proof.
  induction a as [|x a IH]; [cbn [app val_of length N.of_nat]; rewrite N.pow_0_r; lia|].
  cbn [app val_of length]. rewrite IH, Nat2N.inj_succ, N.pow_succ_r'. lia.
Qed.

Lemma val_of_firstn k : forall l, val_of (firstn k l) = (val_of l mod 2^N.of_nat k)%N.
Proof.
  induction k as [|k IH]; intros l.
  - cbn [firstn val_of N.of_nat]. rewrite N.pow_0_r, N.mod_1_r. reflexivity.
  - destruct l as [|b l]; [cbn [firstn val_of]; rewrite N.mod_0_l by (apply N.pow_nonzero; lia); reflexivity|].
    cbn [firstn val_of]. rewrite IH, Nat2N.inj_succ, N.pow_succ_r'.
    assert (Hp : (2^N.of_nat k <> 0)%N) by (apply N.pow_nonzero; lia).
    rewrite (N.mod_mul_r (N.b2n b + 2 * val_of l) 2 (2^N.of_nat k)) by lia.
    replace ((N.b2n b + 2 * val_of l) mod 2)%N with (N.b2n b) by (destruct b; cbn [N.b2n]; lia).
    rewrite N.add_b2n_double_div2. reflexivity.
Qed.

Lemma val_of_skipn k : forall l, val_of (skipn k l) = (val_of l / 2^N.of_nat k)%N.
Proof.
  induction k as [|k IH]; intros l.
  - cbn [skipn N.of_nat]. rewrite N.pow_0_r, N.div_1_r. reflexivity.
  - destruct l as [|b l]; [cbn [skipn val_of]; rewrite N.div_0_l by (apply N.pow_nonzero; lia); reflexivity|].
    cbn [skipn val_of]. rewrite IH, Nat2N.inj_succ, N.pow_succ_r'.
    rewrite <- N.div_div by (try apply N.pow_nonzero; lia).
    rewrite N.add_b2n_double_div2. reflexivity.
Qed.

Lemma bits_of_zero k : bits_of k 0 = repeat false k.
Proof. induction k as [|k IH]; [reflexivity|]. cbn [bits_of repeat]. f_equal. exact IH. Qed.

Lemma val_of_zeros k : val_of (repeat false k) = 0%N.
Proof. induction k as [|k IH]; [reflexivity|]. cbn [repeat val_of N.b2n]. rewrite IH. reflexivity. Qed.

Theorem bitpack_roundtrip w vs padding :
  Forall (fun v => (v < 2^N.of_nat w)%N) vs ->
  unpack w (length vs) (pack w vs ++ padding) = vs.
Proof.
  induction 1 as [|v vs Hv _ IH]; [reflexivity|].
  cbn [pack flat_map length unpack]. rewrite <- app_assoc.
  rewrite firstn_app_exact, skipn_app_exact by apply bits_of_length.
  rewrite val_bits by exact Hv. f_equal. exact IH.
Qed.

Lemma pack_length w vs : length (pack w vs) = (length vs * w)%nat.
Proof. unfold pack. induction vs as [|v vs IH]; cbn [flat_map length]; [reflexivity|]. rewrite app_length, bits_of_length, IH. lia. Qed.

Lemma pack_app w a b : pack w (a ++ b) = pack w a ++ pack w b.
Proof. unfold pack. apply flat_map_app. Qed.

Lemma unpack_length w n bs : length (unpack w n bs) = n.
Proof. revert bs; induction n; intros; cbn [unpack length]; auto. Qed.

Lemma unpack_firstn w : forall k vs padding, Forall (fun v => (v < 2^N.of_nat w)%N) vs -> (k <= length vs)%nat ->
  unpack w k (pack w vs ++ padding) = firstn k vs.
Proof.
  intros k vs padding Hv Hk.
  rewrite <- (firstn_skipn k vs) at 1. rewrite pack_app, <- app_assoc.
  replace k with (length (firstn k vs)) at 1 by (rewrite firstn_length; lia).
  apply bitpack_roundtrip. apply Forall_firstn, Hv.
Qed.

Lemma bytes_bits_length bs : length (bytes_bits bs) = (8 * length bs)%nat.
Proof. induction bs; cbn [bytes_bits flat_map length]; [reflexivity|]. rewrite app_length. unfold byte_bits at 1. rewrite bits_of_length. fold (bytes_bits bs). lia. Qed.

Lemma bytes_bits_app a b : bytes_bits (a ++ b) = bytes_bits a ++ bytes_bits b.
Proof. unfold bytes_bits. apply flat_map_app. Qed.

Lemma bits_bytes_length n bits : length (bits_bytes n bits) = n.
Proof. revert bits; induction n; intros; cbn [bits_bytes length]; auto. Qed.

Lemma bytes_bits_bits_bytes n : forall bits, length bits = (8 * n)%nat -> bytes_bits (bits_bytes n bits) = bits.
Proof.
  induction n as [|n IH]; intros bits Hl.
  - destruct bits; [reflexivity|discriminate].
  - cbn [bits_bytes bytes_bits flat_map]. unfold byte_bits at 1.
    rewrite bits_of_val by (rewrite firstn_length; lia).
    fold (bytes_bits (bits_bytes n (skipn 8 bits))). rewrite IH by (rewrite skipn_length; lia).
    apply firstn_skipn.
Qed.

Lemma bits_bytes_wf n : forall bits, Forall (fun b => (b < 256)%N) (bits_bytes n bits).
Proof.
  induction n as [|n IH]; intros bits; cbn [bits_bytes]; constructor; [|apply IH].
  eapply N.lt_le_trans; [apply val_of_bound|]. change 256%N with (2^8)%N.
  apply N.pow_le_mono_r; [lia|]. rewrite firstn_length. lia.
Qed.

Lemma byte_bits_length b : length (byte_bits b) = 8%nat.
Proof. apply bits_of_length. Qed.

Lemma bits_bytes_app_bytes : forall B m t, Forall (fun b => (b < 256)%N) B ->
  bits_bytes (length B + m) (bytes_bits B ++ t) = B ++ bits_bytes m t.
Proof.
  induction 1 as [|b B Hb _ IH]; [reflexivity|].
  cbn [length Nat.add bits_bytes bytes_bits flat_map app]. fold (bytes_bits B). rewrite <- app_assoc.
  rewrite firstn_app_exact, skipn_app_exact by apply byte_bits_length.
  unfold byte_bits at 1. rewrite val_bits by exact Hb. f_equal. exact IH.
Qed.

Lemma bits_bytes_bytes_bits bs : Forall (fun b => (b < 256)%N) bs -> bits_bytes (length bs) (bytes_bits bs) = bs.
Proof.
  intros H. rewrite <- (app_nil_r (bytes_bits bs)), (plus_n_O (length bs)), bits_bytes_app_bytes by exact H.
  apply app_nil_r.
Qed.

Lemma bits_bytes_pad n : forall bits k, bits_bytes n (bits ++ repeat false k) = bits_bytes n bits.
Proof.
  induction n as [|n IH]; intros bits k; [reflexivity|].
  cbn [bits_bytes]. f_equal.
  - rewrite firstn_app, firstn_repeat, val_of_app, val_of_zeros. lia.
  - rewrite skipn_app, skipn_repeat. apply IH.
Qed.

Lemma bytes_bits_pack w k vs : (length vs * w = 8 * k)%nat -> bytes_bits (bits_bytes k (pack w vs)) = pack w vs.
Proof. intros H. apply bytes_bits_bits_bytes. rewrite pack_length. exact H. Qed.

Lemma le_value_le_bytes k v : (v < 2^N.of_nat (8 * k))%N -> le_value (le_bytes k v) = v.
Proof.
  intros Hv. unfold le_value, le_bytes. rewrite bytes_bits_bits_bytes by (rewrite bits_of_length; lia).
  apply val_bits, Hv.
Qed.

Lemma le_bytes_length k v : length (le_bytes k v) = k.
Proof. apply bits_bytes_length. Qed.

Lemma bytes_bits_le_bytes k v : bytes_bits (le_bytes k v) = bits_of (8 * k) v.
Proof. unfold le_bytes. apply bytes_bits_bits_bytes. apply bits_of_length. Qed.

(* BitWriter::flush writes its partial word as whole bytes: a value below 2^w has only zero bits above the w-th *)
Lemma le_bytes_pad k w v : (v < 2^N.of_nat w)%N -> (w <= 8 * k)%nat -> le_bytes k v = bits_bytes k (bits_of w v).
Proof.
  intros Hv Hw. unfold le_bytes. replace (8 * k)%nat with (w + (8 * k - w))%nat by lia.
  rewrite bits_of_app, N.div_small, bits_of_zero by exact Hv. apply bits_bytes_pad.
Qed.

Lemma bytes_bits_bits_bytes_pad n bits : (length bits <= 8 * n)%nat ->
  bytes_bits (bits_bytes n bits) = bits ++ repeat false (8 * n - length bits).
Proof.
  intros H. rewrite <- (bits_bytes_pad n bits (8 * n - length bits)).
  apply bytes_bits_bits_bytes. rewrite app_length, repeat_length. lia.
Qed.

Lemma bytes_bits_cut n : forall bs,
  bytes_bits (firstn n bs) = firstn (8 * n) (bytes_bits bs) /\ bytes_bits (skipn n bs) = skipn (8 * n) (bytes_bits bs).
Proof.
  induction n as [|n IH]; intros bs; [split; reflexivity|].
  destruct bs as [|b bs]; [split; [reflexivity|symmetry; apply skipn_nil]|]. destruct (IH bs) as [IHf IHs].
  replace (8 * S n)%nat with (length (byte_bits b) + 8 * n)%nat by (rewrite byte_bits_length; lia).
  cbn [firstn skipn bytes_bits flat_map]. fold (bytes_bits bs) (bytes_bits (firstn n bs)) (bytes_bits (skipn n bs)).
  rewrite firstn_app_2, <- skipn_skipn, skipn_app_exact, IHf, IHs by reflexivity. split; reflexivity.
Qed.

Local Open Scope N_scope.
Lemma u64_small x : x < 2^64 -> u64 x = x.
Proof. intros H. unfold u64. rewrite N.land_ones. apply N.mod_small, H. Qed.

Lemma u64_shiftl v off : off <= 64 -> u64 (N.shiftl v off) = 2^off * (v mod 2^(64 - off)).
Proof.
  intros H. unfold u64. rewrite N.land_ones, N.shiftl_mul_pow2.
  replace (2^64) with (2^off * 2^(64 - off)) by (rewrite <- N.pow_add_r; f_equal; lia).
  rewrite (N.mul_comm v). apply N.mul_mod_distr_l; apply N.pow_nonzero; lia.
Qed.

(* the model's vlq_enc and Leb128.leb_enc are the same fixpoint under two names, hence convertible *)
Lemma vlq_enc_leb : vlq_enc = leb_enc.
Proof. reflexivity. Qed.

(* the model of get_vlq_int is the reader without a limit (the assert of bit_util.rs that panics on an eleventh byte is
   not modelled) *)
Lemma vlq_dec_run : forall bs k a, vlq_dec bs (leb_shift k) a = value_rest (leb_run false bs k a).
Proof.
  induction bs as [|b r IH]; intros k a; [reflexivity|]. cbn [vlq_dec leb_run over_limit andb]. cbv zeta.
  destruct (b <? 128); [reflexivity|]. rewrite <- leb_shift_S. apply IH.
Qed.

(* 10 groups cover every u64: the bound of put_vlq_int / MAX_VLQ_BYTE_LEN *)
Corollary vlq_roundtrip n rest : n < 2^64 -> vlq_dec (vlq n ++ rest) 0 0 = Some (n, rest).
Proof.
  intros H. unfold vlq. rewrite vlq_enc_leb.
  rewrite (vlq_dec_run _ 0), leb_run_enc; [cbn [value_rest]; now rewrite N.mul_1_r|now apply N.lt_trans with (2^64)|discriminate].
Qed.

Lemma vlq_enc_wf : forall fuel n, Forall (fun b => b < 256) (vlq_enc fuel n).
Proof. rewrite vlq_enc_leb. exact leb_enc_bytes. Qed.
Local Close Scope N_scope.

Local Open Scope Z_scope.
Lemma zz_roundtrip z : zz_dec (zz_enc z) = z.
Proof. unfold zz_dec, zz_enc. rewrite <- of_N_unzz, zz_arith. apply zz_unzz. Qed.

Lemma zz_enc_m_unzz v : - 2^63 <= v < 2^63 -> zz_enc_m v = unzz v.
Proof. exact (unzz_shift_xor v). Qed.

(* the shift/xor form of BitWriter::put_zigzag_vlq_int is the arithmetic zig-zag, for every i64 *)
Theorem zz_enc_m_spec v : - 2^63 <= v < 2^63 -> Z.of_N (zz_enc_m v) = zz_enc v /\ (zz_enc_m v < 2^64)%N.
Proof.
  intros H. rewrite zz_enc_m_unzz by exact H. split; [apply of_N_unzz|]. apply N2Z.inj_lt, (unzz_lt (2^63)), H.
Qed.

Theorem zz_dec_m_spec u : zz_dec_m u = zz_dec (Z.of_N u).
Proof. unfold zz_dec_m, zz_dec. now rewrite zz_lxor, zz_arith. Qed.

Theorem zz_m_roundtrip v : - 2^63 <= v < 2^63 -> zz_dec_m (zz_enc_m v) = v.
Proof. intros H. rewrite zz_dec_m_spec, (proj1 (zz_enc_m_spec v H)). apply zz_roundtrip. Qed.

Theorem zz_vlq_roundtrip v rest : - 2^63 <= v < 2^63 -> zz_vlq_dec (zz_vlq v ++ rest) = Some (v, rest).
Proof.
  intros H. unfold zz_vlq_dec, zz_vlq. destruct (zz_enc_m_spec v H) as [_ Hb].
  rewrite vlq_roundtrip by exact Hb. rewrite N.mod_small by exact Hb. rewrite zz_m_roundtrip by exact H. reflexivity.
Qed.

