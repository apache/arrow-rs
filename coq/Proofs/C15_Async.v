(* C15: the async stream (RequestState machine around the push decoder) returns the sync rows for
   every pattern of Pending results of the fetch futures.

   The stream is the driver that supplies exactly the requested ranges, with polls in between: two
   per request (begin the fetch, push its result) plus the Pending ones, one per batch or end.  So
   what the driver produces within f calls the stream produces within 2 f polls plus the Pending ones. *)
From Coq Require Import List Arith NArith Lia.
From AV Require Import Model.C15_Machine Proofs.C15_Machine Proofs.C15_Drive.

Section Async.
Variables (Rw B U R : Type).
Variable fr_step : nat -> B -> fstep B R.
Variable plan : R -> phase Rw U.
Variable upd : B -> U -> B.
Variable file : list N.
Hypothesis plan_in_file : forall r, phase_ok Rw U file (in_file_range file) (plan r).

Notation mach := (mach Rw B U).
Notation try_decode := (try_decode Rw B U R fr_step plan upd).
Notation fchunks := (file_chunks file).
Notation potential := (potential Rw B U R fr_step plan upd file).
Notation stream_collect := (stream_collect Rw B U R fr_step plan upd file).
Notation drive_with := (drive_with Rw B U R fr_step plan upd file).

Lemma list_sum_tl l : (hd O l + list_sum (tl l) = list_sum l)%nat.
Proof. destruct l; reflexivity. Qed.

Lemma fetch_completes rs (m m2 : mach) delays fuel : push_data Rw B U m rs (fchunks rs) = Some m2 ->
  forall d, stream_collect (d + 1 + fuel) delays {| s_req := QOutstanding rs d; s_dec := m |}
            = stream_collect fuel delays {| s_req := QNone; s_dec := m2 |}.
Proof.
  intros Hp. induction d as [|d IH]; cbn [Nat.add C15_Machine.stream_collect C15_Machine.sstep s_req s_dec].
  - now rewrite Hp.
  - exact IH.
Qed.

Lemma stream_follows_drive : forall f i m rows, drive_with (fun _ rs => rs) f i m = (rows, true) ->
  forall delays fuel, (2 * f + list_sum delays <= fuel)%nat ->
  stream_collect fuel delays {| s_req := QNone; s_dec := m |} = (rows, true).
Proof.
  induction f as [|f IH]; intros i m rows; cbn [C15_Machine.drive_with]; [discriminate|].
  intros Hd delays [|fuel] Hf; [lia|]. cbn [C15_Machine.stream_collect C15_Machine.sstep s_req s_dec].
  destruct (try_decode m) as [m1 [rs|b|bs| |]]; try discriminate Hd.
  - destruct (push_data Rw B U m1 rs (fchunks rs)) as [m2|] eqn:Ep; [|discriminate Hd].
    pose proof (list_sum_tl delays).
    replace fuel with (hd O delays + 1 + (fuel - hd O delays - 1))%nat by lia.
    rewrite (fetch_completes rs m1 m2 _ _ Ep). apply (IH _ _ _ Hd). lia.
  - destruct (drive_with _ f i m1) as [rows1 fin] eqn:Ed. inversion Hd; subst.
    rewrite (IH _ _ _ Ed); [reflexivity|lia].
  - exact Hd.
Qed.

Theorem async_stream_reads_sync_rows q b delays fuel :
  (3 * potential (init Rw B U q b) + list_sum delays + 2 < fuel)%nat ->
  stream_collect fuel delays {| s_req := QNone; s_dec := init Rw B U q b |}
  = (sync_rows Rw B U R fr_step plan upd file q b, true).
Proof.
  (* the driver needs potential + 1 calls, so 2 * potential + 2 + the Pending polls are enough; the hypothesis
     asks for more than that *)
  intros Hf. apply (stream_follows_drive (S (potential (init Rw B U q b))) O); [|lia].
  exact (exact_supply_completes Rw B U R fr_step plan upd file plan_in_file q b _ (Nat.lt_succ_diag_r _)).
Qed.

End Async.
