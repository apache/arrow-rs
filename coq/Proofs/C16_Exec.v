(* C16 — what one operation may do.  Every [ex_*] first works on the nodes (through the helpers of the
   model, which never touch a slot) and then updates at most two slots.  [Nd] describes the first phase,
   [Sl] (C16_Excl.v) the second when only shared kinds are built, [Eff] the whole operation: a [RawA]
   transition satisfying [Wr] (footprint) that leaves every object of exclusive kind in the slots it
   touched as the only reference to its regions.  One lemma per operation; the invariants of a step, and
   with them of every reachable state, are read off [exec_eff]. *)
From Coq Require Import List ZArith Bool Lia.
From AV Require Import Base.ListX Model.C16_Own Proofs.C16_Inv Proofs.C16_Ops Proofs.C16_Mut Proofs.C16_Excl.
Import ListNotations.

Definition ib_state (r : ib_result) : state := match r with IbOk s1 _ | IbErr s1 _ => s1 end.
Definition ib_handles (r : ib_result) : list handle := match r with IbOk _ hs | IbErr _ hs => hs end.

(* Arc::try_unwrap after the object has dropped [d] of its own references to the region: the count read is 1
   and the object held [d] + 1, so it held them all.  In into_builder [d] is 1 when the validity buffer, dropped
   before the values are unwrapped, sits on the region of the values. *)
Lemma into_mutable_uniq s i h d : into_mutable_ok s h (cnt s (hreg h) - d) = true ->
  d + 1 <= count_occ Nat.eq_dec (acts s i) (hreg h) -> Uniq s i (hreg h).
Proof.
  intros G Hd. apply into_mutable_ok_cnt in G. apply uniq_of_le; [apply (count_occ_In Nat.eq_dec); lia|lia].
Qed.
Lemma count_own_ge (a b : nat) l : (if b =? a then 1 else 0) + 1 <= count_occ Nat.eq_dec (a :: b :: l) a.
Proof.
  cbn [count_occ]. destruct (Nat.eq_dec a a) as [_|N]; [|congruence].
  destruct (Nat.eqb_spec b a) as [->|Hb]; [destruct (Nat.eq_dec a a); [lia|congruence]|lia].
Qed.

Create HintDb eff_noop.

Section Exec.
  Variable s : state.
  Hypothesis I : Inv s.
  Variable A : list nat.
  Hypothesis HA : incl A (all_refs s).
  (* the slot the operation acts on *)
  Variable i : nat.

  Local Notation OkA := (OkA s A).
  Local Notation OkL := (OkL s A).

  (* What an operation may do to the nodes.  [nd_region]: a new allocation (MutableBuffer::new, a copy made
     by bit_slice, align_nulls or new_from_buffer); [nd_node]: an exported FFI_ArrowArray holding the buffers
     of the array, or an imported buffer holding its export; [nd_write]: any write through a pointer, legal
     only where slot [i] holds every reference; [nd_resv]: claim / resize of a pool reservation.
     Index [true]: so far no new node holds a reference, so no count has moved. *)
  Inductive Nd : bool -> state -> Prop :=
  | nd_refl q : Nd q s
  | nd_region b o c k q s1 : Nd q s1 -> (forall e, o <> OImp e) -> Nd q (add_node (NReg (fresh_region b o c k)) s1)
  | nd_node n q s1 : Nd q s1 -> node_rel n = 0 -> node_resv_live n = 0%Z -> (forall r, In r (node_refs n) -> OkA s1 r) ->
                     Nd false (add_node n s1)
  | nd_write id b q s1 : Nd q s1 -> (id < length (nodes s) -> Uniq s i id) -> Nd q (write_reg id b s1)
  | nd_resv id v q s1 : Nd q s1 -> OkRef s s1 id -> Nd q (set_resv id v s1).

  Lemma nd_truncate id n q s1 : Nd q s1 -> (id < length (nodes s) -> Uniq s i id) -> Nd q (truncate_reg s1 id n).
  Proof. apply nd_write. Qed.

  Lemma nd_forget q s1 : Nd q s1 -> Nd false s1.
  Proof.
    induction 1 as [q|b o c k q s1 _ IH Ho|n q s1 N _ H1 H2 H3|id b q s1 _ IH H|id v q s1 _ IH H].
    - apply nd_refl.
    - apply nd_region; assumption.
    - eapply nd_node; eassumption.
    - apply nd_write; assumption.
    - apply nd_resv; assumption.
  Qed.

  Lemma oka_lt s1 r : Raw s s1 -> OkA s1 r -> r < length (nodes s1).
  Proof. intros R [H|[_ H]]; [|exact H]. pose proof (ref_lt s r I (HA r H)). pose proof (raw_len _ _ R). lia. Qed.

  Lemma nd_raw q s1 : Nd q s1 -> Raw s s1.
  Proof.
    induction 1 as [q|b o c k q s1 _ IH Ho|n q s1 _ IH H1 H2 H3|id b q s1 _ IH H|id v q s1 _ IH H].
    - apply raw_refl.
    - apply raw_add_node; [exact IH|reflexivity|reflexivity|]. rewrite (fresh_region_refs _ _ _ _ Ho). intros r [].
    - apply raw_add_node; [exact IH|exact H1|exact H2|]. intros r Hr.
      split; [apply (OkA_OkRef s A HA), H3, Hr|exact (oka_lt _ _ IH (H3 r Hr))].
    - apply raw_write_reg, IH.
    - apply raw_set_resv; [exact IH|]. intros r. exact (okref_rel0 s s1 id r I IH H).
  Qed.
  Lemma nd_wr q s1 : Nd q s1 -> Wr s i s1.
  Proof.
    induction 1 as [q|b o c k q s1 _ IH _|n q s1 _ IH _ _ _|id b q s1 _ IH H|id v q s1 _ IH _].
    - apply wr_refl.
    - apply wr_add_node, IH.
    - apply wr_add_node, IH.
    - apply wr_write_reg; [exact IH|exact H].
    - apply wr_set_resv, IH.
  Qed.
  Lemma nd_slots q s1 : Nd q s1 -> slots s1 = slots s.
  Proof.
    induction 1 as [q|b o c k q s1 _ IH _|n q s1 _ IH _ _ _|id b q s1 _ IH _|id v q s1 _ IH _].
    - reflexivity.
    - exact IH.
    - exact IH.
    - rewrite slots_write. exact IH.
    - rewrite slots_set_resv. exact IH.
  Qed.
  Lemma nd_len q s1 : Nd q s1 -> length (nodes s) <= length (nodes s1).
  Proof. intros N. apply (raw_len _ _ (nd_raw _ _ N)). Qed.
  Lemma nd_cnt s1 : Nd true s1 -> forall x, cnt s1 x = cnt s x.
  Proof.
    intros N. remember true as q eqn:Eq.
    induction N as [q|b o c k q s1 _ IH Ho|n q s1 _ IH _ _ _|id b q s1 _ IH _|id v q s1 _ IH _]; intros x.
    - reflexivity.
    - rewrite cnt_add, (fresh_region_refs _ _ _ _ Ho). cbn [count_occ]. rewrite Nat.add_0_r. apply (IH Eq).
    - discriminate.
    - rewrite cnt_write. apply (IH Eq).
    - rewrite cnt_set_resv. apply (IH Eq).
  Qed.
  (* the count of a region the operation does not act on does not grow *)
  Lemma nd_cnt_le q s1 : Nd q s1 -> forall x, x < length (nodes s) -> ~ In x A -> cnt s1 x <= cnt s x.
  Proof.
    induction 1 as [q|b o c k q s1 _ IH Ho|n q s1 _ IH _ _ H3|id b q s1 _ IH _|id v q s1 _ IH _]; intros x Hx HnA.
    - apply le_n.
    - rewrite cnt_add, (fresh_region_refs _ _ _ _ Ho). cbn [count_occ]. rewrite Nat.add_0_r. apply IH; assumption.
    - rewrite cnt_add, (notA_count s A s1 _ x H3 Hx HnA), Nat.add_0_r. apply IH; assumption.
    - rewrite cnt_write. apply IH; assumption.
    - rewrite cnt_set_resv. apply IH; assumption.
  Qed.
  Lemma nd_rawA T q s1 : Nd q s1 -> RawA s A T s1.
  Proof.
    intros N. pose proof (nd_slots _ _ N) as Hs.
    constructor; [exact (nd_raw _ _ N)|exact (nd_cnt_le _ _ N)|rewrite Hs; reflexivity|rewrite Hs; apply le_n].
  Qed.

  Lemma nd_fresh_last q s1 n : Nd q s1 -> OkA (add_node n s1) (next_id s1).
  Proof. intros N. right. unfold Fresh, next_id. rewrite add_node_len. pose proof (nd_len _ _ N). lia. Qed.

  (* a helper of the model passes the state on, extended, together with a handle into it *)
  Definition Ext q (s1 : state) (r : state * handle) : Prop :=
    Nd q (fst r) /\ OkA (fst r) (hreg (snd r)) /\ length (nodes s1) <= length (nodes (fst r)).
  Lemma ext_same q s1 h : Nd q s1 -> OkA s1 (hreg h) -> Ext q s1 (s1, h).
  Proof. intros N H. split; [exact N|split; [exact H|apply le_n]]. Qed.
  Lemma ext_region q s1 b o c k h : Nd q s1 -> (forall e, o <> OImp e) -> hreg h = next_id s1 ->
    Ext q s1 (add_node (NReg (fresh_region b o c k)) s1, h).
  Proof.
    intros N Ho Hh. split; [apply nd_region; assumption|]. cbn [fst snd]. rewrite Hh, add_node_len.
    split; [eapply nd_fresh_last; exact N|lia].
  Qed.

  Lemma nd_sliced q s1 n : Nd q s1 -> OkA s1 (hreg n) -> Ext q s1 (sliced s1 n).
  Proof.
    intros N H. unfold sliced. destruct (hbo n mod 8 =? 0); [apply ext_same; assumption|].
    apply ext_region; [exact N|discriminate|reflexivity].
  Qed.
  (* bit_slice shares the region when the bit offset is a byte boundary, else copies into a new one *)
  Lemma nd_sliced_reg q s1 n : Nd q s1 ->
    ((hbo n mod 8 =? 0) = true /\ hreg (snd (sliced s1 n)) = hreg n)
    \/ ((hbo n mod 8 =? 0) = false /\ Fresh s (fst (sliced s1 n)) (hreg (snd (sliced s1 n)))).
  Proof.
    intros N. unfold sliced. destruct (hbo n mod 8 =? 0); cbn [fst snd hreg]; [left; auto|right].
    split; [reflexivity|]. unfold Fresh, next_id. rewrite add_node_len. pose proof (nd_len _ _ N). lia.
  Qed.
  Lemma nd_import_buf q s1 e src nb : Nd q s1 -> OkA s1 e -> Ext false s1 (import_buf s1 e src nb).
  Proof.
    intros N He. unfold import_buf.
    split; [|cbn [fst snd hreg]; rewrite add_node_len; split; [eapply nd_fresh_last; exact N|lia]].
    eapply nd_node; [exact N|reflexivity|reflexivity|]. intros r [<-|[]]. exact He.
  Qed.

  (* the exported structure holds the buffers it was given *)
  Lemma nd_export_node q s1 e : Nd q s1 -> e_rel e = 0 -> OkL s1 (map hreg (e_bufs e)) ->
    Nd false (add_node (NExp e) s1) /\ OkA (add_node (NExp e) s1) (next_id s1).
  Proof.
    intros N Hr Hb. split; [|eapply nd_fresh_last; exact N].
    eapply nd_node; [exact N|exact Hr|reflexivity|]. cbn [node_refs]. rewrite Hr. exact Hb.
  Qed.
  Lemma nd_export_arr q s1 kind c hs : Nd q s1 -> OkL s1 (map hreg hs) ->
    Nd false (fst (export_arr s1 kind c hs)) /\ OkA (fst (export_arr s1 kind c hs)) (snd (export_arr s1 kind c hs)).
  Proof.
    intros N H. unfold export_arr.
    pose proof (OkL_incl _ _ _ _ _ (filter_nulls_regs s1 hs) H) as Hf.
    destruct (filter_nulls s1 hs) as [|v [|n [|]]]; cbn [fst snd].
    - apply (nd_export_node q); [exact N|reflexivity|intros r []].
    - apply (nd_export_node q); [exact N|reflexivity|exact Hf].
    - set (off := if kind =? 6 then hbo v else 0).
      (* the exported validity buffer: the array's own, a slice of it, or a shifted copy;
         [HP] is about the pair that the model binds by [let '(s1, nb)] *)
      match goal with |- context [let '(_, _) := ?r in _] => assert (HP : Ext q s1 r); [|destruct r as [s1' nb]] end.
      { assert (Hn : OkA s1 (hreg n)) by (apply Hf; right; left; reflexivity).
        destruct (off =? hbo n); [apply ext_same; assumption|].
        destruct (off =? 0); [apply nd_sliced; assumption|apply ext_region; [exact N|discriminate|reflexivity]]. }
      destruct HP as (N1 & Hok & L1). cbn [fst snd] in *.
      apply (nd_export_node q); [exact N1|reflexivity|]. intros r [<-|[<-|[]]]; [|exact Hok].
      eapply OkA_mono; [exact L1|apply Hf; left; reflexivity].
    - apply (nd_export_node q); [exact N|reflexivity|intros r []].
  Qed.

  Lemma nd_import_arr q s1 e : Nd q s1 -> OkA s1 e ->
    Nd false (fst (import_arr s1 e))
    /\ (forall id, In id (slot_refs (snd (import_arr s1 e))) -> OkA (fst (import_arr s1 e)) id).
  Proof.
    intros N He. apply nd_forget in N. unfold import_arr.
    destruct (get_exp s1 e) as [ex|]; [|cbn; split; [exact N|intros ? []]].
    destruct (e_bufs ex) as [|v rest]; [cbn; split; [exact N|intros ? []]|].
    set (vbytes := if e_kind ex =? 6 then ceil8 (e_len ex + e_off ex) else 4 * e_len ex).
    match goal with |- context [let '(_, _) := ?r in _] => assert (HP : Ext false s1 r); [|destruct r as [s1' hv]] end.
    { destruct (vbytes =? 0); [apply ext_region; [exact N|discriminate|reflexivity]|eapply nd_import_buf; eassumption]. }
    destruct HP as (N1 & Hok & L1). cbn [fst snd] in *.
    assert (Hhv' : hreg (if e_kind ex =? 6 then mkH (hreg hv) 0 (hlen hv) (e_off ex) (e_len ex) else hv) = hreg hv)
      by (destruct (e_kind ex =? 6); reflexivity).
    destruct rest as [|n rest'].
    - cbn [fst snd]. split; [exact N1|]. intros id Hin. cbn in Hin. destruct Hin as [<-|[]]. rewrite Hhv'. exact Hok.
    - destruct (nd_import_buf false s1' e n (ceil8 (e_len ex + e_off ex)) N1 (OkA_mono _ _ _ _ _ L1 He)) as (N2 & Hok2 & L2).
      destruct (import_buf s1' e n (ceil8 (e_len ex + e_off ex))) as [s2 hn]. cbn [fst snd] in *.
      split; [exact N2|].
      intros id Hin. cbn in Hin. destruct Hin as [<-|[<-|[]]]; [rewrite Hhv'; eapply OkA_mono; eauto|exact Hok2].
  Qed.

  Lemma nd_claim_regs ids q s1 : Nd q s1 -> (forall id, In id ids -> In id (all_refs s)) -> Nd q (claim_regs ids s1).
  Proof.
    unfold claim_regs. revert s1; induction ids as [|id t IH]; intros s1 N H; [exact N|]. cbn [fold_left].
    apply IH; [|intros; apply H; right; auto]. apply nd_resv; [exact N|left; apply H; left; reflexivity].
  Qed.

  Lemma nd_builder_values s1 v rest : Nd true s1 -> Owned s i s1 (map hreg (v :: rest)) ->
    Nd true (fst (builder_values s1 v)) /\ Owned s i (fst (builder_values s1 v)) (map hreg (snd (builder_values s1 v) :: rest)).
  Proof.
    intros N O. unfold builder_values.
    assert (N1 : Nd true (truncate_reg s1 (hreg v) (hlen v))).
    { apply nd_truncate; [exact N|]. apply (owned_uniq _ _ _ _ _ O). left. reflexivity. }
    pose proof (truncate_reg_len (hreg v) (hlen v) s1) as L1.
    destruct (_ && _); cbn [fst snd map hreg] in *.
    - split; [exact N1|]. eapply owned_mono; [|exact O]. lia.
    - (* a copy into a new region, younger than every other region of the builder *)
      assert (L2 := add_node_len (NReg (fresh_region (hbytes s1 v) (OStd 4) (hlen v) true)) (truncate_reg s1 (hreg v) (hlen v))).
      split; [apply nd_region; [exact N1|discriminate]|].
      destruct O as [ND O]. apply NoDup_cons_iff in ND as [_ ND]. pose proof (nd_len _ _ N) as L. unfold next_id. split.
      + constructor; [|exact ND]. intros Hin.
        destruct (O _ (or_intror Hin)) as [U|[_ Hlt]]; [pose proof (uniq_lt _ _ _ I U)|]; lia.
      + intros r [<-|Hr]; [right; unfold Fresh; lia|].
        destruct (O r (or_intror Hr)) as [U|[H1 H2]]; [left; exact U|right; unfold Fresh; lia].
  Qed.

  Hypothesis Hi : incl (acts s i) A.

  (* the regions of the acting object may be referred to again, whatever the nodes added meanwhile *)
  Lemma ok_acts s1 l : incl l (acts s i) -> OkL s1 l.
  Proof. intros H. apply OkL_A. exact (incl_tran H Hi). Qed.
  Lemma ok_slot_1 s1 k h : slot_1 s i k = Some h -> OkA s1 (hreg h).
  Proof. intros E. apply (ok_acts s1 [hreg h]); [rewrite (slot_1_acts _ _ _ _ E); apply incl_refl|left; reflexivity]. Qed.
  Lemma owned_ok s1 rs : Owned s i s1 rs -> OkL s1 rs.
  Proof.
    intros [_ O] id Hin. destruct (O id Hin) as [[Hpos _]|Hf]; [left|right; exact Hf].
    apply Hi. apply (count_occ_In Nat.eq_dec). exact Hpos.
  Qed.

  (* into_builder succeeds only if the array holds every reference to the region of its values (the
     references dropped on the way are those of its own validity buffer); the validity region it
     returns is a fresh copy, or a second region of which the same holds *)
  Lemma nd_into_builder hs : acts s i = map hreg hs ->
    Nd true (ib_state (into_builder s hs)) /\ OkL (ib_state (into_builder s hs)) (map hreg (ib_handles (into_builder s hs))) /\
    (forall s1 hs1, into_builder s hs = IbOk s1 hs1 -> Owned s i s1 (map hreg hs1)).
  Proof.
    intros Ha.
    assert (H0 : OkL s (map hreg hs)) by (rewrite <- Ha; apply ok_acts, incl_refl).
    pose proof (OkL_incl _ _ _ _ _ (filter_nulls_regs s hs) H0) as Hf.
    unfold into_builder. destruct (filter_nulls s hs) as [|v [|n rest']] eqn:Ef.
    - cbn. split; [apply nd_refl|]. split; [exact H0|discriminate].
    - (* no validity buffer, possibly because it was filtered out *)
      assert (Hv : In (hreg v) (acts s i)).
      { rewrite Ha. apply in_map. eapply filter_nulls_incl. rewrite Ef. left. reflexivity. }
      destruct (into_mutable_ok s v _) eqn:G; cbn [ib_state ib_handles]; [|split; [apply nd_refl|split; [exact Hf|discriminate]]].
      split; [apply nd_refl|split; [exact Hf|]].
      intros s1 hs1 [= <- <-]. apply owned_one. left. apply (into_mutable_uniq _ _ _ _ G).
      destruct (filter_nulls_cases s hs) as [Hsame|(v0 & n0 & Hhs & Hf')].
      + rewrite Hsame in Ef. subst hs. apply (count_occ_In Nat.eq_dec) in Hv. cbn [Nat.add]. lia.
      + rewrite Hf' in Ef. injection Ef as ->. subst hs. rewrite Ha. exact (count_own_ge (hreg v) (hreg n0) []).
    - assert (Hhs : hs = v :: n :: rest').
      { destruct (filter_nulls_cases s hs) as [Hsame|(v0 & n0 & _ & Hf')]; [congruence|rewrite Hf' in Ef; discriminate]. }
      assert (Hv : In (hreg v) (acts s i)) by (rewrite Ha, Hhs; left; reflexivity).
      assert (Hn : In (hreg n) (acts s i)) by (rewrite Ha, Hhs; right; left; reflexivity).
      assert (Hc : (if hreg n =? hreg v then 1 else 0) + 1 <= count_occ Nat.eq_dec (acts s i) (hreg v)).
      { rewrite Ha, Hhs. exact (count_own_ge (hreg v) (hreg n) (map hreg rest')). }
      destruct (nd_sliced true s n (nd_refl true) (Hf _ (or_intror (or_introl eq_refl)))) as (N1 & Hok1 & L1).
      pose proof (nd_sliced_reg true s n (nd_refl true)) as Hnb.
      destruct (sliced s n) as [s1 nb]. cbn [fst snd] in *.
      assert (A1 : OkL s1 (map hreg [v; nb])).
      { intros r [<-|[<-|[]]]; [eapply OkA_mono; [exact L1|apply Hf; left; reflexivity]|exact Hok1]. }
      destruct (negb (if negb (hbo n mod 8 =? 0) then true else into_mutable_ok s nb (cnt s (hreg n)))) eqn:Gn;
        cbn [ib_state ib_handles]; [split; [exact N1|split; [exact A1|discriminate]]|].
      apply negb_false_iff in Gn.
      assert (Unb : (Uniq s i (hreg nb) /\ hreg nb <> hreg v) \/ Fresh s s1 (hreg nb)).
      { destruct Hnb as [[Eo Er]|[_ Hfr]]; [left|right; exact Hfr].
        rewrite Eo in Gn. cbn [negb] in Gn. apply into_mutable_ok_cnt in Gn. rewrite Er.
        split; [apply uniq_of_cnt1; assumption|]. intros Heq. rewrite Heq, Nat.eqb_refl in Hc.
        pose proof (acts_le_cnt s i (hreg v)). rewrite Heq in Gn. lia. }
      assert (N2 : Nd true (truncate_reg s1 (hreg nb) (hlen nb))).
      { apply nd_truncate; [exact N1|]. intros Hlt. destruct Unb as [[U _]|[Hge _]]; [exact U|lia]. }
      assert (A2 : OkL (truncate_reg s1 (hreg nb) (hlen nb)) (map hreg [v; nb])).
      { eapply OkL_mono; [|exact A1]. rewrite truncate_reg_len. lia. }
      destruct (into_mutable_ok s v _) eqn:G; cbn [ib_state ib_handles]; [|split; [exact N2|split; [exact A2|discriminate]]].
      split; [exact N2|split; [exact A2|]].
      intros s3 hs1 [= <- <-].
      assert (Uv : Uniq s i (hreg v)).
      { apply (into_mutable_uniq _ _ _ _ G).
        destruct (negb (hbo n mod 8 =? 0)); cbn [andb]; [exact Hc|]. apply (count_occ_In Nat.eq_dec) in Hv. lia. }
      split.
      + constructor; [|repeat constructor; intros []]. intros [Heq|[]].
        destruct Unb as [[_ Hd]|[Hge _]]; [exact (Hd Heq)|]. pose proof (uniq_lt _ _ _ I Uv). lia.
      + intros r [<-|[<-|[]]]; [left; exact Uv|].
        destruct Unb as [[U _]|[H1 H2]]; [left; exact U|right]. unfold Fresh. rewrite truncate_reg_len. lia.
  Qed.

  Hypothesis X : Excl s.
  (* the slots the operation may overwrite *)
  Variable T : list nat.

  (* the footprint of an operation: which references, slots and region contents it may touch *)
  Definition Fp (s1 : state) : Prop := RawA s A T s1 /\ Wr s i s1.
  Lemma nd_fp q s1 : Nd q s1 -> Fp s1.
  Proof. intros N. split; [exact (nd_rawA T _ _ N)|exact (nd_wr _ _ N)]. Qed.
  Lemma fp_set_slot j o s1 : Fp s1 -> OkL s1 (slot_refs o) -> In j T -> Fp (set_slot j o s1).
  Proof. intros [R W] H Hj. split; [apply rawA_set_slot; assumption|apply wr_set_slot; exact W]. Qed.
  Lemma fp_push_slot o s1 : Fp s1 -> OkL s1 (slot_refs o) -> Fp (push_slot o s1).
  Proof. intros [R W] H. split; [apply rawA_push_slot; assumption|apply wr_push_slot; exact W]. Qed.

  (* What an operation may do: a [RawA] transition that changes content only where slot [i] held every
     reference, after which the objects of exclusive kind in the slots of [J] and in the new slots are
     the only reference to their regions. *)
  Definition Eff (J : nat -> Prop) (s1 : state) : Prop := Fp s1 /\ TBJ s J s1.
  Lemma eff_rawA J s1 : Eff J s1 -> RawA s A T s1. Proof. intros E. apply E. Qed.
  Lemma eff_wr J s1 : Eff J s1 -> Wr s i s1. Proof. intros E. apply E. Qed.
  Lemma eff_tbj J s1 : Eff J s1 -> TBJ s J s1. Proof. intros E. apply E. Qed.
  (* [J] as [opR] gives it at a code with one operand *)
  Local Notation Eff1 := (Eff (fun j => In j [i])).

  (* The shapes of an operation.  After the phase that only touches nodes: no slot moves, and no count either *)
  Lemma eff_nodes J s1 : Nd true s1 -> Eff J s1.
  Proof.
    intros N. split; [exact (nd_fp _ _ N)|]. apply tbj_of_excl.
    apply (excl_same s); [exact X|exact (nd_slots _ _ N)|exact (nd_cnt _ N)].
  Qed.
  Lemma eff_refl J : Eff J s. Proof. apply eff_nodes, nd_refl. Qed.
  Lemma eff_na1 J : Eff J (fst (na1 s)).
  Proof. split; [apply fp_push_slot; [apply (nd_fp true), nd_refl|intros ? []]|apply tb_na1, X]. Qed.
  Local Hint Resolve eff_refl eff_na1 : eff_noop.

  (* ... a new slot gets an object, of any kind, over distinct regions made by the operation *)
  Lemma eff_push_fresh J s1 o' : Nd true s1 -> NoDup (obj_refs o') -> (forall r, In r (obj_refs o') -> Fresh s s1 r) ->
    Eff J (push_slot (Some o') s1).
  Proof.
    intros N ND Hf. split; [apply fp_push_slot; [exact (nd_fp _ _ N)|intros id Hin; right; exact (Hf id Hin)]|].
    apply (tb_push_fresh s I X); [exact (nd_slots _ _ N)|exact (nd_cnt _ N)|exact ND|exact Hf].
  Qed.
  Lemma eff_new k n b o c : (forall e, o <> OImp e) ->
    Eff (fun j => In j []) (push_slot (Some (mkO k [mkH (next_id s) 0 n 0 0] [])) (add_node (NReg (fresh_region b o c true)) s)).
  Proof.
    intros Ho. apply eff_push_fresh; [apply nd_region; [apply nd_refl|exact Ho]|repeat constructor; intros []|].
    intros r [<-|[]]. unfold Fresh, next_id. cbn [hreg]. rewrite add_node_len. lia.
  Qed.
  Lemma eff_new_std esz data : Eff (fun j => In j []) (fst (ex_new_std s esz data)).
  Proof. unfold ex_new_std. destruct (_ && _); [|auto with eff_noop]. apply eff_new. discriminate. Qed.
  Lemma eff_new_cust c data : Eff (fun j => In j []) (fst (ex_new_cust s c data)).
  Proof. apply eff_new. discriminate. Qed.
  Lemma eff_new_mut c data : Eff (fun j => In j []) (fst (ex_new_mut s c data)).
  Proof. unfold ex_new_mut. destruct (_ <=? _); [|auto with eff_noop]. apply eff_new. discriminate. Qed.

  Hypothesis Ht : In i T.

  (* ... slots are overwritten and appended with objects of shared kinds ([Sl]), provided every slot of [J]
     that is read and kept held a shared kind already *)
  Lemma sl_fp s0 L s1 : Fp s0 -> Sl s A T s0 L s1 -> Fp s1.
  Proof.
    intros F. induction 1 as [|L j o' s1 _ IH Hj _ Hr|L o' s1 _ IH _ Hr];
      [exact F|apply fp_set_slot; assumption|apply fp_push_slot; assumption].
  Qed.
  Lemma sl_eff q s0 L (J : nat -> Prop) s1 : Nd q s0 -> Sl s A T s0 L s1 ->
    (forall j o, J j -> ~ In j L -> get_slot s j = Some o -> is_excl_kind (okind o) = false) -> Eff J s1.
  Proof.
    intros N S HJ. split; [exact (sl_fp _ _ _ (nd_fp _ _ N) S)|exact (sl_tbj _ _ _ _ (nd_slots _ _ N) _ _ _ S HJ)].
  Qed.
  (* the three shapes of it that single-slot operations have *)
  Lemma eff_set_shared q s1 o' : Nd q s1 -> shared_opt o' -> OkL s1 (slot_refs o') -> Eff1 (set_slot i o' s1).
  Proof.
    intros N Hk Hr. eapply sl_eff; [exact N|apply sl_set; [apply sl_base|exact Ht|exact Hk|exact Hr]|].
    intros j o [<-|[]] []. left. reflexivity.
  Qed.
  Lemma eff_set_push_shared q s1 o' o2 : Nd q s1 -> shared_opt o' -> shared_opt o2 ->
    OkL s1 (slot_refs o') -> OkL s1 (slot_refs o2) -> Eff1 (push_slot o2 (set_slot i o' s1)).
  Proof.
    intros N Hk Hk2 Hr Hr2.
    eapply sl_eff; [exact N|apply sl_push; [apply sl_set; [apply sl_base|exact Ht|exact Hk|exact Hr]|exact Hk2|exact Hr2]|].
    intros j o [<-|[]] []. left. reflexivity.
  Qed.
  Lemma eff_push_shared q s1 o' oi : Nd q s1 -> get_slot s i = Some oi -> is_excl_kind (okind oi) = false -> shared_opt o' ->
    OkL s1 (slot_refs o') -> Eff1 (push_slot o' s1).
  Proof.
    intros N E Hki Hk Hr. eapply sl_eff; [exact N|apply sl_push; [apply sl_base|exact Hk|exact Hr]|].
    intros j o [<-|[]] _ H. congruence.
  Qed.
  (* ... slot [i] gets an object, of any kind, over regions that are new or were referenced by slot [i] alone *)
  Lemma eff_set_owned s1 o' : Nd true s1 -> Owned s i s1 (obj_refs o') -> Eff1 (set_slot i (Some o') s1).
  Proof.
    intros N O. split.
    - apply fp_set_slot; [exact (nd_fp _ _ N)|exact (owned_ok _ _ O)|exact Ht].
    - apply tb_set_excl; [exact (nd_slots _ _ N)|exact (nd_cnt _ N)|]. exact (fun id => owned_count s i s1 _ id I O).
  Qed.

  Lemma eff_clone : Eff1 (fst (ex_clone s i)).
  Proof.
    unfold ex_clone. destruct (get_slot s i) as [o|] eqn:E; [|auto with eff_noop].
    destruct (is_shared_kind (okind o)) eqn:K; [|auto with eff_noop]. apply shared_not_excl in K. cbn [fst].
    apply (eff_push_shared true _ _ o); [apply nd_refl|exact E|exact K|intros o' [= <-]; exact K|].
    apply ok_acts. rewrite (get_slot_acts _ _ _ E). apply incl_refl.
  Qed.
  Lemma eff_slice a b : Eff1 (fst (ex_slice s i a b)).
  Proof.
    unfold ex_slice. destruct (get_slot s i) as [o|] eqn:E; [|auto with eff_noop].
    (* a slice is a shared object over the very regions of the sliced one *)
    assert (P : forall k hs, is_excl_kind (okind o) = false -> is_excl_kind k = false -> map hreg hs = map hreg (ohs o) ->
                Eff1 (push_slot (Some (mkO k hs [])) s)).
    { intros k hs Ko Kk Hh. apply (eff_push_shared true _ _ o); [apply nd_refl|exact E|exact Ko|apply shared_obj, Kk|].
      apply ok_acts. rewrite (get_slot_acts _ _ _ E). unfold slot_refs, obj_refs. cbn [ohs]. rewrite Hh. apply incl_refl. }
    destruct (okind o) as [|[|[|[|[|[|[|k]]]]]]] eqn:K; auto with eff_noop; destruct (ohs o) as [|v rest]; auto with eff_noop.
    - (* Buffer *) destruct rest; auto with eff_noop. destruct (_ <=? _); auto with eff_noop. apply P; reflexivity.
    - (* Int32Array *) destruct (_ <=? _); auto with eff_noop.
      apply P; [reflexivity|reflexivity|]. cbn [map hreg]. rewrite slice_bits_regs. reflexivity.
    - (* BooleanBuffer *) destruct rest; auto with eff_noop. destruct (_ <=? _); auto with eff_noop. apply P; reflexivity.
    - (* BooleanArray *) destruct (_ <=? _); auto with eff_noop. apply P; [reflexivity|reflexivity|apply slice_bits_regs].
  Qed.
  Lemma eff_drop : Eff1 (fst (ex_drop s i)).
  Proof.
    unfold ex_drop. destruct (get_slot s i); [|auto with eff_noop]. cbn [fst].
    apply (eff_set_shared true); [apply nd_refl|apply shared_none|intros ? []].
  Qed.
  Lemma eff_into_mutable : Eff1 (fst (ex_into_mutable s i)).
  Proof.
    unfold ex_into_mutable. destruct (slot_1 s i 1) as [h|] eqn:E; [|auto with eff_noop].
    destruct (into_mutable_ok s h _) eqn:G; [|cbn; auto with eff_noop]. cbn [fst].
    pose proof (slot_1_uniq _ _ _ _ E (into_mutable_ok_cnt _ _ _ G)) as U.
    apply eff_set_owned; [|apply owned_one; left; exact U]. apply nd_truncate; [apply nd_refl|intros _; exact U].
  Qed.
  Lemma eff_freeze k : Eff1 (fst (ex_freeze s i k)).
  Proof.
    unfold ex_freeze. destruct (slot_1 s i k) as [h|] eqn:E; [|auto with eff_noop]. cbn [fst].
    apply (eff_set_shared true); [apply nd_refl|apply shared_obj; reflexivity|].
    apply ok_acts. rewrite (slot_1_acts _ _ _ _ E). apply incl_refl.
  Qed.
  (* MutableBuffer, Vec and builder write without any check: their type is the guarantee *)
  Lemma eff_write k pos v : is_excl_kind k = true -> Eff1 (fst (ex_write s i k pos v)).
  Proof.
    intros Hk. unfold ex_write. destruct (slot_k s i k) as [[|h t]|] eqn:E; auto with eff_noop.
    destruct (_ <? _); auto with eff_noop. cbn [fst]. apply eff_nodes, nd_write; [apply nd_refl|]. intros _.
    eapply excl_uniq; [exact X|exact Hk|exact E|left; reflexivity].
  Qed.
  Lemma eff_into_vec esz : Eff1 (fst (ex_into_vec s i esz)).
  Proof.
    unfold ex_into_vec. destruct (slot_1 s i 1) as [h|] eqn:E; [|auto with eff_noop].
    destruct (_ || _); [|auto with eff_noop]. destruct (into_vec_ok s h esz _) eqn:G; [|cbn; auto with eff_noop]. cbn [fst].
    pose proof (slot_1_uniq _ _ _ _ E (into_vec_ok_cnt _ _ _ _ G)) as U.
    apply eff_set_owned; [|apply owned_one; left; exact U].
    apply nd_resv; [|left; eapply slot_1_ref; eauto]. apply nd_truncate; [apply nd_refl|intros _; exact U].
  Qed.
  Lemma eff_wrap_bits a b : Eff1 (fst (ex_wrap_bits s i a b)).
  Proof.
    unfold ex_wrap_bits. destruct (slot_1 s i 1) as [h|] eqn:E; [|auto with eff_noop].
    destruct (_ <=? _); [|auto with eff_noop]. cbn [fst].
    apply (eff_set_shared true); [apply nd_refl|apply shared_obj; reflexivity|].
    apply ok_acts. rewrite (slot_1_acts _ _ _ _ E). apply incl_refl.
  Qed.
  Lemma eff_finish : Eff1 (fst (ex_finish s i)).
  Proof.
    unfold ex_finish. destruct (slot_k s i 7) as [hs|] eqn:E; [|auto with eff_noop]. cbn [fst].
    apply (eff_set_shared true); [apply nd_refl|apply shared_obj; reflexivity|].
    apply ok_acts. rewrite (slot_k_acts _ _ _ _ E). apply finish_handles_regs.
  Qed.
  Lemma eff_unary code a b : Eff1 (fst (ex_unary s code i a b)).
  Proof.
    unfold ex_unary. destruct (slot_k s i 4) as [hs|] eqn:E; [|auto with eff_noop].
    destruct (nd_into_builder hs (slot_k_acts _ _ _ _ E)) as (N1 & A1 & HO).
    destruct (into_builder s hs) as [s1 hs1|s1 hs1]; cbn [ib_state ib_handles] in *.
    2:{ cbn [fst]. apply (eff_set_shared true); [exact N1|apply shared_obj; reflexivity|].
        unfold slot_refs, obj_refs. cbn [ohs]. rewrite rebuilt_regs. exact A1. }
    destruct hs1 as [|v rest]; [auto with eff_noop|].
    destruct (nd_builder_values s1 v rest N1 (HO _ _ eq_refl)) as (N2 & O2).
    destruct (builder_values s1 v) as [s2 v']. cbn [fst snd] in *.
    (* the builder owns what into_builder and builder_values handed over *)
    destruct (code =? 16); [cbn [fst]; apply eff_set_owned; assumption|].
    assert (W : forall b0, Eff1 (set_slot i (Some (mkO 4 (finish_handles (write_reg (hreg v') b0 s2) (v' :: rest)) []))
                                  (write_reg (hreg v') b0 s2))).
    { intros b0. apply (eff_set_shared true); [|apply shared_obj; reflexivity|].
      - apply nd_write; [exact N2|]. apply (owned_uniq _ _ _ _ _ O2). left. reflexivity.
      - eapply OkL_incl; [apply finish_handles_regs|]. eapply OkL_mono; [|exact (owned_ok _ _ O2)]. rewrite write_reg_len. lia. }
    destruct (code =? 14); [apply W|]. destruct (try_lanes _ _ _ _) as [vals'|]; [apply W|].
    cbn [fst]. apply (eff_set_shared true); [exact N2|apply shared_none|intros ? []].
  Qed.
  Lemma eff_bit_assign a w : Eff1 (fst (ex_bit_assign s i a w)).
  Proof.
    unfold ex_bit_assign. destruct (slot_1 s i 5) as [h|] eqn:E; [|auto with eff_noop].
    destruct (slot_1 s a 5) as [r|] eqn:Er; [|auto with eff_noop].
    destruct (_ && _); [|auto with eff_noop]. destruct (into_mutable_ok s h _) eqn:G; cbn [fst].
    - assert (U : Uniq s i (hreg h)) by (eapply slot_1_uniq; [exact E|eapply into_mutable_ok_cnt; exact G]).
      apply eff_nodes, nd_write; [apply nd_truncate; [apply nd_refl|]|]; intros _; exact U.
    - apply (eff_set_shared true); [apply nd_region; [apply nd_refl|discriminate]|apply shared_obj; reflexivity|].
      intros id [<-|[]]. apply (nd_fresh_last true), nd_refl.
  Qed.
  Lemma eff_export : Eff1 (fst (ex_export s i)).
  Proof.
    unfold ex_export. destruct (get_slot s i) as [o|] eqn:E; [|auto with eff_noop].
    destruct ((okind o =? 4) || (okind o =? 6)) eqn:K; [|auto with eff_noop].
    assert (A0 : OkL s (map hreg (ohs o))) by (apply ok_acts; rewrite (get_slot_acts _ _ _ E); apply incl_refl).
    destruct (nd_export_arr true s (okind o) true (ohs o) (nd_refl true) A0) as (N1 & Hok).
    destruct (export_arr s (okind o) true (ohs o)) as [s1 e]. cbn [fst snd] in *.
    apply (eff_push_shared false _ _ o); [exact N1|exact E| |apply shared_obj; reflexivity|intros id [<-|[]]; exact Hok].
    unfold is_excl_kind. apply orb_true_iff in K as [K|K]; apply Nat.eqb_eq in K; rewrite K; reflexivity.
  Qed.
  Lemma eff_import : Eff1 (fst (ex_import s i)).
  Proof.
    unfold ex_import. destruct (slot_1 s i 8) as [h|] eqn:E; [|auto with eff_noop].
    destruct (nd_import_arr true s (hreg h) (nd_refl true) (ok_slot_1 s _ _ E)) as (N1 & Hok).
    pose proof (import_arr_kind s (hreg h)) as K1.
    destruct (import_arr s (hreg h)) as [s1 o]. cbn [fst snd] in *.
    apply (eff_set_shared false); assumption.
  Qed.
  Lemma eff_claim : Eff1 (fst (ex_claim s i)).
  Proof.
    unfold ex_claim. destruct (get_slot s i) as [o|] eqn:E; [|auto with eff_noop].
    destruct (_ || _); [|auto with eff_noop]. destruct (all_capk s _); [|auto with eff_noop]. cbn [fst].
    apply eff_nodes, nd_claim_regs; [apply nd_refl|]. intros id Hin. apply in_map_iff in Hin as (h & <- & Hh).
    eapply get_slot_refs; eauto. unfold obj_refs. apply in_map.
    destruct (_ || _); [eapply filter_nulls_incl; eauto|auto].
  Qed.
  Lemma eff_stream_next : Eff1 (fst (ex_stream_next s i)).
  Proof.
    unfold ex_stream_next. destruct (get_slot s i) as [o|] eqn:E; [|auto with eff_noop].
    destruct (okind o =? 9); [|auto with eff_noop]. destruct (oaux o) as [|k ks]; [apply eff_na1|].
    assert (A0 : OkL s (map hreg (ohs o))) by (apply ok_acts; rewrite (get_slot_acts _ _ _ E); apply incl_refl).
    assert (A1 : OkL s (map hreg (firstn k (ohs o)))).
    { intros r Hr. apply in_map_iff in Hr as (h & <- & Hh). apply A0, in_map. eapply In_firstn; eauto. }
    destruct (nd_export_arr true s 4 false (firstn k (ohs o)) (nd_refl true) A1) as (N1 & Hok).
    destruct (export_arr s 4 false (firstn k (ohs o))) as [s1 e]. cbn [fst snd] in *.
    destruct (nd_import_arr false s1 e N1 Hok) as (N2 & Hok2). pose proof (import_arr_kind s1 e) as K2.
    destruct (import_arr s1 e) as [s2 o2]. cbn [fst snd] in *.
    apply (eff_set_push_shared false); [exact N2|apply shared_obj; reflexivity|exact K2| |exact Hok2].
    intros r Hr. apply in_map_iff in Hr as (h & <- & Hh). eapply OkA_mono; [exact (nd_len _ _ N2)|].
    apply A0, in_map. eapply in_skipn'; eauto.
  Qed.
  Lemma eff_truncate a : Eff1 (fst (ex_truncate s i a)).
  Proof.
    unfold ex_truncate. destruct (slot_1 s i 2) as [h|] eqn:E; [|auto with eff_noop].
    destruct (_ <=? _); [|cbn; auto with eff_noop]. cbn [fst].
    assert (U : Uniq s i (hreg h)).
    { eapply (excl_uniq s i 2); [exact X|reflexivity|apply slot_1_k; exact E|left; reflexivity]. }
    apply eff_set_owned; [|apply owned_one; left; exact U].
    assert (N1 : Nd true (truncate_reg s (hreg h) a)) by (apply nd_truncate; [apply nd_refl|intros _; exact U]).
    destruct (get_reg _ (hreg h)) as [r|]; [destruct (r_resv r)|]; try exact N1.
    apply nd_resv; [exact N1|left; eapply slot_1_ref; eauto].
  Qed.
  Lemma eff_take nl : Eff1 (fst (ex_take s i nl)).
  Proof.
    unfold ex_take. destruct (get_slot s i) as [o|] eqn:E; [|auto with eff_noop].
    destruct (_ || _); [|auto with eff_noop].
    (* what is kept is one handle of the array, as a Buffer or a BooleanBuffer *)
    assert (P : forall o', is_excl_kind (okind o') = false -> incl (obj_refs o') (map hreg (ohs o)) -> Eff1 (set_slot i (Some o') s)).
    { intros o' Hk Hr. apply (eff_set_shared true); [apply nd_refl|intros ? [= <-]; exact Hk|].
      apply ok_acts. rewrite (get_slot_acts _ _ _ E). exact Hr. }
    destruct (ohs o) as [|v [|n [|]]]; auto with eff_noop.
    - (* no validity *) destruct nl; [auto with eff_noop|]. cbn [fst].
      apply P; destruct (okind o =? 4); try reflexivity; intros r [<-|[]]; left; reflexivity.
    - (* values and validity *) destruct nl; cbn [fst]; apply P; try (destruct (okind o =? 4)); try reflexivity; intros r [<-|[]]; cbn; auto.
  Qed.

  (* the operations that may take the references of a second slot [a]; [J] as [opR] gives it at their codes *)
  Local Notation J2 a b := (fun j => In j (slots2 i a b)).

  Lemma eff_stream_new a b : (b = 1 -> incl (acts s a) A) -> Eff (J2 a b) (fst (ex_stream_new s i a b)).
  Proof.
    intros Ha. destruct (stream_new_sl s A T i a b Hi Ha) as [->|[S HK]];
      [apply eff_na1|exact (sl_eff true s [] _ _ (nd_refl true) S (fun j o Hj _ => HK j o Hj))].
  Qed.

  (* the array constructors take the validity BooleanBuffer out of the second slot *)
  Lemma eff_wrap k h (g : handle -> bool) a b : is_excl_kind k = false -> OkA s (hreg h) -> (b = 1 -> incl (acts s a) A /\ In a T) ->
    Eff (J2 a b)
        (fst (if b =? 1
              then match slot_1 s a 5 with
                   | Some n => if g n && negb (a =? i)
                               then (set_slot a None (set_slot i (Some (mkO k [h; n] [])) s), 0%Z) else na0 s
                   | None => na0 s end
              else (set_slot i (Some (mkO k [h] [])) s, 0%Z))).
  Proof.
    intros Hk Hh Hb. unfold slots2. destruct (Nat.eqb_spec b 1) as [Eb|_].
    - destruct (Hb Eb) as [Ha Hta]. destruct (slot_1 s a 5) as [n|] eqn:En; [|auto with eff_noop].
      destruct (_ && _); [|auto with eff_noop]. cbn [fst].
      eapply sl_eff; [apply (nd_refl true)| |].
      + apply sl_set; [apply sl_set; [apply sl_base|exact Ht|apply shared_obj, Hk|]|exact Hta|apply shared_none|intros ? []].
        intros id [<-|[<-|[]]]; [exact Hh|]. left. apply Ha. rewrite (slot_1_acts _ _ _ _ En). left. reflexivity.
      + intros j o [<-|[<-|[]]] []; [right; left|left]; reflexivity.
    - cbn [fst]. apply (eff_set_shared true); [apply nd_refl|apply shared_obj, Hk|intros id [<-|[]]; exact Hh].
  Qed.
  Lemma eff_wrap_arr a b : (b = 1 -> incl (acts s a) A /\ In a T) -> Eff (J2 a b) (fst (ex_wrap_arr s i a b)).
  Proof.
    intros Hb. unfold ex_wrap_arr. destruct (slot_1 s i 1) as [h|] eqn:E; [|auto with eff_noop].
    destruct (_ && _); [|auto with eff_noop].
    apply (eff_wrap 4 h (fun n => hbl n =? hlen h / 4)); [reflexivity|exact (ok_slot_1 s _ _ E)|exact Hb].
  Qed.
  Lemma eff_wrap_barr a b : (b = 1 -> incl (acts s a) A /\ In a T) -> Eff (J2 a b) (fst (ex_wrap_barr s i a b)).
  Proof.
    intros Hb. unfold ex_wrap_barr. destruct (slot_1 s i 5) as [h|] eqn:E; [|auto with eff_noop].
    apply (eff_wrap 6 h (fun n => hbl n =? hbl h)); [reflexivity|exact (ok_slot_1 s _ _ E)|exact Hb].
  Qed.
End Exec.

Arguments eff_rawA {s A i T J s1}.
Arguments eff_wr {s A i T J s1}.
Arguments eff_tbj {s A i T J s1}.

(* Each [eff_<op>] is stated for the [J] that [fun j => In j (opR p)] computes to at its code: [In j []] without
   an operand, [In j [i]] with one, [In j (slots2 i a b)] for the three codes that may take a second one. *)
Theorem exec_eff s p : Inv s -> Excl s ->
  Eff s (opA s p) (o_a p) (opT p) (fun j => In j (opR p)) (fst (exec s p)).
Proof.
  intros I X. pose proof (opA_incl s p) as HA. unfold exec, opR, two.
  destruct (o_code p) as [|[|[|c]]] eqn:Ec.
  - (* 0 *) exact (eff_new_std s I _ HA _ X _ _ _).
  - (* 1 *) exact (eff_new_cust s I _ HA _ X _ _ _).
  - (* 2 *) exact (eff_new_mut s I _ HA _ X _ _ _).
  - assert (H3 : 3 <= o_code p) by (rewrite Ec; lia).
    pose proof (opA_a s p H3) as Hi. pose proof (opT_a p H3) as Ht.
    (* the second slot of codes 11, 13 (overwritten) and 23 (kept) *)
    pose proof (opA_b s p) as Hb. pose proof (opT_b p) as Htb. rewrite Ec in Hb, Htb. clear H3.
    destruct c as [|[|[|[|[|[|[|[|[|[|[|[|[|[|[|[|[|[|[|[|[|[|[|[|[|c]]]]]]]]]]]]]]]]]]]]]]]]].
    + (* 3 *) exact (eff_clone s I _ HA _ Hi X _).
    + (* 4 *) exact (eff_slice s I _ HA _ Hi X _ _ _).
    + (* 5 *) exact (eff_drop s I _ HA _ X _ Ht).
    + (* 6 *) exact (eff_into_mutable s I _ HA _ Hi X _ Ht).
    + (* 7 *) exact (eff_freeze s I _ HA _ Hi X _ Ht _).
    + (* 8 *) destruct (slot_k s (o_a p) 2); [exact (eff_write s I _ HA _ X _ 2 _ _ eq_refl)|exact (eff_write s I _ HA _ X _ 3 _ _ eq_refl)].
    + (* 9 *) exact (eff_into_vec s I _ HA _ Hi X _ Ht _).
    + (* 10 *) exact (eff_freeze s I _ HA _ Hi X _ Ht _).
    + (* 11 *) exact (eff_wrap_arr s I _ HA _ Hi X _ Ht _ _ (fun E => conj (Hb (or_introl eq_refl) E) (Htb (or_introl eq_refl) E))).
    + (* 12 *) exact (eff_wrap_bits s I _ HA _ Hi X _ Ht _ _).
    + (* 13 *) exact (eff_wrap_barr s I _ HA _ Hi X _ Ht _ _
                        (fun E => conj (Hb (or_intror (or_introl eq_refl)) E) (Htb (or_intror eq_refl) E))).
    + (* 14 *) exact (eff_unary s I _ HA _ Hi X _ Ht _ _ _).
    + (* 15 *) exact (eff_unary s I _ HA _ Hi X _ Ht _ _ _).
    + (* 16 *) exact (eff_unary s I _ HA _ Hi X _ Ht _ _ _).
    + (* 17 *) exact (eff_finish s I _ HA _ Hi X _ Ht).
    + (* 18 *) exact (eff_write s I _ HA _ X _ 7 _ _ eq_refl).
    + (* 19 *) exact (eff_bit_assign s I _ HA _ X _ Ht _ _).
    + (* 20 *) exact (eff_export s I _ HA _ Hi X _).
    + (* 21 *) exact (eff_import s I _ HA _ Hi X _ Ht).
    + (* 22 *) exact (eff_claim s I _ HA _ X _).
    + (* 23 *) exact (eff_stream_new s I _ HA _ Hi X _ _ _ (Hb (or_intror (or_intror eq_refl)))).
    + (* 24 *) exact (eff_stream_next s I _ HA _ Hi X _ Ht).
    + (* 25 *) exact (eff_truncate s I _ HA _ Hi X _ Ht _).
    + (* 26 *) exact (eff_take s I _ HA _ Hi X _ Ht _).
    + (* 27 *) exact (eff_take s I _ HA _ Hi X _ Ht _).
    + (* any other code does nothing *) exact (eff_refl s I _ HA _ X _ _).
Qed.

Theorem exec_excl s p : Inv s -> Excl s -> Excl (fst (exec s p)).
Proof.
  intros I X. pose proof (exec_eff s p I X) as E.
  exact (excl_assemble s p _ I X (eff_rawA E) (eff_tbj E)).
Qed.

Theorem step_inv s p : Inv s -> Excl s -> Inv (step s p).
Proof. intros I X. unfold step. apply settle_inv; [exact I|]. exact (ra_raw _ _ _ _ (eff_rawA (exec_eff s p I X))). Qed.

Theorem step_excl s p : Inv s -> Excl s -> Excl (step s p).
Proof. intros I X. unfold step. apply excl_settle. apply exec_excl; assumption. Qed.

Theorem run_inv_excl ops : forall s, Inv s -> Excl s -> Inv (run ops s) /\ Excl (run ops s).
Proof.
  induction ops as [|p t IH]; intros s I X; [split; assumption|]. cbn. apply IH; [apply step_inv|apply step_excl]; assumption.
Qed.
