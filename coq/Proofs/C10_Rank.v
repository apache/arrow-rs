(* C10 — rank_impl (sort, reverse when descending, the backwards windows(2) loop) assigns to every slot
   the rank of the specification: nulls before it (when nulls come first) plus the number of valid
   values not after it; ranks embed the comparator's order; boolean_rank's count table is the same
   specification on boolean columns. *)
From Coq Require Import List ZArith Lia Arith Permutation.
From AV Require Import Base.ListX Model.C10_Order Model.C10_Sort Model.C10_Rank Model.C10_Dict Proofs.C10_Cmp Proofs.C10_Sort.

Lemma upd_length l i x : length (upd l i x) = length l.
Proof. revert i. induction l as [|y l IH]; intros [|i]; cbn; auto. Qed.
Lemma upd_same l i x : i < length l -> nth i (upd l i x) 0 = x.
Proof.
  revert i. induction l as [|y l IH]; intros i H; [cbn in H; lia|].
  destruct i as [|i]; [reflexivity|]. cbn in *. apply IH. lia.
Qed.
Lemma upd_other l i j x : j <> i -> nth j (upd l i x) 0 = nth j l 0.
Proof.
  revert i j. induction l as [|y l IH]; intros [|i] [|j] H; cbn; try reflexivity; try congruence.
  apply IH. congruence.
Qed.

Lemma is_eq_c_iff c : is_eq_c c = true <-> c = Eq.
Proof. destruct c; cbn; split; congruence. Qed.

Section Back.
  Context {T : Type} (c : T -> T -> comparison).
  Hypothesis Hc : tpo c.
  Variable veq : T -> T -> bool.
  Hypothesis Hveq : forall x y, veq x y = is_eq_c (c x y).

  Definition cmp_fst (p q : T * nat) : comparison := c (fst p) (fst q).
  (* the pairs of s whose comparison with v passes f: f = not_gt counts those not above v, f = is_eq_c v's ties *)
  Definition count_cmp (f : comparison -> bool) (s : list (T * nat)) (v : T) : nat :=
    length (filter (fun p => f (c (fst p) v)) s).

  Lemma count_cmp_cons f p s v : count_cmp f (p :: s) v = (if f (c (fst p) v) then 1 else 0) + count_cmp f s v.
  Proof. unfold count_cmp. cbn. destruct (f (c (fst p) v)); reflexivity. Qed.

  Lemma count_cmp_ext f s v w : c v w = Eq -> count_cmp f s v = count_cmp f s w.
  Proof.
    intros E. unfold count_cmp. f_equal. apply filter_ext. intros p. now rewrite (tpo_eq_r c Hc v w (fst p) E).
  Qed.

  Lemma count_cmp_none f s v : f Gt = false -> (forall p, In p s -> c (fst p) v = Gt) -> count_cmp f s v = 0.
  Proof.
    intros Hf. induction s as [|p s IH]; intros H; [reflexivity|].
    rewrite count_cmp_cons, (H p (or_introl eq_refl)), Hf. apply IH. intros q Hq. apply H. now right.
  Qed.

  Lemma count_cmp_cons_self f v i s : count_cmp f ((v, i) :: s) v = (if f Eq then 1 else 0) + count_cmp f s v.
  Proof. rewrite count_cmp_cons. cbn [fst]. now rewrite (tpo_refl _ Hc v). Qed.

  Definition write_ranks (f : T -> nat) (s : list (T * nat)) (out : list nat) : list nat :=
    fold_right (fun p o => upd o (snd p) (f (fst p))) out s.

  Lemma write_ranks_ext f g s out : (forall p, In p s -> f (fst p) = g (fst p)) -> write_ranks f s out = write_ranks g s out.
  Proof.
    induction s as [|p s IH]; intros H; [reflexivity|]. cbn. rewrite (H p (or_introl eq_refl)).
    f_equal. apply IH. intros q Hq. apply H. now right.
  Qed.
  Lemma write_ranks_length f s out : length (write_ranks f s out) = length out.
  Proof. induction s as [|p s IH]; [reflexivity|]. cbn. now rewrite upd_length. Qed.
  Lemma write_ranks_other f s out j : ~ In j (map snd s) -> nth j (write_ranks f s out) 0 = nth j out 0.
  Proof.
    induction s as [|p s IH]; intros H; [reflexivity|]. cbn in *.
    rewrite upd_other by (intros ->; apply H; now left). apply IH. intros Hj. apply H. now right.
  Qed.
  Lemma write_ranks_at f s out v i : NoDup (map snd s) -> In (v, i) s -> i < length out -> nth i (write_ranks f s out) 0 = f v.
  Proof.
    induction s as [|p s IH]; intros Hnd Hin Hi; [destruct Hin|].
    change (nth i (upd (write_ranks f s out) (snd p) (f (fst p))) 0 = f v).
    cbn [map] in Hnd. inversion Hnd as [|? ? Hn Hnd']; subst. destruct Hin as [->|Hin].
    - apply upd_same. now rewrite write_ranks_length.
    - rewrite upd_other; [now apply IH|]. intros E. apply Hn. rewrite <- E. now apply (in_map snd) in Hin.
  Qed.

  (* one window of the loop: the first pair joins its successor's run or starts a new one under it *)
  Lemma rank_back_step v i nxt j s top out :
    rank_back veq ((v, i) :: (nxt, j) :: s) top out
    = let '(vr, run, out') := rank_back veq ((nxt, j) :: s) top out in
      if veq v nxt then (vr, S run, upd out' i vr) else (vr - run, 1, upd out' i (vr - run)).
  Proof. reflexivity. Qed.

  (* On a sorted slice every pair gets base + (number of pairs not above it): rank_back s (base + |s|) returns,
     for s = (v, _) :: _, that rank of v, the length of v's run, and the ranks written.  The top rank is written
     as base + |s| so that the loop's `valid_rank -= count` never truncates in nat. *)
  Theorem rank_back_eq : forall s v i base out, le_after cmp_fst (S (length s)) ((v, i) :: s) ->
    rank_back veq ((v, i) :: s) (base + S (length s)) out
    = (base + count_cmp not_gt ((v, i) :: s) v, count_cmp is_eq_c ((v, i) :: s) v,
       write_ranks (fun u => base + count_cmp not_gt ((v, i) :: s) u) ((v, i) :: s) out).
  Proof.
    induction s as [|[nxt j] s'' IH]; intros v i base out [Hhead Hs].
    { unfold count_cmp. cbn. now rewrite (tpo_refl _ Hc v). }
    rewrite rank_back_step. set (s := (nxt, j) :: s'') in *.
    replace (base + S (length s)) with (base + 1 + S (length s'')) by (cbn; lia).
    unfold s at 1. rewrite (IH nxt j (base + 1) out Hs). fold s.
    rewrite Forall_forall in Hhead.
    (* the ranks already written are the ranks in the longer slice: v is not above any later element *)
    rewrite (write_ranks_ext _ (fun u => base + count_cmp not_gt ((v, i) :: s) u) s).
    2: { intros p Hp. apply Hhead, not_gt_iff in Hp. unfold cmp_fst in Hp. cbn [fst] in Hp.
         rewrite count_cmp_cons. cbn [fst]. rewrite Hp. symmetry. apply Nat.add_assoc. }
    rewrite Hveq. destruct (c v nxt) eqn:Evn; cbn [is_eq_c write_ranks fold_right fst snd].
    - rewrite !count_cmp_cons_self, !(count_cmp_ext _ s v nxt Evn), <- Nat.add_assoc. reflexivity.
    - (* strictly below every later element: a new run, starting right under the successor's *)
      assert (Hmin : forall p, In p s -> c nxt (fst p) <> Gt).
      { intros p [<-|Hp]; [cbn; rewrite (tpo_refl _ Hc); discriminate|].
        destruct Hs as [Hh _]. rewrite Forall_forall in Hh. exact (Hh p Hp). }
      assert (Hgt : forall p, In p s -> c (fst p) v = Gt).
      { intros p Hp. rewrite (tpo_antisym _ Hc v), (tpo_lt_le c Hc v nxt _ Evn (Hmin p Hp)). reflexivity. }
      assert (Hle_eq : count_cmp not_gt s nxt = count_cmp is_eq_c s nxt).
      { unfold count_cmp. f_equal. apply filter_ext_in. intros p Hp. specialize (Hmin p Hp).
        rewrite (tpo_antisym _ Hc nxt (fst p)). destruct (c nxt (fst p)); cbn; congruence. }
      rewrite !count_cmp_cons_self, !(count_cmp_none _ s v eq_refl Hgt), Hle_eq, Nat.add_sub. reflexivity.
    - exfalso. apply (Hhead (nxt, j)); [now left|exact Evn].
  Qed.

  Corollary rank_back_out s base out : le_after cmp_fst (length s) s ->
    snd (rank_back veq s (base + length s) out) = write_ranks (fun u => base + count_cmp not_gt s u) s out.
  Proof. destruct s as [|[v i] s]; [reflexivity|]. intros H. cbn [length]. now rewrite rank_back_eq. Qed.
End Back.

Lemma filter_length_perm {A} (f : A -> bool) l l' : Permutation l l' -> length (filter f l) = length (filter f l').
Proof.
  induction 1 as [|x l l' _ IH|x y l|l l' l'' _ IH1 _ IH2]; cbn;
    [reflexivity|destruct (f x); cbn; lia|destruct (f y), (f x); reflexivity|lia].
Qed.

Section RankImpl.
  Context {T : Type}.
  Variable so : (T * nat -> T * nat -> comparison) -> list (T * nat) -> list (T * nat).
  Hypothesis Hso : sort_contract so.
  Variable vc : T -> T -> comparison.
  Hypothesis Hvc : tpo vc.
  Variable veq : T -> T -> bool.
  Hypothesis Hveq : forall x y, veq x y = is_eq_c (vc x y).

  (* what rank_impl writes: a pair (v, i) of valid gets, at i, the number of pairs not after v in the requested
     direction, above the nulls when those come first; every other slot keeps the rank of a null.
     (length valid <= len: rank.rs computes len - valid.len() in usize.) *)
  Theorem rank_impl_spec len valid nf desc : NoDup (map snd valid) -> length valid <= len ->
    let out := rank_impl so veq len valid nf desc vc in
    let nulls := len - length valid in
    length out = len /\
    (forall v i, In (v, i) valid -> i < len ->
       nth i out 0 = (if nf then nulls else 0) + count_cmp (fun x y => rev_if desc (vc x y)) not_gt valid v) /\
    (forall i, i < len -> ~ In i (map snd valid) -> nth i out 0 = if nf then nulls else len).
  Proof.
    intros Hnd Hlen. unfold rank_impl.
    change (fun a b : T * nat => vc (fst a) (fst b)) with (cmp_fst vc).
    assert (Hc0 : tpo (cmp_fst vc)) by (apply (tpo_on (@fst T nat)); exact Hvc).
    destruct (Hso (cmp_fst vc) valid Hc0) as [P0 S0].
    set (s := if desc then rev (so (cmp_fst vc) valid) else so (cmp_fst vc) valid).
    set (cd := fun x y => rev_if desc (vc x y)).
    assert (Ps : Permutation s valid).
    { unfold s. destruct desc; [|exact P0]. now rewrite <- Permutation_rev. }
    assert (Ss : le_after (cmp_fst cd) (length s) s).
    { unfold s, cd. destruct desc; cbn [rev_if].
      - apply (le_after_rev (cmp_fst vc) (so (cmp_fst vc) valid)); [apply Hc0|]. now apply sortedb_le_after.
      - now apply (sortedb_le_after (cmp_fst vc)). }
    assert (Hveq' : forall x y, veq x y = is_eq_c (cd x y)).
    { intros x y. rewrite Hveq. unfold cd. destruct desc; cbn; [|reflexivity]. destruct (vc x y); reflexivity. }
    rewrite <- (Permutation_length Ps).
    set (base := if nf then len - length s else 0). set (null_rank := if nf then len - length s else len).
    replace (if nf then (len, len - length s) else (length s, len)) with (base + length s, null_rank).
    2: { unfold base, null_rank. rewrite (Permutation_length Ps). destruct nf; f_equal. lia. }
    assert (Hnds : NoDup (map snd s)) by (now rewrite Ps).
    pose proof (rank_back_out cd (tpo_rev_if vc desc Hvc) veq Hveq' s base (repeat null_rank len) Ss) as RB.
    destruct (rank_back veq s (base + length s) (repeat null_rank len)) as [[vr run] out']. cbn [snd] in RB. subst out'.
    cbv zeta. split; [now rewrite write_ranks_length, repeat_length|]. split.
    - intros v i Hv Hi. rewrite (write_ranks_at _ s _ v i Hnds) by (rewrite ?repeat_length, ?Ps; assumption).
      unfold count_cmp. now rewrite (filter_length_perm _ _ _ Ps).
    - intros i Hi Hn. rewrite write_ranks_other by (now rewrite Ps).
      rewrite (nth_indep _ 0 null_rank) by (now rewrite repeat_length). apply nth_repeat.
  Qed.
End RankImpl.

Lemma vpf_in k a : forall v i, In (v, i) (valid_pairs_from k a) <-> k <= i /\ nth_error a (i - k) = Some (Some v).
Proof.
  revert k. induction a as [|o a IH]; intros k v i; cbn [valid_pairs_from].
  - split; [intros []|]. intros [_ H]. destruct (i - k); discriminate.
  - rewrite in_app_iff, IH. split.
    + intros [H|[H1 H2]].
      * destruct o as [u|]; [|contradiction]. destruct H as [E|[]]. injection E as <- <-. rewrite Nat.sub_diag. split; [lia|reflexivity].
      * split; [lia|]. replace (i - k) with (S (i - S k)) by lia. exact H2.
    + intros [H1 H2]. destruct (Nat.eq_dec i k) as [->|Ne].
      * rewrite Nat.sub_diag in H2. cbn in H2. injection H2 as ->. left. now left.
      * right. split; [lia|]. replace (i - k) with (S (i - S k)) in H2 by lia. exact H2.
Qed.

Lemma vpf_snd_ge k a : forall i, In i (map snd (valid_pairs_from k a)) -> k <= i.
Proof. intros i H. apply in_map_iff in H. destruct H as ([v j] & <- & H). apply vpf_in in H. cbn. lia. Qed.

Lemma vpf_nodup k a : NoDup (map snd (valid_pairs_from k a)).
Proof.
  revert k. induction a as [|o a IH]; intros k; cbn [valid_pairs_from]; [constructor|].
  rewrite map_app. destruct o as [u|]; cbn; [|apply IH].
  constructor; [|apply IH]. intros H. apply vpf_snd_ge in H. lia.
Qed.

Lemma vpf_count (f : val -> bool) k a :
  length (filter (fun p : val * nat => f (fst p)) (valid_pairs_from k a))
  = length (filter (fun o : oval => match o with Some u => f u | None => false end) a).
Proof.
  revert k. induction a as [|o a IH]; intros k; [reflexivity|]. cbn [valid_pairs_from].
  rewrite filter_app, app_length, (IH (S k)). destruct o as [u|]; cbn; [|reflexivity]. destruct (f u); reflexivity.
Qed.

Lemma vpf_length k a : length (valid_pairs_from k a) + count_nulls a = length a.
Proof.
  revert k. induction a as [|o a IH]; intros k; [reflexivity|]. cbn [valid_pairs_from].
  rewrite app_length. specialize (IH (S k)). unfold count_nulls in *. destruct o; cbn in *; lia.
Qed.

Section RankM.
  Variable so : (val * nat -> val * nat -> comparison) -> list (val * nat) -> list (val * nat).
  Hypothesis Hso : sort_contract so.
  Variable vc : val -> val -> comparison.
  Hypothesis Hvc : tpo vc.
  Variable veq : val -> val -> bool.
  Hypothesis Hveq : forall x y, veq x y = is_eq_c (vc x y).

  Theorem rank_m_spec nf desc a : rank_m so vc veq nf desc a = rank_spec vc nf desc a.
  Proof.
    unfold rank_m, rank_valid_pairs. pose proof (vpf_length 0 a) as Hlen.
    destruct (rank_impl_spec so Hso vc Hvc veq Hveq (length a) (valid_pairs_from 0 a) nf desc (vpf_nodup 0 a))
      as (L & Hv & Hn); [lia|].
    apply (nth_ext _ _ 0 0); [now rewrite L; unfold rank_spec; rewrite map_length|].
    rewrite L. intros j Hj. unfold rank_spec. rewrite (nth_map_lt _ a j 0 None Hj). fold (slot a j).
    replace (length a - length (valid_pairs_from 0 a)) with (count_nulls a) in * by lia.
    destruct (slot a j) as [v|] eqn:Sj.
    - rewrite (Hv v j); [|apply vpf_in; split; [lia|]|exact Hj].
      + unfold count_cmp. now rewrite (vpf_count (fun u => not_gt (rev_if desc (vc u v))) 0 a).
      + rewrite Nat.sub_0_r, <- Sj. now apply slot_nth_error.
    - apply Hn; [exact Hj|]. intros H. apply in_map_iff in H. destruct H as ([u k] & E & Hk). cbn in E. subst k.
      apply vpf_in in Hk. destruct Hk as [_ Hk]. rewrite Nat.sub_0_r in Hk.
      rewrite (slot_nth_error a j Hj), Sj in Hk. discriminate.
  Qed.
End RankM.

(* Ranks embed the order: this is why sorting dictionaries and lists by the ranks of their values is sorting
   by the comparator. *)
Lemma count_le_mono vc desc a u v : tpo vc -> rev_if desc (vc u v) <> Gt -> count_le desc vc a u <= count_le desc vc a v.
Proof.
  intros Hvc H. unfold count_le. induction a as [|o a IH]; [reflexivity|]. cbn.
  destruct o as [w|]; [|exact IH].
  pose proof (tpo_rev_if vc desc Hvc) as (_ & _ & Ht).
  destruct (not_gt (rev_if desc (vc w u))) eqn:E1.
  - apply not_gt_iff in E1. assert (E2 : rev_if desc (vc w v) <> Gt) by (apply (Ht w u v); assumption).
    apply not_gt_iff in E2. rewrite E2. cbn. lia.
  - destruct (not_gt (rev_if desc (vc w v))); cbn; lia.
Qed.

Lemma count_le_strict vc desc a u v : tpo vc -> In (Some v) a ->
  rev_if desc (vc u v) = Lt -> count_le desc vc a u < count_le desc vc a v.
Proof.
  intros Hvc Hv H. destruct (tpo_rev_if vc desc Hvc) as (Hr & Ha & _).
  assert (E1 : not_gt (rev_if desc (vc v u)) = false) by (rewrite (Ha u v), H; reflexivity).
  assert (E2 : not_gt (rev_if desc (vc v v)) = true) by (rewrite (Hr v); reflexivity).
  assert (N : rev_if desc (vc u v) <> Gt) by (rewrite H; congruence).
  destruct (in_split _ _ Hv) as (a1 & a2 & ->).
  pose proof (count_le_mono vc desc a1 u v Hvc N) as M1.
  pose proof (count_le_mono vc desc a2 u v Hvc N) as M2.
  unfold count_le in *. rewrite !filter_app, !app_length. cbn [filter]. rewrite E1, E2. cbn [length]. lia.
Qed.

Lemma count_le_bound vc a v : count_le false vc a v + count_nulls a <= length a.
Proof.
  unfold count_le, count_nulls. induction a as [|o a IH]; [reflexivity|]. cbn [filter].
  destruct o as [u|]; [destruct (not_gt (rev_if false (vc u v)))|]; cbn [length]; lia.
Qed.
Lemma count_le_pos vc a v : c_refl vc -> In (Some v) a -> 1 <= count_le false vc a v.
Proof.
  intros Hr H. unfold count_le. induction a as [|o a IH]; [contradiction|]. cbn [filter]. destruct H as [->|H].
  - cbn [rev_if]. rewrite (Hr v). cbn [not_gt length]. lia.
  - specialize (IH H). destruct o as [u|]; [destruct (not_gt (rev_if false (vc u v)))|]; cbn [length]; lia.
Qed.
Lemma count_nulls_pos a : In None a -> 1 <= count_nulls a.
Proof.
  unfold count_nulls. induction a as [|o a IH]; [contradiction|]. cbn [filter]. intros [->|H]; [cbn [length]; lia|].
  specialize (IH H). destruct o; cbn [length]; lia.
Qed.

Lemma rank_order (vc : val -> val -> comparison) (nf' : bool) (a : list oval) (p q : oval) : tpo vc -> In p a -> In q a ->
  Nat.compare (rank_fn vc nf' a p) (rank_fn vc nf' a q) = ncmp nf' false vc p q.
Proof.
  intros Hvc Hp Hq. pose proof Hvc as (Hr & Ha & _).
  destruct p as [u|], q as [v|]; cbn [rank_fn ncmp rev_if].
  - destruct (vc u v) eqn:E.
    + assert (X : count_le false vc a u <= count_le false vc a v) by (apply (count_le_mono vc false a u v Hvc); cbn; rewrite E; congruence).
      assert (Y : count_le false vc a v <= count_le false vc a u).
      { apply (count_le_mono vc false a v u Hvc). cbn. rewrite (Ha u v), E. cbn. congruence. }
      apply Nat.compare_eq_iff. lia.
    + pose proof (count_le_strict vc false a u v Hvc Hq E). apply Nat.compare_lt_iff. lia.
    + assert (E' : vc v u = Lt) by (rewrite (Ha u v), E; reflexivity).
      pose proof (count_le_strict vc false a v u Hvc Hp E'). apply Nat.compare_gt_iff. lia.
  - pose proof (count_le_pos vc a u Hr Hp). pose proof (count_le_bound vc a u). pose proof (count_nulls_pos a Hq).
    destruct nf'; [apply Nat.compare_gt_iff|apply Nat.compare_lt_iff]; lia.
  - pose proof (count_le_pos vc a v Hr Hq). pose proof (count_le_bound vc a v). pose proof (count_nulls_pos a Hp).
    destruct nf'; [apply Nat.compare_lt_iff|apply Nat.compare_gt_iff]; lia.
  - apply Nat.compare_refl.
Qed.

(* rank_spec slot by slot: the ascending rank of a slot is rank_fn *)
Lemma rank_spec_nth vc nf a k : k < length a -> nth k (rank_spec vc nf false a) 0 = rank_fn vc nf a (nth k a None).
Proof. intros H. unfold rank_spec. now rewrite (nth_map_lt _ a k 0 None H). Qed.

Definition bool_slot (o : oval) : Prop := match o with None => True | Some v => v = VInt 0 \/ v = VInt 1 end.
Definition bool_col (a : list oval) : Prop := Forall bool_slot a.

Definition n_true (a : list oval) : nat := length (filter (fun o : oval => match o with Some (VInt 1) => true | _ => false end) a).
Definition n_false (a : list oval) : nat := length (filter (fun o : oval => match o with Some (VInt 0) => true | _ => false end) a).

Lemma bool_counts a : bool_col a -> count_nulls a + n_true a + n_false a = length a.
Proof.
  induction 1 as [|o a Ho _ IH]; [reflexivity|]. unfold count_nulls, n_true, n_false in *. cbn.
  destruct o as [v|]; cbn; [|lia]. destruct Ho as [->| ->]; cbn; lia.
Qed.

(* the values not after false / not after true, in the requested direction *)
Lemma bool_count desc a : bool_col a ->
  count_le desc (vcmp false) a (VInt 0) = (if desc then n_true a + n_false a else n_false a) /\
  count_le desc (vcmp false) a (VInt 1) = (if desc then n_true a else n_false a + n_true a).
Proof.
  induction 1 as [|o a Ho _ IH]; [now destruct desc|].
  unfold count_le, n_true, n_false in *. cbn [filter].
  destruct o as [v|]; [|exact IH]. destruct Ho as [->| ->]; destruct desc; cbn in *; lia.
Qed.

Lemma rank_index_false : get_boolean_rank_index false false = 0. Proof. reflexivity. Qed.
Lemma rank_index_true : get_boolean_rank_index true false = 1. Proof. reflexivity. Qed.
Lemma rank_index_null : get_boolean_rank_index false true = 2. Proof. reflexivity. Qed.

Theorem boolean_rank_spec nf desc a : bool_col a -> boolean_rank nf desc a = rank_spec (vcmp false) nf desc a.
Proof.
  intros Hb. pose proof (bool_counts a Hb) as Hc. destruct (bool_count desc a Hb) as [C0 C1]. unfold boolean_rank, rank_spec.
  fold (n_true a). apply map_ext_in. intros o Ho.
  assert (Bo : bool_slot o) by (unfold bool_col in Hb; rewrite Forall_forall in Hb; now apply Hb).
  replace (length a - count_nulls a - n_true a) with (n_false a) by lia.
  destruct o as [v|]; [destruct Bo as [->| ->]|]; cbv beta iota zeta.
  - (* false: entry 0 of the table *) rewrite C0, rank_index_false. destruct desc, nf; cbn [nth]; lia.
  - (* true: entry 1 *) rewrite C1, rank_index_true. destruct desc, nf; cbn [nth]; lia.
  - (* null: entry 2 *) rewrite rank_index_null. destruct desc, nf; cbn [nth]; lia.
Qed.
