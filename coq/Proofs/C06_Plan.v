(* C06 — den_and_then for all four backing pairings; then the read plan in terms of rows: select_rows
   turns and_then, offset and limit into filter, skipn and firstn, so that with_predicates,
   build_limited and ReadPlanBuilder::build each do to the selected rows what the reference reader
   does (read_plan_sound: a plan that can be built reads the reference rows); last, the chunks of
   the mask cursor. *)
From Coq Require Import List ZArith Arith Lia.
From AV Require Import Base.ListX Model.C06_RowSel Model.C06_Reader Proofs.C06_AndThen
  Proofs.C06_Construct Proofs.C06_Algebra.
Import ListNotations.

Section Rows.
Context {A : Type}.
Implicit Types rows : list A.

Lemma select_rows_nil_r (l : list bool) : select_rows l (@nil A) = [].
Proof. destruct l; reflexivity. Qed.

Lemma select_rows_and_then a : forall b rows,
  select_rows (and_then_spec a b) rows = select_rows b (select_rows a rows).
Proof.
  induction a as [|x a IH]; intros b rows.
  - cbn [and_then_spec select_rows]. now rewrite select_rows_nil_r.
  - destruct rows as [|r rs]; [now rewrite !select_rows_nil_r|].
    destruct x; cbn [and_then_spec].
    + destruct b as [|y b]; cbn [select_rows].
      * rewrite IH. reflexivity.
      * destruct y; rewrite IH; reflexivity.
    + cbn [select_rows]. apply IH.
Qed.

Lemma select_rows_map_filter (f : A -> bool) rows : select_rows (map f rows) rows = filter f rows.
Proof. induction rows as [|r rs IH]; [reflexivity|]. cbn [map select_rows filter]. now rewrite IH. Qed.

Lemma filter_all_true (f : A -> bool) rows : forallb (fun b => b) (map f rows) = true -> filter f rows = rows.
Proof.
  induction rows as [|r rs IH]; [reflexivity|]. cbn [map forallb filter]. intros H.
  apply andb_prop in H as [H1 H2]. rewrite H1, IH by exact H2. reflexivity.
Qed.

Lemma select_rows_length_le_count l : forall rows, length (select_rows l rows) <= count_true l.
Proof.
  induction l as [|b l IH]; intros [|r rs]; cbn [select_rows count_true length]; try lia.
  specialize (IH rs). destruct b; cbn [length]; lia.
Qed.

Lemma select_rows_length_le_rows l : forall rows, length (select_rows l rows) <= length rows.
Proof.
  induction l as [|b l IH]; intros [|r rs]; cbn [select_rows length]; try lia.
  specialize (IH rs). destruct b; cbn [length]; lia.
Qed.

Lemma select_rows_length_eq l : forall rows,
  length l <= length rows -> length (select_rows l rows) = count_true l.
Proof.
  induction l as [|b l IH]; intros [|r rs] H; cbn [select_rows count_true length] in *; try lia.
  destruct b; cbn [length]; rewrite IH by lia; reflexivity.
Qed.

Lemma select_rows_no_true l : forall rows, count_true l = 0 -> select_rows l rows = [].
Proof.
  intros rows H. pose proof (select_rows_length_le_count l rows) as Hl.
  destruct (select_rows l rows); [reflexivity|cbn [length] in Hl; lia].
Qed.

Lemma select_rows_app_false l k : forall rows, select_rows (l ++ repeat false k) rows = select_rows l rows.
Proof.
  induction l as [|b l IH]; intros rows.
  - cbn [app]. rewrite select_rows_no_true by (rewrite count_true_repeat; reflexivity).
    reflexivity.
  - destruct rows as [|r rs]; [reflexivity|]. cbn [app select_rows]. now rewrite IH.
Qed.

Lemma select_rows_clear_first l : forall n rows,
  select_rows (clear_first n l) rows = skipn n (select_rows l rows).
Proof.
  induction l as [|b l IH]; intros n rows.
  - cbn [clear_first select_rows]. now rewrite skipn_nil.
  - destruct n as [|n]; [reflexivity|]. cbn [clear_first].
    destruct rows as [|r rs]; [now rewrite !select_rows_nil_r, skipn_nil|].
    cbn [select_rows]. rewrite IH. destruct b; reflexivity.
Qed.

Lemma select_rows_offset n l rows : select_rows (offset_spec n l) rows = skipn n (select_rows l rows).
Proof.
  unfold offset_spec. destruct (Nat.eqb_spec n 0) as [->|Hn]; [reflexivity|].
  destruct (Nat.leb_spec (count_true l) n) as [Hle|Hgt].
  - rewrite skipn_all2; [reflexivity|]. pose proof (select_rows_length_le_count l rows). lia.
  - apply select_rows_clear_first.
Qed.

Lemma select_rows_limit l : forall n rows,
  select_rows (limit_spec n l) rows = firstn n (select_rows l rows).
Proof.
  induction l as [|b l IH]; intros n rows.
  - cbn [limit_spec select_rows]. now rewrite firstn_nil.
  - destruct n as [|n]; [reflexivity|]. cbn [limit_spec].
    destruct rows as [|r rs]; [now rewrite !select_rows_nil_r, firstn_nil|].
    cbn [select_rows]. rewrite IH. destruct b; reflexivity.
Qed.

Lemma select_rows_false_run o l : forall rows,
  select_rows (repeat false o ++ l) rows = select_rows l (skipn o rows).
Proof.
  induction o as [|o IH]; intros [|r rs]; cbn [repeat app select_rows skipn]; try reflexivity.
  - now rewrite select_rows_nil_r.
  - apply IH.
Qed.

Lemma select_rows_true_run k : forall rows, select_rows (repeat true k) rows = firstn k rows.
Proof.
  induction k as [|k IH]; intros [|r rs]; cbn [repeat select_rows firstn]; try reflexivity.
  now rewrite IH.
Qed.
End Rows.

Definition sel_rows (sel : option rowsel) (rows : list Z) : list Z :=
  match sel with Some s => select_rows (den s) rows | None => rows end.

Theorem den_and_then a b r :
  and_then a b = Some r -> den r = and_then_spec (den a) (den b).
Proof.
  destruct a as [f|m], b as [s|o]; cbn [and_then den]; intros H;
    apply option_map_some in H as (x & E & ->); cbn [den].
  - (* Sels, Sels *) now apply and_then_sels_spec.
  - (* Sels, Mask *) apply and_then_sels_spec in E. now rewrite mask_to_selectors_dens in E.
  - (* Mask, Sels *) pose proof (and_then_mask_sels_cases m s) as C. now rewrite E in C.
  - (* Mask, Mask *) now apply and_then_masks_spec.
Qed.

Lemma selects_any_false_rows {A} s (rows : list A) : selects_any s = false -> select_rows (den s) rows = [].
Proof. intros H. now apply select_rows_no_true, selects_any_false_count. Qed.

Lemma truncate_empty_rows {A} s (rows : list A) :
  select_rows (den (if selects_any s then s else Sels [])) rows = select_rows (den s) rows.
Proof.
  destruct (selects_any s) eqn:E; [reflexivity|]. rewrite (selects_any_false_rows s) by exact E.
  reflexivity.
Qed.

Lemma build_limited_spec rows sel off lim :
  sel_rows (build_limited (length rows) sel off lim) rows
  = apply_opt lim (@firstn Z) (apply_opt off (@skipn Z) (sel_rows sel rows)).
Proof.
  unfold build_limited.
  set (sel0 := match sel with Some s => if selects_any s then Some s else Some (Sels []) | None => None end).
  assert (H0 : sel_rows sel0 rows = sel_rows sel rows).
  { destruct sel as [s|]; [|reflexivity]. subst sel0. cbn [sel_rows].
    pose proof (truncate_empty_rows s rows) as H. destruct (selects_any s); [reflexivity|exact H]. }
  set (sel1 := match off with None => sel0 | Some o => _ end).
  assert (H1 : sel_rows sel1 rows = apply_opt off (@skipn Z) (sel_rows sel rows)).
  { subst sel1. destruct off as [o|]; cbn [apply_opt]; [|exact H0].
    destruct (Nat.ltb_spec (length rows) o) as [Hlt|Hge].
    - cbn [sel_rows den]. rewrite dens_nil. cbn [select_rows]. rewrite skipn_all2; [reflexivity|].
      destruct sel as [s|]; cbn [sel_rows]; [pose proof (select_rows_length_le_rows (den s) rows)|]; lia.
    - rewrite <- H0. destruct sel0 as [s|]; cbn [sel_rows].
      + rewrite den_offset. apply select_rows_offset.
      + cbn [den]. rewrite from_iter_dens, dens_cons, dens_one. cbn [negb].
        rewrite select_rows_false_run, select_rows_true_run. apply firstn_all2. rewrite skipn_length. lia. }
  destruct lim as [l|]; cbn [apply_opt]; [|exact H1].
  rewrite <- H1. destruct sel1 as [s|]; cbn [sel_rows].
  - rewrite den_limit. apply select_rows_limit.
  - cbn [den]. rewrite from_iter_dens, dens_one. cbn [negb].
    rewrite select_rows_true_run. apply firstn_min_length.
Qed.

Lemma trim_rows {A} s (rows : list A) : select_rows (den (trim s)) rows = select_rows (den s) rows.
Proof.
  destruct s as [l|m]; cbn [trim den].
  - destruct (trim_sels_prefix l) as (k & Hk). rewrite Hk. now rewrite select_rows_app_false.
  - rewrite trim_mask_spec. destruct (trim_spec_prefix m) as (k & Hk). rewrite Hk at 2.
    now rewrite select_rows_app_false.
Qed.

(* through trim_rows, not den_trim: the selection build_limited returns is not known to be
   wf_rowsel, and the rows do not depend on trailing skips whatever their form *)
Lemma plan_rows_spec rows sel : plan_rows rows sel = sel_rows sel rows.
Proof.
  destruct sel as [s|]; [|reflexivity]. cbn [plan_rows sel_rows].
  rewrite trim_rows. apply truncate_empty_rows.
Qed.

Lemma with_predicate_shape rows f sel :
  exists raw, den raw = map f (sel_rows sel rows) /\ nonzero (selectors_of raw) /\
    with_predicate rows f sel =
      if forallb (fun b => b) (map f (sel_rows sel rows)) then Some sel
      else match sel with Some s => option_map Some (and_then s raw) | None => Some (Some raw) end.
Proof.
  unfold with_predicate. fold (sel_rows sel rows). set (filt := map f (sel_rows sel rows)).
  destruct (from_filters_dens [filt]) as (l & Hl & Hdl). cbn [concat] in Hdl. rewrite app_nil_r in Hdl.
  pose proof (from_consecutive_ranges_nonzero _ _ _ Hl) as Hnz.
  destruct sel as [[l0|m0]|].
  - exists (Sels l). rewrite Hl. repeat split; assumption.
  - exists (Mask filt). repeat split. apply mask_to_selectors_nonzero.
  - exists (Sels l). rewrite Hl. repeat split; assumption.
Qed.

Lemma with_predicate_spec rows f sel sel' :
  with_predicate rows f sel = Some sel' -> sel_rows sel' rows = filter f (sel_rows sel rows).
Proof.
  destruct (with_predicate_shape rows f sel) as (raw & Hd & _ & ->).
  destruct (forallb _ _) eqn:Eall.
  - intros [= <-]. symmetry. now apply filter_all_true.
  - destruct sel as [s|]; cbn [sel_rows] in *.
    + intros H. apply option_map_some in H as (r & Ha & ->). apply den_and_then in Ha.
      cbn [sel_rows]. rewrite Ha, select_rows_and_then, Hd. apply select_rows_map_filter.
    + intros [= <-]. cbn [sel_rows]. rewrite Hd. apply select_rows_map_filter.
Qed.

Lemma fold_filter_nil (fs : list (Z -> bool)) : fold_left (fun rs f => filter f rs) fs [] = [].
Proof. induction fs as [|f fs IH]; [reflexivity|]. exact IH. Qed.

(* the loop over the predicates: it stops early once nothing is selected, and then every later
   filter would leave nothing as well *)
Lemma with_predicates_spec rows fs : forall sel sel',
  with_predicates rows fs sel = Some sel' ->
  sel_rows sel' rows = fold_left (fun rs f => filter f rs) fs (sel_rows sel rows).
Proof.
  induction fs as [|f fs IH]; intros sel sel' H; cbn [with_predicates] in H.
  - inversion H. reflexivity.
  - cbn [fold_left].
    destruct (match sel with Some s => selects_any s | None => true end) eqn:Eany.
    + destruct (with_predicate rows f sel) as [sel1|] eqn:E1; [|discriminate].
      apply with_predicate_spec in E1. rewrite <- E1. now apply IH.
    + inversion H; subst sel'. destruct sel as [s|]; [|discriminate].
      cbn [sel_rows]. rewrite selects_any_false_rows by exact Eany. cbn [filter].
      now rewrite fold_filter_nil.
Qed.

Lemma fold_left_map_filter {P} (g : P -> Z -> bool) ps : forall rows,
  fold_left (fun rs f => filter f rs) (map g ps) rows = fold_left (fun rs p => filter (g p) rs) ps rows.
Proof. induction ps as [|p ps IH]; intros rows; [reflexivity|]. cbn [map fold_left]. apply IH. Qed.

(* M = S for the end-to-end suite: whenever the plan can be built (no and_then panic), the rows
   it reads are those of the reference reader *)
Theorem read_plan_sound nullmod rg_counts chosen selection preds off lim ids :
  plan_read nullmod rg_counts chosen selection preds off lim = Some ids ->
  ids = reference_read nullmod rg_counts chosen (option_map den selection) preds off lim.
Proof.
  unfold plan_read, reference_read. set (rows := rows_of rg_counts chosen).
  destruct (with_predicates rows (map (eval_pred nullmod) preds) selection) as [sel|] eqn:E; [|discriminate].
  intros H; inversion H; subst ids. clear H.
  rewrite plan_rows_spec, build_limited_spec. apply with_predicates_spec in E. rewrite E.
  rewrite fold_left_map_filter. destruct selection as [s|]; reflexivity.
Qed.

(* a chunk is (initial_skip, chunk_rows, selected_rows, mask_start, mask bits); mask_start only says
   where the bits lie in the whole mask and no statement looks at it *)
Notation chunk := (nat * nat * nat * nat * list bool)%type.
Definition chunk_bits (c : chunk) : list bool :=
  match c with (isk, _, _, _, bits) => repeat false isk ++ bits end.
Definition chunk_ok (bs : nat) (c : chunk) : Prop :=
  match c with (_, rows, selected, _, bits) =>
    selected <= bs /\ selected = count_true bits /\ rows = length bits /\ 1 <= rows end.

(* on a mask that ends in false leading_false would eat the tail and the last chunk would have no
   row; trim, which runs before the cursor, rules that out (trim_spec_ends_true) *)
Definition ends_true (m : list bool) : Prop := m = [] \/ last m false = true.

Lemma take_selected_spec m : forall bs rows0 sel0, sel0 <= bs ->
  let '(rows, sel, rest) := take_selected m bs rows0 sel0 in
  exists taken, m = taken ++ rest /\ rows = rows0 + length taken /\ sel = sel0 + count_true taken
    /\ sel <= bs /\ (m <> [] -> sel0 < bs -> taken <> []).
Proof.
  induction m as [|b m IH]; intros bs rows0 sel0 Hle; cbn [take_selected].
  - exists []. cbn [app length count_true]. repeat split; [lia|lia|exact Hle|intros H; contradiction].
  - destruct (Nat.ltb_spec sel0 bs) as [Hlt|Hge].
    + specialize (IH bs (S rows0) (if b then S sel0 else sel0)).
      destruct (take_selected m bs (S rows0) (if b then S sel0 else sel0)) as [[rows sel] rest].
      destruct IH as (taken & -> & -> & -> & Hs & _); [destruct b; lia|].
      exists (b :: taken). cbn [app length count_true].
      repeat split; [lia|destruct b; lia|exact Hs|discriminate].
    + exists []. cbn [app length count_true]. repeat split; lia.
Qed.

Lemma leading_false_spec m :
  m = repeat false (leading_false m) ++ skipn (leading_false m) m
  /\ (count_true m <> 0 -> skipn (leading_false m) m <> []).
Proof.
  induction m as [|b m [IH1 IH2]]; [split; [reflexivity|cbn; lia]|].
  destruct b; cbn [leading_false skipn repeat app count_true].
  - split; [reflexivity|discriminate].
  - split; [now rewrite <- IH1|exact IH2].
Qed.

Lemma ends_true_app a : forall rest, ends_true (a ++ rest) -> ends_true rest.
Proof.
  induction a as [|x a IH]; intros rest H; [exact H|]. apply IH.
  destruct H as [H|H]; [discriminate|]. cbn [app] in H.
  destruct (a ++ rest); [now left|now right].
Qed.

Lemma ends_true_count m : ends_true m -> m <> [] -> count_true m <> 0.
Proof.
  intros [->|H] Hne; [contradiction|].
  rewrite (app_removelast_last false Hne), H, count_true_app. cbn. lia.
Qed.

Lemma mask_chunks_spec fuel : forall m pos bs,
  1 <= bs -> length m < fuel -> ends_true m ->
  flat_map chunk_bits (mask_chunks fuel m pos bs) = m /\ Forall (chunk_ok bs) (mask_chunks fuel m pos bs).
Proof.
  induction fuel as [|fuel IH]; intros m pos bs Hbs Hf He; [lia|].
  cbn [mask_chunks]. destruct m as [|b0 m0]; [split; [reflexivity|constructor]|].
  set (m := b0 :: m0) in *.
  destruct (leading_false_spec m) as [Hm Hne].
  set (isk := leading_false m) in *. set (m1 := skipn isk m) in *.
  assert (Hm1 : m1 <> []) by (apply Hne, ends_true_count; [exact He|discriminate]).
  pose proof (take_selected_spec m1 bs 0 0 (Nat.le_0_l bs)) as Ht.
  destruct (take_selected m1 bs 0 0) as [[rows sel] rest].
  destruct Ht as (taken & Hm1e & -> & -> & Hsel & Hne'). specialize (Hne' Hm1 Hbs). cbn [Nat.add] in *.
  assert (Hf1 : firstn (length taken) m1 = taken).
  { rewrite Hm1e. now apply firstn_app_exact. }
  assert (Hlen : length m = isk + (length taken + length rest)).
  { rewrite Hm at 1. now rewrite Hm1e, !app_length, repeat_length. }
  destruct (IH rest (pos + isk + length taken) bs Hbs) as [IH1 IH2].
  { destruct taken; [contradiction|cbn [length] in Hlen; lia]. }
  { apply (ends_true_app (repeat false isk ++ taken)). now rewrite <- app_assoc, <- Hm1e, <- Hm. }
  split.
  - cbn [flat_map chunk_bits]. rewrite Hf1, IH1, <- app_assoc, <- Hm1e. symmetry. exact Hm.
  - constructor; [|exact IH2]. cbn [chunk_ok]. rewrite Hf1.
    repeat split; [exact Hsel|]. destruct taken; [contradiction|cbn [length]; lia].
Qed.

Lemma trim_spec_ends_true l : ends_true (trim_spec l).
Proof.
  induction l as [|b l IH] using rev_ind; [now left|]. rewrite trim_spec_snoc.
  destruct b; [right; apply last_last|exact IH].
Qed.

Lemma trim_spec_no_true l : count_true l = 0 -> trim_spec l = [].
Proof.
  intros H. pose proof (trim_spec_ends_true l) as He. destruct (trim_spec_prefix l) as (k & Hk).
  rewrite Hk, count_true_app in H. destruct (trim_spec l) as [|b t]; [reflexivity|].
  exfalso. apply (ends_true_count _ He); [discriminate|lia].
Qed.

(* the chunks of a Mask-policy plan tile the trimmed selection; each selects at most [bs] rows *)
Theorem plan_mask_spec s bs : wf_rowsel s -> 1 <= bs ->
  flat_map chunk_bits (plan_mask s bs) = trim_spec (den s)
  /\ Forall (chunk_ok bs) (plan_mask s bs).
Proof.
  intros Hwf Hbs. unfold plan_mask, mask_of.
  set (s1 := if selects_any s then s else Sels []).
  assert (Hwf1 : wf_rowsel s1) by (subst s1; destruct (selects_any s); [exact Hwf|constructor]).
  assert (Hd : den (trim s1) = trim_spec (den s)).
  { rewrite den_trim by exact Hwf1. subst s1. destruct (selects_any s) eqn:E; [reflexivity|].
    cbn [den]. rewrite dens_nil. symmetry. apply trim_spec_no_true. now apply selects_any_false_count. }
  rewrite Hd. apply mask_chunks_spec; [exact Hbs|lia|apply trim_spec_ends_true].
Qed.
