(* C07 — min/max accumulation: get_min_max, update_min/update_max and their folds over mini-batches
   and pages compute least elements, for any comparison that is the strict part of a total preorder,
   of the order that puts every NaN after every other value ([nan_last]): the bounds are attained,
   bound every value that is not NaN, and are NaN only when every value is. *)
From Coq Require Import List Lia Bool.
From AV Require Import Model.C07_Stats.
Import ListNotations.

Lemma fold_left_concat_inv {S A} (step : S -> list A -> S) (I : list A -> S -> Prop) :
  (forall seen st s, I seen st -> I (seen ++ s) (step st s)) ->
  forall bs st, I [] st -> I (concat bs) (fold_left step bs st).
Proof.
  intros Hstep bs. change (concat bs) with ([] ++ concat bs). generalize (@nil A).
  induction bs as [|s r IH]; intros seen st H; cbn [fold_left concat]; [now rewrite app_nil_r|].
  rewrite app_assoc. apply IH. now apply Hstep.
Qed.

Section MinMaxProofs.
  Variable T : Type.
  Variable gt : T -> T -> bool.
  Variable nan : T -> bool.
  Variable le : T -> T -> bool.
  Hypothesis le_trans : forall a b c, le a b = true -> le b c = true -> le a c = true.
  Hypothesis le_total : forall a b, le a b = true \/ le b a = true.
  Hypothesis gt_spec : forall a b, gt a b = negb (le a b).

  Definition count_nan (l : list T) := length (filter nan l).

  (* Minimum and maximum are one notion, for an order and for its converse: everything is said
     once, for a total preorder [ord] whose strict converse is the comparison [g]. *)
  Definition total_preorder (ord g : T -> T -> bool) : Prop :=
    (forall a b c, ord a b = true -> ord b c = true -> ord a c = true) /\
    (forall a b, ord a b = true \/ ord b a = true) /\
    (forall a b, g a b = negb (ord a b)).
  Definition flip (f : T -> T -> bool) (a b : T) := f b a.
  (* the section's hypotheses are those of the theorems at its end; the lemmas take them packed, since
     each is used for [le] and for its converse *)
  Lemma le_ok : total_preorder le gt.
  Proof. now repeat split. Qed.
  Lemma ge_ok : total_preorder (flip le) (flip gt).
  Proof. unfold flip. repeat split; eauto. Qed.

  Definition least (ord : T -> T -> bool) (R : list T) (m : T) := In m R /\ forall v, In v R -> ord m v = true.

  Lemma g_true ord g a b : total_preorder ord g -> g a b = true -> ord b a = true.
  Proof.
    intros (_ & Tot & Sp). rewrite Sp. intros H. apply negb_true_iff in H. destruct (Tot a b); congruence.
  Qed.
  Lemma g_false ord g a b : total_preorder ord g -> g a b = false -> ord a b = true.
  Proof. intros (_ & _ & Sp). rewrite Sp. apply negb_false_iff. Qed.

  Lemma least_single ord g v : total_preorder ord g -> least ord [v] v.
  Proof. intros (_ & Tot & _). split; [now left|]. intros w [<-|[]]. now destruct (Tot v v). Qed.

  Lemma least_merge ord g R S a b : total_preorder ord g ->
    least ord R a -> least ord S b -> least ord (R ++ S) (if g a b then b else a).
  Proof.
    intros ok [Ia Ha] [Ib Hb]. pose proof (proj1 ok) as Tr. destruct (g a b) eqn:E.
    - apply (g_true ord g _ _ ok) in E. split; [apply in_or_app; now right|].
      intros v Hv. apply in_app_or in Hv as [Hv|Hv]; eauto.
    - apply (g_false ord g _ _ ok) in E. split; [apply in_or_app; now left|].
      intros v Hv. apply in_app_or in Hv as [Hv|Hv]; eauto.
  Qed.

  (* The NaN rule of update_min/update_max and of get_min_max,
       (bound non-NaN, value NaN) keep;  (bound NaN, value non-NaN) take the value;  otherwise compare,
     is "take the lesser" in the order that puts every NaN after every other value: a NaN is a bound
     only while nothing else has been seen. *)
  Definition nan_last (ord : T -> T -> bool) (a b : T) : bool := if nan a then nan b && ord a b else nan b || ord a b.
  Definition nan_last_gt (g : T -> T -> bool) (a b : T) : bool :=
    if nan a then negb (nan b) || g a b else negb (nan b) && g a b.
  Definition pick (g : T -> T -> bool) (m v : T) : T := if nan_last_gt g m v then v else m.

  Lemma nan_last_ok ord g : total_preorder ord g -> total_preorder (nan_last ord) (nan_last_gt g).
  Proof.
    intros (Tr & Tot & Sp). unfold nan_last, nan_last_gt. repeat split.
    - intros a b c. destruct (nan a), (nan b), (nan c); cbn [andb orb]; try easy; apply Tr.
    - intros a b. destruct (nan a), (nan b); cbn [andb orb]; auto.
    - intros a b. rewrite Sp. now destruct (nan a), (nan b).
  Qed.

  Lemma nan_last_nonnan ord a v : nan v = false -> nan_last ord a v = true -> nan a = false /\ ord a v = true.
  Proof. unfold nan_last. intros ->. destruct (nan a); [discriminate|auto]. Qed.

  Lemma pick_nan g m v : nan (pick g m v) = nan m && nan v.
  Proof. unfold pick, nan_last_gt. destruct (nan m) eqn:Nm, (nan v) eqn:Nv; cbn [negb andb orb]; try congruence; now destruct (g m v). Qed.

  Definition extremum (ord : T -> T -> bool) := least (nan_last ord).
  Definition is_min := extremum le.
  Definition is_max := extremum (flip le).

  Lemma extremum_union ord g A B a b : total_preorder ord g ->
    extremum ord A a -> extremum ord B b -> extremum ord (A ++ B) (pick g a b).
  Proof. intros ok. exact (least_merge _ _ A B a b (nan_last_ok ord g ok)). Qed.

  Lemma extremum_single ord g v : total_preorder ord g -> extremum ord [v] v.
  Proof. intros ok. exact (least_single _ _ v (nan_last_ok ord g ok)). Qed.

  Lemma extrema_agree l mn mx : is_min l mn -> is_max l mx -> nan mx = nan mn /\ le mn mx = true.
  Proof.
    intros [Imn Hmn] [Imx Hmx]. specialize (Hmn mx Imx). specialize (Hmx mn Imn). unfold nan_last, flip in *.
    destruct (nan mn), (nan mx); cbn [andb orb] in *; try discriminate; now split.
  Qed.

  Lemma update_min_some g v m : update_min g nan v (Some m) = Some (pick g m v).
  Proof. unfold update_min, pick, nan_last_gt. destruct (nan m), (nan v); try reflexivity; now destruct (g m v). Qed.
  Lemma update_max_flip v cur : update_max gt nan v cur = update_min (flip gt) nan v cur.
  Proof. reflexivity. Qed.
  Lemma update_max_some v m : update_max gt nan v (Some m) = Some (pick (flip gt) m v).
  Proof. rewrite update_max_flip. apply update_min_some. Qed.

  Lemma count_nan_app a b : count_nan (a ++ b) = count_nan a + count_nan b.
  Proof. unfold count_nan. now rewrite filter_app, app_length. Qed.
  Lemma count_nan_single v : count_nan [v] = if nan v then 1 else 0.
  Proof. unfold count_nan. cbn [filter]. destruct (nan v); reflexivity. Qed.

  (* one iteration of the loop is a pair of picks (the `else if` never loses a maximum because
     a value below the minimum cannot exceed the maximum) *)
  Lemma gmm_loop_step v vs mn mx cnt :
    nan mx = nan mn -> le mn mx = true ->
    gmm_loop gt nan (v :: vs) mn mx (nan mn) cnt =
    gmm_loop gt nan vs (pick gt mn v) (pick (flip gt) mx v) (nan mn && nan v) (if nan v then S cnt else cnt).
  Proof.
    intros Nmx L. cbn [gmm_loop]. unfold pick, nan_last_gt, flip. rewrite Nmx.
    assert (X : gt mn v = true -> gt v mx = false).
    { intros G1. apply (g_true le gt _ _ le_ok) in G1. rewrite gt_spec. apply negb_false_iff.
      eapply le_trans; [exact G1|exact L]. }
    destruct (nan mn), (nan v); cbn [negb andb orb].
    - destruct (gt mn v) eqn:G1; [now rewrite (X eq_refl)|now destruct (gt v mx)].
    - reflexivity.
    - reflexivity.
    - destruct (gt mn v) eqn:G1; [now rewrite (X eq_refl)|now destruct (gt v mx)].
  Qed.

  (* The loop's flag min_max_nan is [nan mn] throughout: the statement says so by putting [nan mn] in
     the flag's place, and after a step the new flag [nan mn && nan v] is [nan] of the new minimum (pick_nan). *)
  Lemma gmm_loop_spec vs : forall seen mn mx cnt,
    is_min seen mn -> is_max seen mx -> cnt = count_nan seen ->
    forall mn' mx' c', gmm_loop gt nan vs mn mx (nan mn) cnt = (mn', mx', c') ->
    is_min (seen ++ vs) mn' /\ is_max (seen ++ vs) mx' /\ c' = count_nan (seen ++ vs).
  Proof.
    induction vs as [|v vs IH]; intros seen mn mx cnt Hmn Hmx Hcnt mn' mx' c' H.
    - cbn [gmm_loop] in H. inversion H; subst. now rewrite app_nil_r.
    - replace (seen ++ v :: vs) with ((seen ++ [v]) ++ vs) by (now rewrite <- app_assoc).
      destruct (extrema_agree seen mn mx Hmn Hmx) as [Nmx L].
      rewrite (gmm_loop_step v vs mn mx cnt Nmx L), <- (pick_nan gt) in H.
      eapply IH; [| | |exact H].
      + apply (extremum_union le gt _ _ _ _ le_ok Hmn), (extremum_single le gt _ le_ok).
      + apply (extremum_union (flip le) (flip gt) _ _ _ _ ge_ok Hmx), (extremum_single _ _ _ ge_ok).
      + rewrite count_nan_app, count_nan_single, Hcnt. destruct (nan v); lia.
  Qed.

  Theorem get_min_max_spec vs mn mx c : get_min_max gt nan vs = Some (mn, mx, c) ->
    is_min vs mn /\ is_max vs mx /\ c = count_nan vs.
  Proof.
    destruct vs as [|f r]; [discriminate|]. cbn [get_min_max]. intros H. inversion H as [H1]. clear H.
    change (f :: r) with ([f] ++ r).
    eapply gmm_loop_spec; [apply (extremum_single le gt _ le_ok)|apply (extremum_single _ _ _ ge_ok)| |exact H1].
    now rewrite count_nan_single.
  Qed.

  Lemma get_min_max_none vs : get_min_max gt nan vs = None -> vs = [].
  Proof. destruct vs; [reflexivity|discriminate]. Qed.

  (* What a pair of optional bounds says of the values seen so far; kept by every layer that merges
     new extrema with update_min/update_max (mini-batches into a page, pages into a chunk). *)
  Definition bounds (seen : list T) (mn mx : option T) : Prop :=
    match mn, mx with
    | None, None => seen = []
    | Some a, Some b => is_min seen a /\ is_max seen b
    | _, _ => False
    end.

  Lemma bounds_update seen s a b mn mx : is_min s a -> is_max s b -> bounds seen mn mx ->
    bounds (seen ++ s) (update_min gt nan a mn) (update_max gt nan b mx).
  Proof.
    intros Ia Ib. destruct mn as [a0|], mx as [b0|]; cbn [bounds].
    - intros [Ha Hb]. rewrite update_min_some, update_max_some.
      split; [exact (extremum_union le gt _ _ _ _ le_ok Ha Ia)|exact (extremum_union _ _ _ _ _ _ ge_ok Hb Ib)].
    - intros [].
    - intros [].
    - intros ->. now split.
  Qed.

  Lemma bounds_sound vs a b : is_min vs a -> is_max vs b ->
    In a vs /\ In b vs /\
    forall v, In v vs -> nan v = false -> nan a = false /\ nan b = false /\ le a v = true /\ le v b = true.
  Proof.
    intros [Ia Ha] [Ib Hb]. split; [exact Ia|]. split; [exact Ib|]. intros v Hv Nv.
    destruct (nan_last_nonnan le a v Nv (Ha v Hv)) as [Na La].
    destruct (nan_last_nonnan (flip le) b v Nv (Hb v Hv)) as [Nb Lb]. auto.
  Qed.

  (* the writer's NaN count stays None until the first non-empty slice (write_slice leaves the state
     alone on an empty one) *)
  Definition st_ok (float : bool) (seen : list T) (st : enc_state T) : Prop :=
    let '(mn, mx, nc) := st in
    bounds seen mn mx /\
    (float = true -> match nc with Some n => n = count_nan seen | None => seen = [] end).

  Lemma st_ok_init float : st_ok float [] (None, None, None).
  Proof. split; reflexivity. Qed.

  Lemma write_slice_ok float seen st s : st_ok float seen st -> st_ok float (seen ++ s) (write_slice gt nan float s st).
  Proof.
    destruct st as [[mn0 mx0] nc0]. intros [Hm Hn]. unfold write_slice.
    destruct (get_min_max gt nan s) as [[[mn mx] c]|] eqn:E.
    - apply get_min_max_spec in E as (Imn & Imx & Ec). split; [now apply bounds_update|].
      intros Hf. specialize (Hn Hf). rewrite Hf. rewrite count_nan_app, Ec.
      destruct nc0 as [n|]; [subst n; lia|]. subst seen. cbn. lia.
    - apply get_min_max_none in E. subst s. rewrite app_nil_r. now split.
  Qed.

  Theorem minmax_fold_bounds float batches mn mx nc :
    fold_left (fun st s => write_slice gt nan float s st) batches (None, None, None) = (Some mn, Some mx, nc) ->
    let vs := concat batches in
    In mn vs /\ In mx vs /\
    (forall v, In v vs -> nan v = false ->
       nan mn = false /\ nan mx = false /\ le mn v = true /\ le v mx = true) /\
    (float = true -> nc = Some (count_nan vs)).
  Proof using le_trans le_total gt_spec.
    intros H vs. subst vs.
    pose proof (fold_left_concat_inv _ (st_ok float) (write_slice_ok float) batches _ (st_ok_init float)) as K.
    rewrite H in K. destruct K as [[Ha Hb] Kn].
    destruct (bounds_sound _ mn mx Ha Hb) as (I1 & I2 & B). split; [exact I1|]. split; [exact I2|]. split; [exact B|].
    intros Hf. specialize (Kn Hf). destruct nc as [n|]; [now subst|]. rewrite Kn in I1. destruct I1.
  Qed.

  (* the values that count: the non-NaN ones, or all of them when every value is NaN *)
  Definition nonnan (x : T) := negb (nan x).
  Definition nn (l : list T) := filter nonnan l.
  Definition has (l : list T) := existsb nonnan l.
  Definition relevant (l : list T) := if has l then nn l else l.

  Lemma relevant_nonempty l : l <> [] -> relevant l <> [].
  Proof.
    unfold relevant. destruct (has l) eqn:E; [|auto]. intros _ N.
    unfold has in E. apply existsb_exists in E as [x [Hx Hn]].
    assert (In x (nn l)) by (apply filter_In; split; assumption). rewrite N in H. destruct H.
  Qed.
End MinMaxProofs.
