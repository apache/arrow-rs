(* C05 — DELTA_BINARY_PACKED: the block / mini-block decoder inverts the encoder, including wrapping
   deltas (i32/i64 MIN/MAX), bit-width-0 mini blocks (constant and arithmetic-progression fast paths)
   and the zero-padded last mini block. *)
From Coq Require Import List NArith ZArith Lia.
From AV Require Import Base.ListX Model.C05_Enc Proofs.C05_Bits Proofs.C05_Wrap.
Import ListNotations.

Lemma fold_max_spec : forall l d, (d <= zmax_list d l)%Z /\ (forall x, In x l -> (x <= zmax_list d l)%Z) /\
  In (zmax_list d l) (d :: l).
Proof.
  unfold zmax_list. induction l as [|y l IH]; intros d; cbn [fold_left].
  - repeat split; [lia|intros x []|left; reflexivity].
  - destruct (IH (Z.max d y)) as (A & B & C). repeat split.
    + lia.
    + intros x [<-|Hx]; [lia|apply B, Hx].
    + destruct C as [C|C]; [|right; right; exact C].
      rewrite <- C. destruct (Z.max_spec d y) as [[_ E]|[_ E]]; rewrite E; [right; left|left]; reflexivity.
Qed.

Lemma fold_min_spec : forall l d, (zmin_list d l <= d)%Z /\ (forall x, In x l -> (zmin_list d l <= x)%Z) /\
  In (zmin_list d l) (d :: l).
Proof.
  unfold zmin_list. induction l as [|y l IH]; intros d; cbn [fold_left].
  - repeat split; [lia|intros x []|left; reflexivity].
  - destruct (IH (Z.min d y)) as (A & B & C). repeat split.
    + lia.
    + intros x [<-|Hx]; [lia|apply B, Hx].
    + destruct C as [C|C]; [|right; right; exact C].
      rewrite <- C. destruct (Z.min_spec d y) as [[_ E]|[_ E]]; rewrite E; [left|right; left]; reflexivity.
Qed.

Lemma nbits_gt x : (x < 2^N.of_nat (nbits x))%N.
Proof. unfold nbits. rewrite N2Nat.id. apply N.size_gt. Qed.

Lemma nbits_le x k : (x < 2^k)%N -> (N.of_nat (nbits x) <= k)%N.
Proof.
  intros H. unfold nbits. rewrite N2Nat.id.
  destruct (N.eq_dec x 0) as [->|Hx]; [cbn; lia|].
  pose proof (N.size_le x) as Hs. rewrite N.succ_double_spec in Hs.
  assert (Hlt : (2^N.size x < 2^N.succ k)%N) by (rewrite N.pow_succ_r'; lia).
  apply N.pow_lt_mono_r_iff in Hlt; lia.
Qed.

Lemma take_bytes_app n a rest : length a = n -> take_bytes n (a ++ rest) = Some (a, rest).
Proof.
  intros H. unfold take_bytes. rewrite ltb_app_exact, firstn_app_exact, skipn_app_exact by exact H. reflexivity.
Qed.

Lemma in_range_i64 tw z : (0 < tw)%N -> (tw <= 64)%N -> in_range tw z -> (- 2^63 <= z < 2^63)%Z.
Proof.
  unfold in_range, Hz. intros Hp Hl H.
  assert (Hpw : (2^(tw - 1) <= 2^63)%N) by (apply N.pow_le_mono_r; lia).
  change (2^63)%Z with (Z.of_N (2^63)). lia.
Qed.

Lemma enc_blocks_S fuel tw mini ds : ds <> [] ->
  enc_blocks (S fuel) tw mini ds = enc_block tw mini (firstn (4 * mini) ds) ++ enc_blocks fuel tw mini (skipn (4 * mini) ds).
Proof. destruct ds; [contradiction|reflexivity]. Qed.

Section D.
Variable tw : N.
Hypothesis tw_pos : (0 < tw)%N.
(* a mini block is a whole number of bytes at every width (mini_bytes); delta_geometry gives m8 = 4 or 8 *)
Variable m8 : nat.
Hypothesis m8_pos : (0 < m8)%nat.
Variable mini : nat.
Hypothesis mini_eq : mini = (8 * m8)%nat.
Notation in_tw := (in_range tw).

(* what decoding has to produce: the values rebuilt from the deltas, each sum wrapped at tw *)
Fixpoint recon (last : Z) (ds : list Z) : list Z :=
  match ds with [] => [] | d :: r => let v := wrap_s tw (last + d)%Z in v :: recon v r end.

Lemma recon_deltas : forall vs prev, Forall in_tw vs -> recon prev (deltas_of tw prev vs) = vs.
Proof.
  induction vs as [|v vs IH]; intros prev Hr; [reflexivity|].
  inversion Hr as [|? ? Hv Hvs]; subst. cbn [deltas_of recon].
  rewrite wrap_s_add_r by exact tw_pos. replace (prev + (v - prev))%Z with v by ring. rewrite wrap_s_id by assumption.
  f_equal. apply IH, Hvs.
Qed.

Lemma deltas_in_range : forall vs prev, Forall in_tw (deltas_of tw prev vs).
Proof. induction vs as [|v vs IH]; intros prev; cbn [deltas_of]; constructor; [apply wrap_s_range, tw_pos|apply IH]. Qed.

Lemma deltas_length : forall vs prev, length (deltas_of tw prev vs) = length vs.
Proof. induction vs as [|v vs IH]; intros prev; cbn [deltas_of length]; [reflexivity|]. f_equal. apply IH. Qed.

Lemma recon_app : forall a b last, recon last (a ++ b) = recon last a ++ recon (List.last (recon last a) last) b.
Proof.
  induction a as [|x a IH]; intros b last; [reflexivity|].
  cbn [app recon]. f_equal. rewrite IH. rewrite last_cons. reflexivity.
Qed.

Lemma recon_length : forall ds last, length (recon last ds) = length ds.
Proof. induction ds as [|d ds IH]; intros last; cbn [recon length]; [reflexivity|]. f_equal. apply IH. Qed.

Lemma recon_range : forall ds last, Forall in_tw (recon last ds).
Proof. induction ds as [|d ds IH]; intros last; cbn [recon]; constructor; [apply wrap_s_range, tw_pos|apply IH]. Qed.

Lemma last_in_range l d : Forall in_tw l -> in_tw d -> in_tw (List.last l d).
Proof.
  revert d; induction l as [|x l IH]; intros d Hl Hd; [exact Hd|].
  inversion Hl; subst. rewrite last_cons. apply IH; assumption.
Qed.

Lemma prefix_sums_recon minv : in_tw minv -> forall ds last, Forall in_tw ds -> Forall (fun d => (minv <= d)%Z) ds ->
  prefix_sums tw last minv (map (fun d => to_unsigned tw (d - minv)) ds) = recon last ds.
Proof.
  intros Hm. induction ds as [|d ds IH]; intros last Hr Hge; [reflexivity|].
  inversion Hr; inversion Hge; subst. cbn [map prefix_sums recon].
  rewrite to_unsigned_diff, wrap_s_add_l by assumption.
  replace (d - minv + minv + last)%Z with (last + d)%Z by lia.
  f_equal. apply IH; assumption.
Qed.

(* the width-0 path keeps [last] fixed and lets [delta] grow by min_delta: x0 is the value before the next one,
   last + delta - minv up to a multiple of 2^tw *)
Lemma progression_recon minv : forall n last delta x0, (exists q, x0 = last + delta - minv + q * Mz tw)%Z ->
  progression tw last delta minv n = recon x0 (repeat minv n).
Proof.
  induction n as [|n IH]; intros last delta x0 (q & E); [reflexivity|].
  cbn [progression repeat recon].
  assert (Eh : wrap_s tw (last + delta) = wrap_s tw (x0 + minv)).
  { symmetry. apply (wrap_s_eq tw tw_pos _ _ q). lia. }
  rewrite Eh. f_equal. apply IH.
  destruct (wrap_s_cong tw tw_pos (x0 + minv)) as (q1 & E1). destruct (wrap_s_cong tw tw_pos (delta + minv)) as (q2 & E2).
  exists (q1 + q - q2)%Z. lia.
Qed.

Lemma recon_zero : forall n last, in_tw last -> recon last (repeat 0%Z n) = repeat last n.
Proof.
  induction n as [|n IH]; intros last Hl; [reflexivity|].
  cbn [repeat recon]. rewrite Z.add_0_r, wrap_s_id by assumption. f_equal. apply IH, Hl.
Qed.

Lemma mini_bytes w : (mini * w / 8 = m8 * w)%nat.
Proof. rewrite mini_eq, <- Nat.mul_assoc, Nat.mul_comm. apply Nat.div_mul. discriminate. Qed.

Lemma packed_lt minv maxv d : in_tw minv -> in_tw maxv -> in_tw d -> (minv <= d <= maxv)%Z ->
  (to_unsigned tw (d - minv) < 2^N.of_nat (nbits (to_unsigned tw (maxv - minv))))%N.
Proof.
  intros Hm HM Hd [H1 H2].
  pose proof (to_unsigned_diff tw tw_pos d minv Hd Hm H1) as Ed.
  pose proof (to_unsigned_diff tw tw_pos maxv minv HM Hm ltac:(lia)) as EX.
  pose proof (nbits_gt (to_unsigned tw (maxv - minv))). lia.
Qed.

Lemma mini_block c d0 minv last rest :
  In d0 c -> (length c <= mini)%nat -> Forall in_tw c -> in_tw minv -> Forall (fun d => (minv <= d)%Z) c -> in_tw last ->
  let maxv := zmax_list d0 c in
  let w := nbits (to_unsigned tw (maxv - minv)) in
  let packed := map (fun d => to_unsigned tw (d - minv)) c ++ repeat 0%N (mini - length c) in
  let payload := bits_bytes (mini * w / 8) (pack w packed) in
  (w <= N.to_nat tw)%nat /\ take_bytes (w * mini / 8) (payload ++ rest) = Some (payload, rest) /\
  dec_mini tw w (length c) minv last payload = recon last c.
Proof.
  intros Hd0 Hlen Hr Hm Hge Hl maxv w packed payload.
  destruct (fold_max_spec c d0) as (_ & Mx2 & Mx3). fold maxv in Mx2, Mx3.
  rewrite Forall_forall in Hr, Hge.
  assert (Hmaxr : in_tw maxv) by (destruct Mx3 as [<-|Hin]; apply Hr; assumption).
  assert (Hpk : forall d, In d c -> (to_unsigned tw (d - minv) < 2^N.of_nat w)%N).
  { intros d Hd. apply packed_lt; auto. }
  assert (Hw : (w <= N.to_nat tw)%nat).
  { pose proof (nbits_le _ tw (to_unsigned_lt tw tw_pos (maxv - minv))). unfold w. lia. }
  assert (Hplen : length packed = mini) by (unfold packed; rewrite app_length, map_length, repeat_length; lia).
  assert (Hbits : bytes_bits payload = pack w packed).
  { apply bytes_bits_pack. rewrite Hplen, mini_bytes, mini_eq. symmetry. apply Nat.mul_assoc. }
  split; [exact Hw|]. split.
  - apply take_bytes_app. unfold payload. rewrite bits_bytes_length, (Nat.mul_comm w). reflexivity.
  - unfold dec_mini. destruct (Nat.eqb_spec w 0) as [Hw0|Hw0].
    + (* every delta of the mini block equals min_delta *)
      assert (Hall : c = repeat minv (length c)).
      { apply Forall_eq_repeat, Forall_forall. intros d Hd.
        pose proof (Hpk d Hd) as Hlt. rewrite Hw0 in Hlt. change (2^N.of_nat 0)%N with 1%N in Hlt.
        pose proof (to_unsigned_diff tw tw_pos d minv (Hr d Hd) Hm (Hge d Hd)). lia. }
      transitivity (recon last (repeat minv (length c))); [|rewrite <- Hall; reflexivity].
      destruct (Z.eqb_spec minv 0) as [->|Hm0].
      * symmetry. apply recon_zero, Hl.
      * apply progression_recon. exists 0%Z. lia.
    + rewrite Hbits, <- (app_nil_r (pack w packed)), unpack_firstn.
      * unfold packed. rewrite firstn_app_exact by apply map_length.
        apply prefix_sums_recon; [assumption|apply Forall_forall, Hr|apply Forall_forall, Hge].
      * unfold packed. apply Forall_app; split; apply Forall_forall; intros p Hp.
        -- apply in_map_iff in Hp. destruct Hp as (d & <- & Hd). apply Hpk, Hd.
        -- apply repeat_spec in Hp. subst p. apply N.neq_0_lt_0, N.pow_nonzero. discriminate.
      * rewrite Hplen. exact Hlen.
Qed.

Lemma last_app_default {A} : forall (a b : list A) d, List.last (a ++ b) d = List.last b (List.last a d).
Proof.
  induction a as [|x a IH]; intros b d; [reflexivity|].
  change ((x :: a) ++ b) with (x :: (a ++ b)). rewrite !last_cons. apply IH.
Qed.

Lemma sub_min n m : (n - Nat.min m n = n - m)%nat.
Proof.
  destruct (Nat.min_spec m n) as [[H ->]|[H ->]]; [reflexivity|].
  rewrite Nat.sub_diag. symmetry. apply Nat.sub_0_le, H.
Qed.

(* the encoder cuts the block off the deltas still to be written, the decoder is told how many those are:
   [all] is that list, and no count has to be related to another *)
Lemma minis_ok : forall j all minv last rest ws bs,
  enc_minis j tw mini minv (firstn (j * mini) all) = (ws, bs) ->
  Forall in_tw all -> in_tw minv -> Forall (fun d => (minv <= d)%Z) (firstn (j * mini) all) -> in_tw last ->
  length ws = j /\
  dec_minis tw mini minv ws last (length all) (bs ++ rest) =
  Some (recon last (firstn (j * mini) all), List.last (recon last (firstn (j * mini) all)) last, rest).
Proof.
  induction j as [|j IH]; intros all minv last rest ws bs Henc Hr Hm Hge Hl.
  - cbn in Henc. injection Henc as <- <-. split; reflexivity.
  - rewrite Nat.mul_succ_l, (Nat.add_comm (j * mini)) in Henc, Hge |- *. destruct all as [|d0 all'].
    + rewrite firstn_nil in *. cbn [enc_minis] in Henc. injection Henc as <- <-.
      change (0%N :: repeat 0%N j) with (repeat 0%N (S j)).
      split; [apply repeat_length|reflexivity].
    + set (all := d0 :: all') in *. set (ds := firstn (mini + j * mini) all) in *.
      assert (Eds : ds = d0 :: firstn (mini - 1 + j * mini) all').
      { unfold ds, all. replace (mini + j * mini)%nat with (S (mini - 1 + j * mini)) by lia. reflexivity. }
      assert (Ec : firstn mini ds = firstn mini all).
      { unfold ds. rewrite firstn_firstn, Nat.min_l by apply Nat.le_add_r. reflexivity. }
      assert (Esk : skipn mini ds = firstn (j * mini) (skipn mini all)).
      { unfold ds. rewrite skipn_firstn_comm, Nat.add_comm, Nat.add_sub. reflexivity. }
      rewrite Eds in Henc. cbn [enc_minis] in Henc. rewrite <- Eds, Esk in Henc.
      set (c := firstn mini ds) in *.
      assert (Hd0 : In d0 c).
      { unfold c. rewrite Eds. replace mini with (S (mini - 1)) by lia. left. reflexivity. }
      assert (Hcm : (length c <= mini)%nat) by (unfold c; rewrite firstn_length; apply Nat.le_min_l).
      assert (Hk : Nat.min mini (length all) = length c) by (rewrite Ec; symmetry; apply firstn_length).
      destruct (enc_minis j tw mini minv (firstn (j * mini) (skipn mini all))) as [ws' bs'] eqn:Erec.
      apply pair_equal_spec in Henc. destruct Henc as [<- <-].
      destruct (mini_block c d0 minv last (bs' ++ rest) Hd0 Hcm
                  (Forall_firstn _ _ _ (Forall_firstn _ _ _ Hr)) Hm (Forall_firstn _ _ _ Hge) Hl) as (Hw & Htake & Hdec).
      set (last' := List.last (recon last c) last).
      assert (Hl' : in_tw last') by (apply last_in_range; [apply recon_range|exact Hl]).
      assert (Hge' : Forall (fun d => (minv <= d)%Z) (firstn (j * mini) (skipn mini all))).
      { rewrite <- Esk. apply Forall_skipn, Hge. }
      destruct (IH (skipn mini all) minv last' rest ws' bs' Erec (Forall_skipn _ _ _ Hr) Hm Hge' Hl') as (Hwl & Hrec).
      rewrite skipn_length, <- Esk in Hrec.
      assert (Erc : recon last ds = recon last c ++ recon last' (skipn mini ds)).
      { unfold last'. rewrite <- recon_app. unfold c. rewrite firstn_skipn. reflexivity. }
      split; [cbn [length]; f_equal; exact Hwl|].
      cbn [dec_minis]. change (length all =? 0)%nat with (S (length all') =? 0)%nat. cbn [Nat.eqb].
      rewrite sub_min, Nat2N.id, (proj2 (Nat.ltb_ge _ _) Hw), <- app_assoc, Htake, Hk, Hdec. fold last'.
      rewrite Hrec, Erc, last_app_default. reflexivity.
Qed.

Lemma block_ok all ds last rest :
  ds = firstn (4 * mini) all -> ds <> [] -> Forall in_tw all -> in_tw last ->
  exists minv ws bs, enc_block tw mini ds = zz_vlq minv ++ ws ++ bs /\ in_tw minv /\ length ws = 4%nat /\
    dec_minis tw mini minv ws last (length all) (bs ++ rest) = Some (recon last ds, List.last (recon last ds) last, rest).
Proof.
  intros Eds Hne Hr Hl. destruct ds as [|d0 ds']; [contradiction|].
  unfold enc_block. set (ds := d0 :: ds') in *. set (minv := zmin_list d0 ds).
  destruct (enc_minis 4 tw mini minv ds) as [ws bs] eqn:E.
  destruct (fold_min_spec ds d0) as (_ & B & C). fold minv in B, C.
  assert (Hdr : Forall in_tw ds) by (rewrite Eds; apply Forall_firstn, Hr).
  assert (Hm : in_tw minv).
  { rewrite Forall_forall in Hdr. destruct C as [<-|C]; apply Hdr; [left; reflexivity|exact C]. }
  assert (Hge : Forall (fun d => (minv <= d)%Z) ds) by (apply Forall_forall; exact B).
  rewrite Eds in E, Hge |- *.
  destruct (minis_ok 4 all minv last rest ws bs E Hr Hm Hge Hl) as (Hwl & Hdec).
  exists minv, ws, bs. auto.
Qed.

(* a block's min_delta travels as a zig-zag i64 *)
Hypothesis tw_le : (tw <= 64)%N.

(* every block takes at least one delta, so any fuel from the number of deltas up does for either side: the encoder
   passes the number of values, the decoder the count it read from the header *)
Lemma blocks_ok : forall fuel ds last rest fuel',
  (length ds <= fuel)%nat -> (length ds <= fuel')%nat -> Forall in_tw ds -> in_tw last ->
  dec_blocks fuel' tw 4 mini last (length ds) (enc_blocks fuel tw mini ds ++ rest) = Some (recon last ds, rest).
Proof.
  induction fuel as [|fuel IH]; intros ds last rest fuel' Hf Hf' Hr Hl.
  - assert (ds = []) by (destruct ds; [reflexivity|cbn in Hf; lia]). subst ds.
    destruct fuel'; reflexivity.
  - destruct ds as [|d0 ds'] eqn:Eds.
    + destruct fuel'; reflexivity.
    + rewrite <- Eds in *. assert (Hne : ds <> []) by (rewrite Eds; discriminate).
      assert (Hlpos : (1 <= length ds)%nat) by (rewrite Eds; cbn; lia).
      destruct fuel' as [|fuel']; [lia|].
      rewrite enc_blocks_S by exact Hne.
      set (b := firstn (4 * mini) ds). set (tl := skipn (4 * mini) ds).
      assert (Hbne : b <> []). { unfold b. rewrite Eds. replace (4 * mini)%nat with (S (4 * mini - 1)) by lia. discriminate. }
      assert (Hne0 : (length ds =? 0)%nat = false) by (apply Nat.eqb_neq; lia).
      assert (Hshort : (length tl <= length ds - 1)%nat) by (unfold tl; rewrite skipn_length; lia).
      assert (Htf : (length tl <= fuel)%nat) by lia.
      assert (Htf' : (length tl <= fuel')%nat) by lia.
      destruct (block_ok ds b last (enc_blocks fuel tw mini tl ++ rest) eq_refl Hbne Hr Hl)
        as (minv & ws & bs & Eb & Hm & Hwl & Hdec).
      rewrite Eb. cbn [dec_blocks]. rewrite Hne0.
      rewrite <- !app_assoc. rewrite zz_vlq_roundtrip by (apply (in_range_i64 tw _ tw_pos tw_le), Hm).
      rewrite wrap_s_id by assumption. rewrite Z.eqb_refl. cbn [negb].
      rewrite (take_bytes_app 4), Hdec by exact Hwl.
      assert (Htl : (length ds - length (recon last b))%nat = length tl).
      { unfold tl, b. rewrite recon_length, firstn_length, sub_min, skipn_length. reflexivity. }
      rewrite Htl.
      set (last' := List.last (recon last b) last).
      rewrite IH.
      * unfold last', b, tl. rewrite <- recon_app, firstn_skipn. reflexivity.
      * exact Htf.
      * exact Htf'.
      * apply Forall_skipn, Hr.
      * apply last_in_range; [apply recon_range|exact Hl].
Qed.

End D.
Arguments blocks_ok {tw} tw_pos {m8} m8_pos {mini} mini_eq tw_le.

Lemma delta_decode_header tw bsz mpb total first body :
  (bsz < 2^64)%N -> (mpb < 2^64)%N -> (total < 2^64)%N -> (- 2^63 <= first < 2^63)%Z ->
  delta_decode tw (vlq bsz ++ vlq mpb ++ vlq total ++ zz_vlq first ++ body) =
  if (mpb =? 0)%N then None else
  if negb (Z.eqb (wrap_s tw first) first) then None else
  if negb (bsz mod 128 =? 0)%N then None else
  if negb (bsz mod mpb =? 0)%N then None else
  if negb ((bsz / mpb) mod 32 =? 0)%N then None else
  if (total =? 0)%N then Some ([], body) else
  match dec_blocks (N.to_nat total) tw (N.to_nat mpb) (N.to_nat (bsz / mpb)) first (N.to_nat total - 1) body with
  | None => None
  | Some (vals, rest) => Some (first :: vals, rest)
  end.
Proof.
  intros Hb Hm Ht Hf. unfold delta_decode.
  rewrite !vlq_roundtrip, zz_vlq_roundtrip by assumption. reflexivity.
Qed.

(* what the header checks of delta_decode ask of the block geometry (block size a multiple of 128 and of the 4 mini blocks,
   mini block a multiple of 32) holds of both widths *)
Lemma delta_geometry tw : tw = 32%N \/ tw = 64%N -> let mini := N.to_nat tw in
  (0 < tw <= 64)%N /\ (exists m8, (0 < m8)%nat /\ mini = (8 * m8)%nat) /\
  (N.of_nat (4 * mini) < 2^64)%N /\ (N.of_nat (4 * mini) mod 128 =? 0)%N = true /\
  (N.of_nat (4 * mini) mod 4 =? 0)%N = true /\ (N.of_nat (4 * mini) / 4)%N = N.of_nat mini /\
  (N.of_nat mini mod 32 =? 0)%N = true.
Proof.
  intros [->| ->] mini.
  - split; [split; [reflexivity|discriminate]|]. split; [exists 4%nat; split; [lia|reflexivity]|]. repeat split.
  - split; [split; [reflexivity|discriminate]|]. split; [exists 8%nat; split; [lia|reflexivity]|]. repeat split.
Qed.

Theorem delta_bp_roundtrip tw vs rest :
  tw = 32%N \/ tw = 64%N ->
  Forall (in_range tw) vs -> (N.of_nat (length vs) < 2^64)%N ->
  delta_decode tw (delta_encode tw vs ++ rest) = Some (vs, rest).
Proof.
  intros Htw Hr Hn. pose proof (delta_geometry tw Htw) as Hgeo. cbv zeta in Hgeo. set (mini := N.to_nat tw) in *.
  destruct Hgeo as ((Hpos & Hle) & (m8 & Hm8 & Emini) & Hbsz & B1 & B2 & B3 & B4).
  assert (Hfirst : forall v, in_range tw v -> (- 2^63 <= v < 2^63)%Z) by (intros v; apply in_range_i64; assumption).
  unfold delta_encode. fold mini. destruct vs as [|v0 vs']; cbv zeta beta.
  - pose proof (in_range_0 tw Hpos) as H0.
    rewrite <- !app_assoc, (delta_decode_header tw _ 4 _ _ _ Hbsz eq_refl Hn (Hfirst _ H0)).
    rewrite wrap_s_id, B1, B2, B3, B4 by assumption. reflexivity.
  - inversion Hr as [|? ? Hv0 Hvs]; subst.
    rewrite <- !app_assoc, (delta_decode_header tw _ 4 _ _ _ Hbsz eq_refl Hn (Hfirst _ Hv0)).
    rewrite wrap_s_id, Z.eqb_refl, B1, B2, B3, B4 by assumption.
    cbn [negb]. destruct (N.eqb_spec (N.of_nat (length (v0 :: vs'))) 0) as [E0|_]; [discriminate E0|].
    rewrite !Nat2N.id. cbn [length]. rewrite Nat.sub_succ, Nat.sub_0_r.
    pose proof (blocks_ok Hpos Hm8 Emini Hle) as Hb.
    specialize Hb with (fuel := S (length vs')) (fuel' := S (length vs')) (ds := deltas_of tw v0 vs') (last := v0) (rest := rest).
    rewrite deltas_length in Hb. change (N.to_nat 4) with 4%nat.
    rewrite Hb, recon_deltas by (assumption || apply deltas_in_range, Hpos || apply Nat.le_succ_diag_r).
    reflexivity.
Qed.

