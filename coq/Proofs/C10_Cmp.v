(* C10 — the slot comparator is a total preorder whose equivalence is equality of logical values,
   for all four option combinations and for nested values; compare_impl's four null-buffer cases
   compute it; the tuple order of lexsort is a total preorder on row numbers.

   "c is an order" is said in two ways, each with its place.  [ord_at c a] (Base/Order.v) is the four facts at one
   point a, with Eq meaning equality: an induction over nested values can carry it, so the proofs ABOUT a comparator
   (ncmp_ord, lex_ord, vcmp_ord, cmp_opts_ord) speak it.  [tpo c] (below) is reflexive / antisymmetric / transitive
   on the whole type, and Eq need not be equality: it is what sorting, ranking and the heap need OF a comparator, and
   it survives the pull-back along a value extraction that identifies rows (tpo_on), so C10_Sort, SortImpl, Rank
   and Heap speak it.  ord_at_all converts; what both vocabularies derive from antisymmetry and transitivity is
   proved once, in Order's section Preorder. *)
From Coq Require Import List ZArith Lia Bool Arith.
From AV Require Import Base.Order Model.C10_Order Proofs.C10_Float.
Import ListNotations.

Definition c_refl {A} (c : A -> A -> comparison) := forall a, c a a = Eq.
Definition c_antisym {A} (c : A -> A -> comparison) := forall a b, c b a = CompOpp (c a b).
Definition c_trans {A} (c : A -> A -> comparison) := forall a b d, c a b <> Gt -> c b d <> Gt -> c a d <> Gt.
Definition c_ext {A} (c : A -> A -> comparison) := forall a b, c a b = Eq -> a = b.
Definition tpo {A} (c : A -> A -> comparison) := c_refl c /\ c_antisym c /\ c_trans c.

Lemma tpo_refl {A} (c : A -> A -> comparison) : tpo c -> forall a, c a a = Eq.
Proof. intros H. apply H. Qed.
Lemma tpo_antisym {A} (c : A -> A -> comparison) : tpo c -> forall a b, c b a = CompOpp (c a b).
Proof. intros H. apply H. Qed.
Lemma tpo_trans {A} (c : A -> A -> comparison) : tpo c -> forall a b d, c a b <> Gt -> c b d <> Gt -> c a d <> Gt.
Proof. intros H. apply H. Qed.

Lemma compopp_gt c : CompOpp c = Gt <-> c = Lt. Proof. destruct c; cbn; split; congruence. Qed.
Lemma compopp_lt c : CompOpp c = Lt <-> c = Gt. Proof. destruct c; cbn; split; congruence. Qed.
Lemma compopp_eq c : CompOpp c = Eq <-> c = Eq. Proof. destruct c; cbn; split; congruence. Qed.

Section Derived.
  Context {A : Type} (c : A -> A -> comparison).
  Hypothesis Hc : tpo c.

  Lemma tpo_lt_le a b d : c a b = Lt -> c b d <> Gt -> c a d = Lt.
  Proof. exact (cmp_lt_le c (tpo_antisym c Hc) (tpo_trans c Hc) a b d). Qed.
  Lemma tpo_eq_l a b d : c a b = Eq -> c a d = c b d.
  Proof. exact (cmp_eq_l c (tpo_antisym c Hc) (tpo_trans c Hc) a b d). Qed.
  Lemma tpo_eq_r a b d : c a b = Eq -> c d a = c d b.
  Proof. exact (cmp_eq_r c (tpo_antisym c Hc) (tpo_trans c Hc) a b d). Qed.
End Derived.

Lemma tpo_rev_if {A} (c : A -> A -> comparison) d : tpo c -> tpo (fun a b => rev_if d (c a b)).
Proof.
  destruct d; cbn; [|intros H; exact H].
  intros (Hr & Ha & Ht). split; [|split].
  - intros a. now rewrite Hr.
  - intros a b. now rewrite Ha.
  - intros a b e. rewrite !compopp_gt. intros N1 N2 E.
    assert (X : c e b <> Gt) by (rewrite Ha; rewrite compopp_gt; exact N2).
    assert (Y : c b a <> Gt) by (rewrite Ha; rewrite compopp_gt; exact N1).
    apply (Ht e b a X) in Y. rewrite Ha, E in Y. cbn in Y. congruence.
Qed.

Lemma tpo_on {A B} (f : A -> B) (c : B -> B -> comparison) : tpo c -> tpo (fun x y => c (f x) (f y)).
Proof.
  intros (Hr & Ha & Ht). split; [|split].
  - intros x. apply Hr.
  - intros x y. apply Ha.
  - intros x y z. apply Ht.
Qed.

Lemma tpo_then {A} (c1 c2 : A -> A -> comparison) : tpo c1 -> tpo c2 ->
  tpo (fun i j => match c1 i j with Eq => c2 i j | r => r end).
Proof.
  intros H1 H2. pose proof H1 as (R1 & A1 & T1). destruct H2 as (R2 & A2 & T2). split; [|split].
  - intros i. now rewrite R1.
  - intros i j. rewrite (A1 i j). destruct (c1 i j); cbn; [apply A2|reflexivity|reflexivity].
  - intros i j k. destruct (c1 i j) eqn:E1; try congruence.
    + rewrite (tpo_eq_l c1 H1 i j k E1). destruct (c1 j k); try congruence. apply T2.
    + intros _ N. destruct (c1 j k) eqn:E2; try congruence.
      all: rewrite (tpo_lt_le c1 H1 i j k E1); congruence.
Qed.

(* P of the value in a slot; nothing is asked of a null *)
Definition oP {A} (P : A -> Prop) (o : option A) : Prop := match o with Some a => P a | None => True end.

(* from the comparator proofs' vocabulary to that of the sort, rank and heap theorems, and back *)
Lemma ord_at_all {A} (c : A -> A -> comparison) : (forall a, ord_at c a) <-> tpo c /\ c_ext c.
Proof.
  split.
  - intros H. split; [split; [|split]|]; intros a; apply (H a).
  - intros [(Hr & Ha & Ht) He] a. split; [apply Hr|]. split; [intros b; apply Ha|]. split; [apply He|apply Ht].
Qed.

Lemma tpo_total_order h : tpo (total_order h).
Proof. apply (ord_at_all (total_order h)), total_order_ord. Qed.

Lemma ord_rev {A} (c : A -> A -> comparison) d :
  (forall a, ord_at c a) -> forall a, ord_at (fun a b => rev_if d (c a b)) a.
Proof.
  destruct d; [|trivial]. rewrite !ord_at_all. intros [Ht He]. split; [exact (tpo_rev_if c true Ht)|].
  intros a b E. apply He, compopp_eq, E.
Qed.

(* null placement around a value order (reversed when descending) *)
Lemma ncmp_ord {A} nf desc (c : A -> A -> comparison) p :
  oP (ord_at (fun a b => rev_if desc (c a b))) p -> ord_at (ncmp nf desc c) p.
Proof.
  destruct p as [a|]; cbn [oP].
  - intros (Hr & Ha & He & Ht). split; [exact Hr|]. split; [|split].
    + intros [b|]; [apply Ha|now destruct nf].
    + intros [b|] E; [f_equal; now apply He|now destruct nf].
    + intros [b|] [d|]; cbn; try (destruct nf; congruence). apply Ht.
  - intros _. split; [reflexivity|]. split; [|split].
    + intros [b|]; now destruct nf.
    + intros [b|] E; [now destruct nf|reflexivity].
    + intros [b|] [d|]; cbn; destruct nf; congruence.
Qed.

(* child_opts: comparing under the child's options, then reversing when descending, is comparing under the parent's *)
Lemma ncmp_child {A} nf desc (c : A -> A -> comparison) p q :
  rev_if desc (ncmp (child_nf nf desc) false c p q) = ncmp nf desc c p q.
Proof. unfold child_nf. destruct nf, desc, p, q; reflexivity. Qed.

(* pairs compared by their first components, then, under the first component of the left pair, by their second *)
Lemma ord_pair {A B} (c1 : A -> A -> comparison) (c2 : A -> B -> B -> comparison) a b :
  ord_at c1 a -> ord_at (c2 a) b ->
  ord_at (fun p q => match c1 (fst p) (fst q) with Eq => c2 (fst p) (snd p) (snd q) | r => r end) (a, b).
Proof.
  intros (Hr & Ha & He & Ht) (Gr & Ga & Ge & Gtr). unfold ord_at. cbn [fst snd]. split; [now rewrite Hr|]. split; [|split].
  - intros [a' b']. cbn [fst snd]. rewrite (Ha a'). destruct (c1 a a') eqn:E; cbn; try reflexivity.
    apply He in E. subst a'. apply Ga.
  - intros [a' b']. cbn [fst snd]. destruct (c1 a a') eqn:E; try discriminate.
    apply He in E. subst a'. intros E. now rewrite (Ge b' E).
  - intros [a' b'] [a'' b'']. cbn [fst snd]. destruct (c1 a a') eqn:E1; try congruence.
    + apply He in E1. subst a'. destruct (c1 a a''); try congruence. apply Gtr.
    + (* a < a' <= a'': then a <= a'', and a = a'' would put a' below a *)
      intros _ N. assert (N' : c1 a' a'' <> Gt) by (destruct (c1 a' a''); congruence).
      assert (L : c1 a a'' <> Gt) by (apply (Ht a' a''); congruence).
      destruct (c1 a a'') eqn:E3; try congruence.
      apply He in E3. subst a''. rewrite Ha, E1 in N'. now elim N'.
Qed.

(* lex_cmp takes the comparison as an argument of its fixpoint, Order.lexc as a section variable: equal on all
   lists, not by computation *)
Lemma lex_cmp_lexc {A} (c : A -> A -> comparison) x : forall y, lex_cmp c x y = lexc c x y.
Proof. induction x as [|a x IH]; intros [|b y]; cbn; try reflexivity. now rewrite IH. Qed.

Lemma lex_ord {A} (c : A -> A -> comparison) x : Forall (ord_at c) x -> ord_at (lex_cmp c) x.
Proof.
  intros H. destruct (lexc_ord c x H) as (Hr & Ha & He & Ht).
  split; [rewrite lex_cmp_lexc; exact Hr|]. split; [intros b; rewrite !lex_cmp_lexc; apply Ha|].
  split; [intros b; rewrite lex_cmp_lexc; apply He|]. intros b d. rewrite !lex_cmp_lexc. apply Ht.
Qed.

Lemma m_list_cmp_lex {A} (c : A -> A -> comparison) x y : m_list_cmp c x y = lex_cmp c x y.
Proof.
  unfold m_list_cmp. revert y. induction x as [|a x IH]; intros [|b y]; cbn; try reflexivity.
  destruct (c a b); try reflexivity. apply IH.
Qed.

(* a map that preserves the element order preserves the lexicographic one *)
Lemma lex_cmp_map {A B} (f : A -> B) (cA : A -> A -> comparison) (cB : B -> B -> comparison) x : forall y,
  (forall a b, In a x -> In b y -> cB (f a) (f b) = cA a b) -> lex_cmp cB (map f x) (map f y) = lex_cmp cA x y.
Proof. intros y H. rewrite !lex_cmp_lexc. now apply lexc_map. Qed.

Lemma lex_cmp_ext {A} (c1 c2 : A -> A -> comparison) x y :
  (forall a b, In a x -> In b y -> c1 a b = c2 a b) -> lex_cmp c1 x y = lex_cmp c2 x y.
Proof. intros H. rewrite !lex_cmp_lexc. now apply lexc_ext. Qed.

Lemma ord_bytes_cmp x : ord_at bytes_cmp x.
Proof. apply lex_ord, Forall_forall. intros a _. apply ord_Zcompare. Qed.

Section ValInd.
  Variable P : val -> Prop.
  Hypothesis HI : forall z, P (VInt z).
  Hypothesis HF : forall h b, P (VFloat h b).
  Hypothesis HB : forall l, P (VBytes l).
  Hypothesis HL : forall l, Forall (oP P) l -> P (VList l).
  Fixpoint val_ind' (v : val) : P v :=
    match v with
    | VInt z => HI z
    | VFloat h b => HF h b
    | VBytes l => HB l
    | VList l =>
        HL l ((fix go (l : list oval) : Forall (oP P) l :=
                 match l with
                 | [] => Forall_nil _
                 | o :: r => Forall_cons o (match o return oP P o with Some v => val_ind' v | None => I end) (go r)
                 end) l)
    end.
End ValInd.

Lemma vcmp_list cnf x y : vcmp cnf (VList x) (VList y) = lex_cmp (ncmp cnf false (vcmp cnf)) x y.
Proof.
  revert y. induction x as [|p x IH]; intros [|q y]; try reflexivity.
  specialize (IH y). cbn in IH |- *.
  destruct p as [u|], q as [v|]; cbn; try (destruct cnf; reflexivity).
  - destruct (vcmp cnf u v); try reflexivity. exact IH.
  - exact IH.
Qed.

(* values of different constructors are ordered by their tags *)
Lemma vcmp_tag cnf a b : vtag a <> vtag b -> vcmp cnf a b = (vtag a ?= vtag b)%Z.
Proof. destruct a, b; cbn; intros H; try reflexivity; now elim H. Qed.

(* a constructor K carries the order of its argument to the values it builds; against the values of the other
   constructors (every value is a K or has another tag) the tags decide *)
Lemma con_ord {P} (K : P -> val) (cP : P -> P -> comparison) cnf x :
  (forall y z, vcmp cnf (K y) (K z) = cP y z) ->
  (forall y, vtag (K y) = vtag (K x)) -> (forall b, (exists y, b = K y) \/ vtag b <> vtag (K x)) ->
  ord_at cP x -> ord_at (vcmp cnf) (K x).
Proof.
  intros Eqn Tag Inv (Hr & Ha & He & Ht). split; [now rewrite Eqn|]. split; [|split].
  - intros b. destruct (Inv b) as [[y ->]|N]; [rewrite !Eqn; apply Ha|].
    rewrite (vcmp_tag cnf b _ N), (vcmp_tag cnf _ b (not_eq_sym N)). apply Z.compare_antisym.
  - intros b E. destruct (Inv b) as [[y ->]|N]; [rewrite Eqn in E; now rewrite (He y E)|].
    rewrite vcmp_tag in E by (apply not_eq_sym, N). apply Z.compare_eq in E. now elim N.
  - (* tags never decrease along a chain *)
    assert (L : forall u v, vcmp cnf u v <> Gt -> (vtag u <= vtag v)%Z).
    { intros u v H. destruct (Z.eq_dec (vtag u) (vtag v)) as [E|N]; [lia|].
      rewrite (vcmp_tag cnf u v N) in H. now apply Z.compare_le_iff. }
    intros b d H1 H2. pose proof (L _ _ H1) as L1. pose proof (L _ _ H2) as L2.
    destruct (Inv d) as [[z ->]|Nd].
    + destruct (Inv b) as [[y ->]|Nb]; [rewrite !Eqn in *; now apply (Ht y z)|].
      (* a value of another tag cannot stand between two K's *)
      rewrite (Tag z) in L2. lia.
    + rewrite vcmp_tag by (apply not_eq_sym, Nd). apply Z.compare_le_iff. lia.
Qed.

Lemma vcmp_ord cnf a : ord_at (vcmp cnf) a.
Proof.
  induction a as [z|h x|l|l IH] using val_ind'.
  - apply (con_ord VInt Z.compare); [reflexivity|reflexivity| |apply ord_Zcompare].
    intros [z'|h' x'|l'|l']; [left; now exists z'|right; discriminate..].
  - (* a float is the pair (sign weight, pattern): weights first, then totalOrder under the weight *)
    apply (con_ord (fun p => VFloat (fst p) (snd p))
             (fun p q => match (fst p ?= fst q)%Z with Eq => total_order (fst p) (snd p) (snd q) | r => r end) cnf (h, x));
      [reflexivity|reflexivity| |apply ord_pair; [apply ord_Zcompare|apply total_order_ord]].
    intros [z'|h' x'|l'|l']; [|left; now exists (h', x')|..]; right; discriminate.
  - apply (con_ord VBytes bytes_cmp); [reflexivity|reflexivity| |apply ord_bytes_cmp].
    intros [z'|h' x'|l'|l']; [..|left; now exists l'|]; right; discriminate.
  - (* a list is ordered lexicographically by its nullable elements, which are in order by induction *)
    apply (con_ord VList (lex_cmp (ncmp cnf false (vcmp cnf)))); [apply vcmp_list|reflexivity| |].
    + intros [z'|h' x'|l'|l']; [..|left; now exists l']; right; discriminate.
    + apply lex_ord. eapply Forall_impl; [|exact IH]. intros o Ho. apply ncmp_ord. now destruct o.
Qed.

Lemma vcmp_eq_iff cnf a b : vcmp cnf a b = Eq <-> a = b.
Proof. split; [apply vcmp_ord|intros <-; apply vcmp_ord]. Qed.
Theorem vcmp_tpo cnf : tpo (vcmp cnf).
Proof. apply (ord_at_all (vcmp cnf)), vcmp_ord. Qed.

(* the slot comparator for every SortOptions combination *)
Lemma cmp_opts_ord nf desc p : ord_at (cmp_opts nf desc) p.
Proof. apply ncmp_ord. destruct p; [|exact I]. apply ord_rev, vcmp_ord. Qed.
Theorem cmp_opts_tpo nf desc : tpo (cmp_opts nf desc).
Proof. apply (ord_at_all (cmp_opts nf desc)), cmp_opts_ord. Qed.
Lemma cmp_opts_eq_iff nf desc p q : cmp_opts nf desc p q = Eq <-> p = q.
Proof. split; [apply cmp_opts_ord|intros <-; apply cmp_opts_ord]. Qed.

(* descending reverses values only; nulls keep their side *)
Lemma cmp_opts_nulls nf desc v :
  cmp_opts nf desc None (Some v) = (if nf then Lt else Gt) /\ cmp_opts nf desc (Some v) None = (if nf then Gt else Lt) /\ cmp_opts nf desc None None = Eq.
Proof. repeat split. Qed.

Lemma slot_nth_error (a : list oval) i : i < length a -> nth_error a i = Some (slot a i).
Proof. apply nth_error_nth'. Qed.
Lemma Forall_slot (P : val -> Prop) a i : Forall (oP P) a -> oP P (slot a i).
Proof.
  intros H. unfold slot. destruct (Nat.lt_ge_cases i (length a)) as [L|G];
    [exact (proj1 (Forall_nth (oP P) a) H i None L)|now rewrite nth_overflow].
Qed.

(* a null buffer that is dropped (None) promises that the side has no null *)
Definition buf_ok (a : list oval) (b : option (nat -> bool)) : Prop :=
  match b with
  | Some f => forall i, i < length a -> f i = is_null a i
  | None => forall i, i < length a -> is_null a i = false
  end.

Lemma null_buffer_ok a : buf_ok a (null_buffer a).
Proof.
  unfold null_buffer, buf_ok.
  destruct (existsb _ a) eqn:E; [reflexivity|].
  intros i Hi. unfold is_null, slot.
  destruct (nth i a None) eqn:E2; [reflexivity|].
  apply not_true_iff_false in E. elim E.
  apply existsb_exists. exists None. split; [|reflexivity]. rewrite <- E2. now apply nth_In.
Qed.

Theorem compare_impl_spec nf desc (a b : list oval) (la lb : option (nat -> bool)) (vc : val -> val -> comparison) i j :
  buf_ok a la -> buf_ok b lb -> i < length a -> j < length b ->
  compare_impl nf desc la lb (fun i j => vc (val_of a i) (val_of b j)) i j
  = ncmp nf desc vc (slot a i) (slot b j).
Proof.
  intros Ha Hb Hi Hj. unfold compare_impl, buf_ok, val_of, is_null in *.
  destruct la as [fa|], lb as [fb|].
  - rewrite (Ha i Hi), (Hb j Hj). destruct (slot a i), (slot b j); cbn; now destruct desc.
  - rewrite (Ha i Hi). specialize (Hb j Hj). destruct (slot a i), (slot b j); cbn; try discriminate; now destruct desc.
  - rewrite (Hb j Hj). specialize (Ha i Hi). destruct (slot a i), (slot b j); cbn; try discriminate; now destruct desc.
  - specialize (Ha i Hi). specialize (Hb j Hj). destruct (slot a i), (slot b j); cbn; try discriminate; now destruct desc.
Qed.

Theorem lex_idx_tpo (cols : list column) : tpo (lex_idx cols).
Proof.
  induction cols as [|[[nf desc] a] r IH].
  - split; [intros i; reflexivity|split; [intros i j; reflexivity|intros i j k; cbn; congruence]].
  - cbn [lex_idx]. apply tpo_then; [|exact IH]. apply (tpo_on (slot a)), cmp_opts_tpo.
Qed.
