(* C07 — the writer's comparisons are the column orders of the specification:
   total_cmp's sign-mask xor trick = IEEE totalOrder key, is_nan's threshold test = exponent/mantissa
   test, unsigned compare through as_u64. *)
From Coq Require Import ZArith Lia Bool.
From AV Require Import Base.Bits Model.C07_Stats Model.C07_File Model.C07_Spec.
Local Open Scope Z_scope.

Lemma lxor_ones_high m n : 0 <= n -> 0 <= m < 2^n -> Z.lxor (2^n + m) (Z.ones n) = 2^n + (2^n - 1 - m).
Proof. intros Hn Hm. pose proof (lxor_ones_above_Z 1 m n Hn Hm) as E. now rewrite Z.mul_1_l in E. Qed.

Lemma pow2_half W : 1 <= W -> 2^W = 2 * 2^(W-1).
Proof. intros. replace W with (Z.succ (W-1)) at 1 by lia. apply Z.pow_succ_r. lia. Qed.

Theorem total_cmp_key_is_fkey W u : 1 <= W -> 0 <= u < 2^W -> total_cmp_key W u = fkey W u.
Proof.
  intros HW Hu. unfold total_cmp_key, fkey, to_signed. pose proof (pow2_half W HW) as E.
  destruct (Z.ltb_spec u (2^(W-1))) as [L|L].
  - rewrite Z.lxor_0_r. destruct (Z.ltb_spec u (2^(W-1))); [reflexivity|lia].
  - assert (Hx : Z.lxor u (2^(W-1) - 1) = 2^(W-1) + (2^(W-1) - 1 - (u - 2^(W-1)))).
    { transitivity (Z.lxor (2^(W-1) + (u - 2^(W-1))) (Z.ones (W-1))).
      - f_equal; [lia|rewrite Z.ones_equiv; lia].
      - apply lxor_ones_high; lia. }
    rewrite Hx.
    destruct (Z.ltb_spec (2^(W-1) + (2^(W-1) - 1 - (u - 2^(W-1)))) (2^(W-1))); lia.
Qed.

Corollary gt_total_is_key_order W a b : 1 <= W -> 0 <= a < 2^W -> 0 <= b < 2^W ->
  gt_total W a b = (fkey W b <? fkey W a).
Proof. intros. unfold gt_total. now rewrite !total_cmp_key_is_fkey. Qed.

(* the key is injective on bit patterns: the total order distinguishes -0/+0 and NaN payloads *)
Lemma fkey_inj W a b : 1 <= W -> 0 <= a < 2^W -> 0 <= b < 2^W -> fkey W a = fkey W b -> a = b.
Proof.
  intros HW Ha Hb. unfold fkey. pose proof (pow2_half W HW) as E.
  destruct (Z.ltb_spec a (2^(W-1))), (Z.ltb_spec b (2^(W-1))); lia.
Qed.

(* With Q exponent values and P mantissa values: above the pattern "exponent all ones, mantissa 0"
   are exactly the patterns with that exponent and another mantissa. *)
Lemma nan_threshold P Q m : 0 < P -> 0 <= m < Q * P ->
  ((Q - 1) * P <? m) = (m / P =? Q - 1) && negb (m mod P =? 0).
Proof.
  intros HP Hm. assert (Hq : m / P < Q) by (apply Z.div_lt_upper_bound; lia).
  pose proof (Z.div_mod m P ltac:(lia)) as Dm. pose proof (Z.mod_pos_bound m P HP) as Hr.
  revert Hq Dm Hr. generalize (m / P), (m mod P). intros q r Hq Dm Hr.
  destruct (Z.eqb_spec q (Q - 1)) as [->|Nq]; cbn [andb].
  - destruct (Z.eqb_spec r 0); [apply Z.ltb_ge|apply Z.ltb_lt]; lia.
  - apply Z.ltb_ge. pose proof (Z.mul_le_mono_nonneg_l q (Q - 2) P). lia.
Qed.

Lemma exp_mask_widths :
  exp_mask 16 = (2^5 - 1) * 2^10 /\ exp_mask 32 = (2^8 - 1) * 2^23 /\ exp_mask 64 = (2^11 - 1) * 2^52.
Proof. repeat split. Qed.

Theorem nan_bits_is_fnan W u : (W = 16 \/ W = 32 \/ W = 64) -> nan_bits W u = fnan W u.
Proof.
  intros HW. unfold nan_bits, fnan. destruct exp_mask_widths as (E16 & E32 & E64).
  destruct HW as [E|[E|E]]; subst W.
  (* the other side is left to the kernel: at W = 16 [fnan] computes to the test with P = 2^10 mantissa
     values and Q = 2^(16-1-10) = 2^5 exponent values, and 2^15 = 2^5 * 2^10 bounds [u mod 2^15]; likewise below *)
  - rewrite E16. exact (nan_threshold (2^10) (2^5) _ eq_refl (Z.mod_pos_bound u (2^15) eq_refl)).
  - rewrite E32. exact (nan_threshold (2^23) (2^8) _ eq_refl (Z.mod_pos_bound u (2^31) eq_refl)).
  - rewrite E64. exact (nan_threshold (2^52) (2^11) _ eq_refl (Z.mod_pos_bound u (2^63) eq_refl)).
Qed.

(* a UInt32/UInt64 logical value u is stored as the signed reinterpretation; comparing through
   as_u64 (sign-extend to 64 bits, reinterpret unsigned) is the unsigned order of the logical values *)
Lemma as_u64_wrap W u : 1 <= W <= 64 -> 0 <= u < 2^W ->
  as_u64 (wrap_signed W u) = if u <? 2^(W-1) then u else 2^64 - 2^W + u.
Proof.
  intros HW Hu. unfold as_u64, wrap_signed. rewrite (Z.mod_small u) by lia.
  pose proof (pow2_half W (proj1 HW)) as E. assert (B : 2^W <= 2^64) by (apply Z.pow_le_mono_r; lia).
  destruct (Z.ltb_spec u (2^(W-1))) as [L|L].
  - apply Z.mod_small. lia.
  - symmetry. apply (Z.mod_unique _ _ (-1)); lia.
Qed.

(* the stored forms keep the order: the upper half is shifted up by 2^64 - 2^W *)
Theorem gt_unsigned_is_order W a b : (W = 32 \/ W = 64) -> 0 <= a < 2^W -> 0 <= b < 2^W ->
  gt_unsigned (wrap_signed W a) (wrap_signed W b) = (b <? a).
Proof.
  intros HW Ha Hb. assert (HW' : 1 <= W <= 64) by lia. unfold gt_unsigned. rewrite !as_u64_wrap by assumption.
  assert (B : 2^W <= 2^64) by (apply Z.pow_le_mono_r; lia).
  destruct (Z.ltb_spec a (2^(W-1))), (Z.ltb_spec b (2^(W-1))); apply Bool.eq_iff_eq_true; rewrite !Z.ltb_lt; lia.
Qed.
