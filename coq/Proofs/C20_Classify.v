(* C20 — Predicate::like / Predicate::ilike classification: every strategy the classifier selects
   computes the reference matcher on the code points, for every pattern and every haystack. *)
From Coq Require Import List NArith Arith Bool.
From AV Require Import Model.C20_Like Proofs.C20_Utf8 Proofs.C20_Like.
Import ListNotations.
Local Open Scope N_scope.

Lemma Forall2_eqb_eq a b : Forall2 (fun x y => (x =? y) = true) a b <-> a = b.
Proof.
  split.
  - induction 1 as [|x y a b E _ IH]; [reflexivity|]. apply N.eqb_eq in E. congruence.
  - intros ->. induction b; constructor; [apply N.eqb_refl|assumption].
Qed.

Lemma eq_cp_iff a b : eq_cp a b = true <-> a = b.
Proof. unfold eq_cp. now rewrite eqlist_by_iff, Forall2_eqb_eq. Qed.
Lemma eq_cp_sym a b : eq_cp a b = eq_cp b a.
Proof. apply Bool.eq_true_iff_eq. rewrite !eq_cp_iff. split; congruence. Qed.

Lemma starts_with_spec_iff h n : starts_with_spec h n = true <-> exists h2, h = n ++ h2.
Proof.
  unfold starts_with_spec. rewrite prefix_by_iff. split.
  - intros (h1 & h2 & -> & F). apply Forall2_eqb_eq in F. subst. eauto.
  - intros (h2 & ->). exists n, h2. split; [reflexivity|]. now apply Forall2_eqb_eq.
Qed.
Lemma ends_with_spec_iff h n : ends_with_spec h n = true <-> exists h1, h = h1 ++ n.
Proof.
  unfold ends_with_spec. rewrite ends_with_by_iff. split.
  - intros (h1 & h2 & -> & F). apply Forall2_eqb_eq in F. subst. eauto.
  - intros (h1 & ->). exists h1, n. split; [reflexivity|]. now apply Forall2_eqb_eq.
Qed.
Lemma contains_spec_iff h n : contains_spec h n = true <-> exists h1 h2, h = h1 ++ n ++ h2.
Proof.
  unfold contains_spec. rewrite exists_tail_iff. split.
  - intros (l & t & -> & F). apply starts_with_spec_iff in F as (h2 & ->). eauto.
  - intros (h1 & h2 & ->). exists h1, (n ++ h2). split; [reflexivity|]. apply starts_with_spec_iff. eauto.
Qed.

(* each kernel is the list predicate of the specification taken on bytes, and the list predicates commute with the encoding *)
Lemma bytes_starts_with_spec h n : bytes_starts_with N.eqb h n = starts_with_spec h n.
Proof. apply bytes_starts_with_prefix. Qed.
Lemma bytes_ends_with_spec h n : bytes_ends_with N.eqb h n = ends_with_spec h n.
Proof. apply bytes_ends_with_suffix. Qed.
Lemma bytes_contains_spec h n : bytes_contains h n = contains_spec h n.
Proof. apply exists_tail_ext. intros t. apply bytes_starts_with_prefix. Qed.

Theorem starts_with_bytes_sound h n : scalars h -> scalars n ->
  bytes_starts_with N.eqb (utf8 h) (utf8 n) = starts_with_spec h n.
Proof.
  intros Hh Hn. rewrite bytes_starts_with_spec. apply Bool.eq_true_iff_eq.
  rewrite !starts_with_spec_iff. now apply utf8_prefix_lemma.
Qed.

Theorem ends_with_bytes_sound h n : scalars h -> scalars n ->
  bytes_ends_with N.eqb (utf8 h) (utf8 n) = ends_with_spec h n.
Proof.
  intros Hh Hn. rewrite bytes_ends_with_spec. apply Bool.eq_true_iff_eq.
  rewrite !ends_with_spec_iff. now apply utf8_suffix_lemma.
Qed.

Theorem contains_bytes_sound h n : scalars h -> scalars n ->
  bytes_contains (utf8 h) (utf8 n) = contains_spec h n.
Proof.
  intros Hh Hn. rewrite bytes_contains_spec. apply Bool.eq_true_iff_eq.
  rewrite !contains_spec_iff. now apply utf8_substring_lemma.
Qed.

Lemma bytes_eq_cp a b : bytes_eq a b = eq_cp a b.
Proof. apply equals_bytes_eqlist. Qed.
Theorem eq_bytes_sound a b : scalars a -> scalars b -> bytes_eq (utf8 a) (utf8 b) = eq_cp a b.
Proof.
  intros Ha Hb. rewrite bytes_eq_cp. apply Bool.eq_true_iff_eq. rewrite !eq_cp_iff. split; [now apply utf8_inj|congruence].
Qed.

Inductive like_class (p : list N) : pred -> Prop :=
| LC_eq : plain p -> like_class p (PEq (utf8 p))
| LC_starts q : p = q ++ [PCT] -> plain q -> like_class p (PStartsWith (utf8 q))
| LC_ends q : p = PCT :: q -> plain q -> like_class p (PEndsWith (utf8 q))
| LC_contains q : p = PCT :: q ++ [PCT] -> plain q -> like_class p (PContains (utf8 q))
| LC_regex : like_class p (PRegex false (regex_like p)).

(* an ASCII byte b at either end of an encoded string is the one-character string [b] as a prefix / suffix *)
Lemma first_is_utf8 b p : b < 128 -> scalars p -> first_is b (utf8 p) = true ->
  exists q, p = b :: q /\ tl (utf8 p) = utf8 q.
Proof.
  intros Hb Hp E. apply first_is_inv in E.
  destruct (utf8_prefix [b] p (tl (utf8 p))) as (q & Ep & Eq);
    [auto using scalar_ascii|assumption|rewrite utf8_byte by assumption; symmetry; exact E|].
  exists q. split; [exact Ep (* [b] ++ q is b :: q *)|exact Eq].
Qed.
Lemma last_is_utf8 b p : b < 128 -> scalars p -> last_is b (utf8 p) = true ->
  exists q, p = q ++ [b] /\ removelast (utf8 p) = utf8 q.
Proof.
  intros Hb Hp E. apply last_is_inv in E.
  apply (utf8_suffix [b] p (removelast (utf8 p))); [auto using scalar_ascii|assumption|].
  rewrite utf8_byte by assumption. symmetry. exact E.
Qed.

Lemma pct_lt : PCT < 128. Proof. reflexivity. Qed.

(* every test the classifier makes on the bytes is the same test on the code points: '%', '_', '\\' are ASCII *)
Theorem classify_like_cases p : scalars p -> like_class p (classify_like (utf8 p)).
Proof.
  intros Hp. unfold classify_like. rewrite cps_of_utf8, contains_like_pattern_utf8 by assumption.
  destruct (existsb is_special p) eqn:Hsp; cbn [negb]; [|now apply LC_eq].
  destruct (last_is PCT (utf8 p)) eqn:Hl; cbn [andb].
  - destruct (last_is_utf8 PCT p pct_lt Hp Hl) as (q & Ep & Er). rewrite Er, contains_like_pattern_utf8.
    destruct (existsb is_special q) eqn:Hq; cbn [negb]; [|now apply (LC_starts p q)].
    destruct (first_is PCT (utf8 p)) eqn:Hf; cbn [andb]; [|apply LC_regex].
    destruct (first_is_utf8 PCT p pct_lt Hp Hf) as (q1 & Ep1 & Et). rewrite Et, contains_like_pattern_utf8.
    destruct (existsb is_special q1) eqn:Hq1; cbn [negb]; [|now apply (LC_ends p q1)].
    (* p = q % = % q1 with q not empty: q = % q2 and q1 = q2 % *)
    destruct q as [|c q2]; [discriminate|]. rewrite Ep in Ep1. injection Ep1 as -> <-.
    rewrite utf8_app, (utf8_byte PCT pct_lt), removelast_last, contains_like_pattern_utf8.
    destruct (existsb is_special q2) eqn:Hq2; cbn [negb]; [apply LC_regex|now apply (LC_contains p q2)].
  - destruct (first_is PCT (utf8 p)) eqn:Hf; cbn [andb]; [|apply LC_regex].
    destruct (first_is_utf8 PCT p pct_lt Hp Hf) as (q1 & Ep1 & Et). rewrite Et, contains_like_pattern_utf8.
    destruct (existsb is_special q1) eqn:Hq1; cbn [negb]; [apply LC_regex|now apply (LC_ends p q1)].
Qed.

Theorem like_class_sound p h pr : scalars p -> scalars h -> like_class p pr ->
  evaluate pr (utf8 h) = like_spec p h.
Proof.
  intros Hp Hh C. unfold like_spec. destruct C as [Hpl|q Ep Hq|q Ep Hq|q Ep Hq|]; cbn [evaluate].
  - rewrite like_plain by assumption. rewrite eq_bytes_sound by assumption. apply eq_cp_sym.
  - subst p. apply Forall_app in Hp as [Hq' _]. rewrite like_prefix by assumption.
    now apply starts_with_bytes_sound.
  - subst p. inversion Hp; subst. rewrite like_suffix by assumption. now apply ends_with_bytes_sound.
  - subst p. inversion Hp as [|? ? _ Hp']; subst. apply Forall_app in Hp' as [Hq' _].
    rewrite like_infix by assumption. now apply contains_bytes_sound.
  - rewrite cps_of_utf8 by assumption. apply regex_like_sound.
Qed.

Theorem like_classify_sound p h : scalars p -> scalars h -> like_m (utf8 p) (utf8 h) = like_spec p h.
Proof. intros Hp Hh. unfold like_m. apply like_class_sound; auto using classify_like_cases. Qed.

Theorem nlike_is_negation p h : scalars p -> scalars h -> nlike_m (utf8 p) (utf8 h) = negb (like_spec p h).
Proof. intros Hp Hh. unfold nlike_m. fold (like_m (utf8 p) (utf8 h)). rewrite like_classify_sound by assumption. apply xorb_true_r. Qed.

(* the array form (evaluate_array: length pre-check for Eq, StringView prefix / suffix iterators, negation) *)
Lemma evaluate_elem_xorb view pr h neg : evaluate_elem view pr h neg = xorb (evaluate pr h) neg.
Proof.
  unfold evaluate_elem. f_equal. destruct pr as [v|v|v|v|v|v|v|ci r]; cbn [evaluate].
  - (* PEq: equal strings have equal lengths *)
    rewrite !bytes_eq_cp, (eq_cp_sym v h). destruct (eq_cp h v) eqn:E; [|apply andb_false_r].
    apply eq_cp_iff in E. subst. now rewrite Nat.eqb_refl.
  - (* PContains *) reflexivity.
  - (* PStartsWith *) destruct view; [apply view_prefix_path|reflexivity].
  - (* PEndsWith *) destruct view; [apply view_suffix_path|reflexivity].
  - (* PIEqAscii *) reflexivity.
  - (* PIStartsWithAscii *) destruct view; [apply view_prefix_path|reflexivity].
  - (* PIEndsWithAscii *) destruct view; [apply view_suffix_path|reflexivity].
  - (* PRegex *) reflexivity.
Qed.

Theorem like_scalar_sound view neg p h : scalars p -> scalars h ->
  like_scalar_m view neg (utf8 p) (utf8 h) = xorb (like_spec p h) neg.
Proof.
  intros Hp Hh. unfold like_scalar_m. rewrite evaluate_elem_xorb. fold (like_m (utf8 p) (utf8 h)).
  now rewrite like_classify_sound.
Qed.

Theorem starts_with_sound view h n : scalars h -> scalars n -> starts_with_m view (utf8 h) (utf8 n) = starts_with_spec h n.
Proof. intros. unfold starts_with_m. rewrite evaluate_elem_xorb, xorb_false_r. now apply starts_with_bytes_sound. Qed.
Theorem ends_with_sound view h n : scalars h -> scalars n -> ends_with_m view (utf8 h) (utf8 n) = ends_with_spec h n.
Proof. intros. unfold ends_with_m. rewrite evaluate_elem_xorb, xorb_false_r. now apply ends_with_bytes_sound. Qed.
Theorem contains_sound h n : scalars h -> scalars n -> contains_m (utf8 h) (utf8 n) = contains_spec h n.
Proof. intros. now apply contains_bytes_sound. Qed.

Inductive ilike_class (p : list N) : pred -> Prop :=
| IC_eq : plain p -> ilike_class p (PIEqAscii p)
| IC_starts q : p = q ++ [PCT] -> plain q -> ilike_class p (PIStartsWithAscii q)
| IC_ends q : p = PCT :: q -> plain q -> ilike_class p (PIEndsWithAscii q)
| IC_regex : ilike_class p (PRegex true (regex_like p)).

(* an ASCII pattern is its own encoding, so the classifier is looking at the code points themselves *)
Theorem classify_ilike_cases p ha : is_ascii p = true -> ilike_class p (classify_ilike (utf8 p) ha).
Proof.
  intros Ha. pose proof (cps_of_utf8 p (ascii_scalars p Ha)) as Ec. rewrite (utf8_ascii p Ha) in *.
  unfold classify_ilike. rewrite Ec, Ha, andb_true_r. destruct ha; [|apply IC_regex].
  destruct (contains_like_pattern p) eqn:Hsp; cbn [negb]; [|now apply IC_eq].
  destruct (last_is PCT p && negb (ends_with_bsl_pct p) && negb (contains_like_pattern (removelast p))) eqn:Hs.
  - (* the "\\%" guard is not used: such a pattern has a backslash in removelast p, which the last conjunct excludes *)
    apply andb_true_iff in Hs as [Hs Hq]. apply andb_true_iff in Hs as [Hl _]. apply negb_true_iff in Hq.
    apply (IC_starts p (removelast p)); [now apply last_is_inv|exact Hq].
  - destruct (first_is PCT p && negb (contains_like_pattern (tl p))) eqn:He; [|apply IC_regex].
    apply andb_true_iff in He as [Hf Hq]. apply negb_true_iff in Hq.
    apply (IC_ends p (tl p)); [now apply first_is_inv|exact Hq].
Qed.

Theorem ilike_class_sound p h pr : is_ascii h = true -> ilike_class p pr ->
  evaluate pr (utf8 h) = ilike_ascii_spec p h.
Proof.
  intros Hb C. pose proof (cps_of_utf8 h (ascii_scalars h Hb)) as Ec. rewrite (utf8_ascii h Hb) in *.
  unfold ilike_ascii_spec. destruct C as [Hpl|q Ep Hq|q Ep Hq|]; cbn [evaluate].
  - rewrite like_plain by assumption. apply equals_bytes_eqlist.
  - subst p. rewrite like_prefix by assumption. apply bytes_starts_with_prefix.
  - subst p. rewrite like_suffix by assumption. apply bytes_ends_with_suffix.
  - rewrite Ec. apply regex_like_sound.
Qed.

(* both the ASCII fast paths (haystack array all ASCII) and the regex path give ASCII-folded LIKE *)
Theorem ilike_ascii_paths_sound ha p h : is_ascii p = true -> is_ascii h = true ->
  ilike_m ha (utf8 p) (utf8 h) = ilike_ascii_spec p h.
Proof. intros Ha Hb. unfold ilike_m. apply ilike_class_sound; auto using classify_ilike_cases. Qed.

Theorem ilike_scalar_sound view neg ha p h : is_ascii p = true -> is_ascii h = true ->
  ilike_scalar_m view neg ha (utf8 p) (utf8 h) = xorb (ilike_ascii_spec p h) neg.
Proof.
  intros Ha Hb. unfold ilike_scalar_m. rewrite evaluate_elem_xorb. fold (ilike_m ha (utf8 p) (utf8 h)).
  now rewrite ilike_ascii_paths_sound.
Qed.
