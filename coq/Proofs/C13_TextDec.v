(* C13 — decimal text, on the digit and literal vocabulary of the first part of C13_TextIntEq.v:
   format_decimal_str prints the canonical literal with exactly `scale` fraction digits; on it the
   specification reader and parse_string_to_decimal_native (19-digit chunks folded with checked multiply /
   add) both return the value. *)
From Coq Require Import List ZArith Bool Lia.
From AV Require Import Base.ListX Model.C13_Num Model.C13_Decimal Model.C13_Text.
From AV Require Import Proofs.C13_Pow Proofs.C13_TextIntEq.
Import ListNotations.
Local Open Scope Z_scope.

Theorem fmt_dec_canon : forall v p s, 1 <= p -> 0 <= s -> Z.abs v < 10 ^ p ->
  exists ip fp, fmt_dec v p s = canon (v <? 0) ip fp
    /\ Forall digit ip /\ Forall digit fp /\ ip <> [] /\ length fp = Z.to_nat s /\ dv 0 (ip ++ fp) = Z.abs v.
Proof.
  intros v p s Hp Hs Hv.
  destruct (digits_of_spec (Z.abs v) (Z.abs_nonneg v)) as (Hne & Hd & Hval & _).
  pose proof (digits_len_bound (Z.abs v) p Hp ltac:(lia)) as HL.
  set (ds := digits_of (Z.abs v)) in *.
  unfold fmt_dec. fold ds. cbv zeta.
  assert (Lr : length (chars_of ds) = length ds) by (unfold chars_of; apply map_length).
  rewrite Lr, Nat.min_r by lia. rewrite <- Lr, firstn_all, Lr.
  set (sign := if v <? 0 then [MINUS] else []).
  destruct (Z.eqb_spec s 0) as [->|Hs0].
  - exists ds, []. unfold canon, body. fold sign. rewrite !app_nil_r.
    split; [reflexivity|]. split; [assumption|]. split; [constructor|]. split; [assumption|]. split; [reflexivity|assumption].
  - destruct (Z.ltb_spec s 0); [lia|].
    destruct (Z.gtb_spec (Z.of_nat (length ds)) s) as [Hgt|Hle].
    + set (k := (length ds - Z.to_nat s)%nat).
      exists (firstn k ds), (skipn k ds).
      assert (Hk : (length (sign ++ chars_of ds) - Z.to_nat s = length sign + k)%nat).
      { rewrite app_length, Lr. subst k. lia. }
      rewrite Hk. rewrite firstn_app_2, skipn_app.
      replace (length sign + k - length sign)%nat with k by lia.
      rewrite (skipn_all2 sign) by lia. cbn [app].
      rewrite chars_firstn, chars_skipn.
      assert (Hsk : skipn k ds <> []).
      { intros E. assert (L : length (skipn k ds) = 0%nat) by (rewrite E; reflexivity). rewrite skipn_length in L. subst k. lia. }
      split.
      * unfold canon, body. fold sign. rewrite <- app_assoc. f_equal. f_equal.
        destruct (skipn k ds) eqn:E; [congruence|]. reflexivity.
      * split; [apply Forall_firstn; assumption|]. split; [apply Forall_skipn; assumption|].
        split; [intros E; assert (L : length (firstn k ds) = 0%nat) by (rewrite E; reflexivity); rewrite firstn_length in L; subst k; lia|].
        split; [rewrite skipn_length; subst k; lia|]. rewrite firstn_skipn. assumption.
    + exists [0], (repeat 0 (Z.to_nat s - length ds) ++ ds).
      split.
      * unfold canon, body. fold sign. f_equal. cbn [chars_of map app]. unfold pad_left.
        rewrite Lr, chars_repeat0, <- chars_app.
        destruct (repeat 0 (Z.to_nat s - length ds) ++ ds) eqn:E.
        -- apply app_eq_nil in E. destruct E as [_ E]. congruence.
        -- reflexivity.
      * split; [constructor; [unfold digit; lia|constructor]|].
        split; [apply Forall_app; split; [apply Forall_forall; intros x Hx; apply repeat_spec in Hx; subst; unfold digit; lia|assumption]|].
        split; [discriminate|].
        split; [rewrite app_length, repeat_length; lia|].
        cbn [app]. rewrite dv_cons. change (0 * 10 + 0) with 0. rewrite dv_zeros. assumption.
Qed.

Lemma split_point_app : forall l1 l2, Forall (fun c => c <> POINT) l1 ->
  split_point (l1 ++ l2) = (l1 ++ fst (split_point l2), snd (split_point l2)).
Proof.
  induction l1 as [|c r IH]; intros l2 H; cbn [app split_point].
  - destruct (split_point l2); reflexivity.
  - rewrite (proj2 (Z.eqb_neq c POINT)), (IH l2) by (inversion H; assumption). reflexivity.
Qed.

(* the fraction comes back as the reader takes it: no point and an empty fraction read alike *)
Lemma split_point_body : forall ip fp, Forall digit ip ->
  exists fo, split_point (body ip fp) = (chars_of ip, fo) /\ match fo with Some f => f | None => [] end = chars_of fp.
Proof.
  intros ip fp Hip. unfold body. rewrite split_point_app.
  - destruct fp; cbn [split_point]; rewrite ?Z.eqb_refl; cbn [fst snd]; rewrite app_nil_r; eexists; split; reflexivity.
  - eapply Forall_impl; [|exact (chars_digitc ip Hip)]. intros c Hc. apply (digitc_props c Hc).
Qed.

Lemma parse_canon : forall w p s (neg : bool) ip fp v,
  0 <= s -> Forall digit ip -> Forall digit fp -> ip <> [] -> length fp = Z.to_nat s ->
  v = sgn neg (dv 0 (ip ++ fp)) -> fits w true v = true -> in_prec p v = true ->
  parse_dec_spec w p s (canon neg ip fp) = Some v.
Proof.
  intros w p s neg ip fp v Hs Hip Hfp Hne Hlen Ev Hfit Hprec.
  pose proof (chars_digitc ip Hip) as Cip. pose proof (chars_digitc fp Hfp) as Cfp.
  unfold parse_dec_spec. cbv zeta. rewrite (trim_id _ _ (canon_nonws neg ip fp Hip Hfp)).
  fold (split_sign (canon neg ip fp)). rewrite (canon_sign neg ip fp Hip Hne).
  destruct (split_point_body ip fp Hip) as (fo & -> & ->). cbv iota beta.
  rewrite (proj2 (forallb_digits _) Cip), (proj2 (forallb_digits _) Cfp). cbn [andb negb].
  assert (Hnonempty : (match chars_of ip ++ chars_of fp with [] => true | _ => false end) = false).
  { destruct ip; [congruence|]. reflexivity. }
  rewrite Hnonempty.
  assert (Lc : length (chars_of fp) = Z.to_nat s) by (unfold chars_of; rewrite map_length; assumption).
  rewrite firstn_all2 by lia.
  assert (Hnth : nth_error (chars_of fp) (Z.to_nat s) = None) by (apply nth_error_None; lia).
  rewrite Hnth. rewrite Lc, Z2Nat.id by assumption. rewrite Z.sub_diag. change (10 ^ 0) with 1. rewrite Z.mul_1_r.
  unfold vals_of. rewrite map_app. fold (vals_of (chars_of ip)). fold (vals_of (chars_of fp)). rewrite !vals_chars.
  rewrite digits_val_dv. change (if neg then - dv 0 (ip ++ fp) else dv 0 (ip ++ fp)) with (sgn neg (dv 0 (ip ++ fp))).
  rewrite <- Ev, Hfit, Hprec. reflexivity.
Qed.

Theorem decimal_text_roundtrip_spec : forall w p s v,
  In w widths -> 1 <= p <= dec_maxp w -> 0 <= s -> Z.abs v < 10 ^ p ->
  parse_dec_spec w p s (fmt_dec v p s) = Some v.
Proof.
  intros w p s v Hw Hp Hs Hv.
  destruct (fmt_dec_canon v p s ltac:(lia) Hs Hv) as (ip & fp & E & Hip & Hfp & Hne & Hlen & Hval).
  rewrite E. apply parse_canon; try assumption.
  - rewrite Hval. symmetry. apply sgn_ltb_abs.
  - apply (in_prec_fits w p); [assumption|lia|assumption].
  - apply in_prec_true. assumption.
Qed.

Lemma fits_sgn : forall w neg x, In w widths -> 0 <= x < 10 ^ dec_maxp w -> fits w true (sgn neg x) = true.
Proof.
  intros w neg x Hw Hx. pose proof (dec_maxp_range w Hw).
  apply (in_prec_fits w (dec_maxp w)); [assumption|lia|]. unfold sgn. destruct neg; lia.
Qed.

(* fold_decimal_chunk on a state that represents the magnitude M = Vh * 10^clen + chunk *)
Lemma fold_chunk_ok : forall w neg Vh chunk clen M, In w widths ->
  0 <= Vh -> 0 <= clen -> 0 <= chunk < 10 ^ clen -> M = Vh * 10 ^ clen + chunk -> M < 10 ^ dec_maxp w ->
  fold_chunk w (sgn neg Vh) chunk clen neg = Some (sgn neg M).
Proof.
  intros w neg Vh chunk clen M Hw HV Hc Hch HM HB.
  assert (Pp : 0 < 10 ^ clen) by (apply Z.pow_pos_nonneg; lia).
  assert (HVle : Vh * 10 ^ clen <= M) by nia.
  unfold fold_chunk.
  assert (F1 : from_decimal w (if neg then - chunk else chunk) = Some (sgn neg chunk)).
  { apply from_decimal_some. apply (fits_sgn w neg chunk Hw). nia. }
  rewrite F1. cbn [obind].
  destruct (Z.eqb_spec (sgn neg Vh) 0) as [E0|N0].
  - assert (Vh = 0) by (unfold sgn in E0; destruct neg; lia). subst Vh. f_equal. f_equal. lia.
  - assert (V1 : 1 <= Vh) by (unfold sgn in N0; destruct neg; lia).
    assert (Hlt : clen < dec_maxp w).
    { apply (Z.pow_lt_mono_r_iff 10); [lia|pose proof (dec_maxp_range w Hw); lia|nia]. }
    unfold decimal_pow. rewrite (table_get_some w clen Hw) by lia. cbn [obind].
    replace (10 ^ clen - 1 + 1) with (10 ^ clen) by lia.
    assert (Em : sgn neg Vh * 10 ^ clen = sgn neg (Vh * 10 ^ clen)) by (unfold sgn; destruct neg; ring).
    rewrite checked_mul_some by (rewrite Em; apply (fits_sgn w neg _ Hw); nia).
    cbn [obind]. unfold checked_add, num_cast.
    assert (Es : sgn neg Vh * 10 ^ clen + sgn neg chunk = sgn neg M) by (subst M; unfold sgn; destruct neg; ring).
    rewrite Es. rewrite (fits_sgn w neg M Hw) by nia. reflexivity.
Qed.

(* the loop invariant: the state represents the magnitude M of the digits consumed so far ...
   (d_chunk is a u64 in the code and a Z here: a chunk stays below 10^MAX_CHUNK_DIGITS = 10^19 < 2^64,
   so it never wraps; this is the only thing the value 19 is for, and nothing below uses it) *)
Definition inv (neg : bool) (M : Z) (st : dstate) : Prop :=
  0 <= d_chunk_len st < MAX_CHUNK_DIGITS /\ 0 <= d_chunk st < 10 ^ d_chunk_len st
  /\ exists Vh, 0 <= Vh /\ d_value st = sgn neg Vh /\ Vh * 10 ^ d_chunk_len st + d_chunk st = M.
(* ... and records whether a digit (sd) and the point (sp) were seen and how many fraction digits (fr);
   no digit has been discarded *)
Definition rep (neg : bool) (M : Z) (sd sp : bool) (fr : Z) (st : dstate) : Prop :=
  inv neg M st /\ d_saw_digit st = sd /\ d_saw_point st = sp /\ d_fractionals st = fr /\ d_first_disc st = None.

Lemma rep_mk : forall neg M v c l sd sp fr, inv neg M (mk_dstate v c l sd sp fr None) ->
  rep neg M sd sp fr (mk_dstate v c l sd sp fr None).
Proof. intros neg M v c l sd sp fr I. exact (conj I (conj eq_refl (conj eq_refl (conj eq_refl eq_refl)))). Qed.

Lemma inv_nonneg : forall neg M st, inv neg M st -> 0 <= M.
Proof.
  intros neg M st (Hlen & Hch & Vh & HV & _ & <-).
  assert (0 < 10 ^ d_chunk_len st) by (apply Z.pow_pos_nonneg; lia). nia.
Qed.

Lemma dec_loop_digit : forall w scale neg d r st M sd sp fr, In w widths -> digit d ->
  rep neg M sd sp fr st -> M * 10 + d < 10 ^ dec_maxp w -> (sp = true -> fr < scale) ->
  exists st', dec_loop w scale neg ((d + ZERO) :: r) st = dec_loop w scale neg r st'
    /\ rep neg (M * 10 + d) true sp (if sp then fr + 1 else fr) st'.
Proof.
  intros w scale neg d r st M sd sp fr Hw Hd (I & SD & SP & FR & FD) HB Hfr.
  pose proof (inv_nonneg _ _ _ I) as HM. destruct I as (Hlen & Hch & Vh & HV & Eval & EM).
  cbn [dec_loop]. destruct (is_digit_char d Hd) as [E1 E2]. rewrite E1, E2, SP, FR, FD.
  assert (Hc : sp && (fr =? scale) = false).
  { destruct sp; [|reflexivity]. apply Z.eqb_neq. specialize (Hfr eq_refl). lia. }
  rewrite Hc. cbv zeta. unfold digit in Hd.
  assert (P10 : 10 ^ (d_chunk_len st + 1) = 10 ^ d_chunk_len st * 10) by (rewrite Z.pow_add_r by lia; reflexivity).
  assert (Hch' : 0 <= d_chunk st * 10 + d < 10 ^ (d_chunk_len st + 1)) by (rewrite P10; lia).
  assert (EM' : M * 10 + d = Vh * 10 ^ (d_chunk_len st + 1) + (d_chunk st * 10 + d)) by (rewrite P10; lia).
  destruct (Z.eqb_spec (d_chunk_len st + 1) MAX_CHUNK_DIGITS) as [E19|N19].
  - assert (Hl1 : 0 <= d_chunk_len st + 1) by lia.
    rewrite Eval, (fold_chunk_ok w neg Vh _ _ (M * 10 + d) Hw HV Hl1 Hch' EM' HB).
    eexists. split; [reflexivity|]. apply rep_mk.
    unfold inv. cbn [d_chunk_len d_chunk d_value]. change (10 ^ 0) with 1. split; [lia|]. split; [lia|].
    exists (M * 10 + d). split; [lia|]. split; [reflexivity|lia].
  - eexists. split; [reflexivity|]. apply rep_mk.
    unfold inv. cbn [d_chunk_len d_chunk d_value]. split; [lia|]. split; [assumption|].
    exists Vh. split; [assumption|]. split; [assumption|lia].
Qed.

Lemma dec_loop_run : forall w scale neg, In w widths -> forall ds st M sd sp fr rest,
  Forall digit ds -> rep neg M sd sp fr st -> dv M ds < 10 ^ dec_maxp w ->
  (sp = true -> fr + Z.of_nat (length ds) <= scale) ->
  exists st', dec_loop w scale neg (chars_of ds ++ rest) st = dec_loop w scale neg rest st'
    /\ rep neg (dv M ds) (match ds with [] => sd | _ => true end) sp (if sp then fr + Z.of_nat (length ds) else fr) st'.
Proof.
  intros w scale neg Hw ds. induction ds as [|d ds IH]; intros st M sd sp fr rest Hd R HB Hfr.
  - exists st. split; [reflexivity|]. replace (if sp then fr + Z.of_nat (length (@nil Z)) else fr) with fr by (destruct sp; cbn; lia). exact R.
  - pose proof (Forall_inv Hd) as D1. pose proof (Forall_inv_tail Hd) as D2. cbn [length] in Hfr.
    pose proof (inv_nonneg _ _ _ (proj1 R)) as HM0.
    rewrite dv_cons in *. pose proof (dv_ge ds (M * 10 + d) ltac:(unfold digit in D1; lia) D2) as G.
    destruct (dec_loop_digit w scale neg d (chars_of ds ++ rest) st M sd sp fr Hw D1 R ltac:(lia)
                ltac:(intros Hsp; specialize (Hfr Hsp); lia)) as (st1 & E1 & R1).
    destruct (IH st1 (M * 10 + d) true sp (if sp then fr + 1 else fr) rest D2 R1 HB
                ltac:(intros Hsp; specialize (Hfr Hsp); rewrite Hsp; lia)) as (st' & E & R').
    exists st'. split; [change (chars_of (d :: ds) ++ rest) with ((d + ZERO) :: chars_of ds ++ rest); rewrite E1; exact E|].
    replace (if sp then fr + Z.of_nat (length (d :: ds)) else fr)
      with (if sp then (if sp then fr + 1 else fr) + Z.of_nat (length ds) else (if sp then fr + 1 else fr))
      by (destruct sp; cbn [length]; lia).
    destruct ds; exact R'.
Qed.

Lemma dec_loop_point : forall w scale neg r st M sd fr, rep neg M sd false fr st ->
  exists st', dec_loop w scale neg (POINT :: r) st = dec_loop w scale neg r st' /\ rep neg M sd true fr st'.
Proof.
  intros w scale neg r st M sd fr (I & SD & SP & FR & FD). cbn [dec_loop]. change (is_digit POINT) with false. cbv iota.
  rewrite Z.eqb_refl, SP. eexists. split; [reflexivity|]. exact (conj I (conj SD (conj eq_refl (conj FR FD)))).
Qed.

Lemma dec_loop_body : forall w s neg ip fp, In w widths -> 0 <= s ->
  Forall digit ip -> Forall digit fp -> ip <> [] -> length fp = Z.to_nat s -> dv 0 (ip ++ fp) < 10 ^ dec_maxp w ->
  exists st sp, dec_loop w s neg (body ip fp) (mk_dstate 0 0 0 false false 0 None) = Some st
    /\ rep neg (dv 0 (ip ++ fp)) true sp s st.
Proof.
  intros w s neg ip fp Hw Hs Hip Hfp Hne Hlen HB. rewrite dv_app in *.
  pose proof (dv_ge ip 0 ltac:(lia) Hip) as Gip. pose proof (dv_ge fp (dv 0 ip) Gip Hfp) as Gfp.
  assert (R0 : rep neg 0 false false 0 (mk_dstate 0 0 0 false false 0 None)).
  { apply rep_mk. unfold inv. cbn [d_chunk_len d_chunk d_value]. change (10 ^ 0) with 1. split; [split; [lia|reflexivity]|]. split; [lia|].
    exists 0. split; [lia|]. split; [destruct neg; reflexivity|reflexivity]. }
  unfold body.
  destruct (dec_loop_run w s neg Hw ip _ 0 false false 0 (match fp with [] => [] | _ => POINT :: chars_of fp end)
              Hip R0 ltac:(lia) ltac:(discriminate)) as (st1 & E1 & R1).
  rewrite E1. assert (R1' : rep neg (dv 0 ip) true false 0 st1) by (destruct ip; [congruence|exact R1]).
  destruct fp as [|f fp'] eqn:Efp.
  - assert (s = 0) by (cbn [length] in Hlen; lia). subst s. exists st1, false. split; [reflexivity|exact R1'].
  - rewrite <- Efp in *. clear Efp.
    destruct (dec_loop_point w s neg (chars_of fp) st1 _ _ _ R1') as (st2 & E2 & R2). rewrite E2.
    rewrite <- (app_nil_r (chars_of fp)).
    destruct (dec_loop_run w s neg Hw fp st2 (dv 0 ip) true true 0 [] Hfp R2 HB ltac:(lia)) as (st3 & E3 & R3).
    rewrite E3. exists st3, true. split; [reflexivity|].
    replace s with (0 + Z.of_nat (length fp)) by lia. destruct fp; exact R3.
Qed.

Lemma finish_value : forall w neg stf A, In w widths -> inv neg A stf -> A < 10 ^ dec_maxp w ->
  (if 0 <? d_chunk_len stf then fold_chunk w (d_value stf) (d_chunk stf) (d_chunk_len stf) neg else Some (d_value stf))
  = Some (sgn neg A).
Proof.
  intros w neg stf A Hw (Hlen & Hch & Vh & HV & Eval & EM) HB.
  destruct (Z.ltb_spec 0 (d_chunk_len stf)) as [Hpos|Hz].
  - rewrite Eval. apply fold_chunk_ok; try assumption; try lia.
  - assert (E0 : d_chunk_len stf = 0) by lia. rewrite E0 in *. change (10 ^ 0) with 1 in *.
    rewrite Eval. f_equal. f_equal. lia.
Qed.

Theorem parse_native_canon : forall w s neg ip fp v, In w widths ->
  0 <= s -> Forall digit ip -> Forall digit fp -> ip <> [] -> length fp = Z.to_nat s ->
  v = sgn neg (dv 0 (ip ++ fp)) -> dv 0 (ip ++ fp) < 10 ^ dec_maxp w ->
  parse_dec_native w s (canon neg ip fp) = Some v.
Proof.
  intros w s neg ip fp v Hw Hs Hip Hfp Hne Hlen -> HB.
  unfold parse_dec_native. cbv zeta. rewrite (trim_id _ _ (canon_nonws neg ip fp Hip Hfp)).
  fold (split_sign (canon neg ip fp)). rewrite (canon_sign neg ip fp Hip Hne).
  destruct (dec_loop_body w s neg ip fp Hw Hs Hip Hfp Hne Hlen HB) as (st & sp & E & I & SD & _ & FR & FD).
  rewrite E, (finish_value w neg st _ Hw I HB), SD, FR, Z.ltb_irrefl, FD. reflexivity.
Qed.

Theorem decimal_text_roundtrip : forall w p s v,
  In w widths -> 1 <= p <= dec_maxp w -> 0 <= s <= dec_maxs w -> Z.abs v < 10 ^ p ->
  exists f, cast_str_dec w p s = Some f /\ f (fmt_dec v p s) = Some v.
Proof.
  intros w p s v Hw Hp Hs Hv.
  unfold cast_str_dec.
  assert (C : (s <? 0) || (dec_maxs w <? s) = false).
  { apply orb_false_iff. split; [apply Z.ltb_ge|apply Z.ltb_ge]; lia. }
  rewrite C. eexists. split; [reflexivity|]. cbv beta.
  destruct (fmt_dec_canon v p s ltac:(lia) ltac:(lia) Hv) as (ip & fp & E & Hip & Hfp & Hne & Hlen & Hval).
  rewrite E.
  assert (HB : dv 0 (ip ++ fp) < 10 ^ dec_maxp w).
  { rewrite Hval. assert (10 ^ p <= 10 ^ dec_maxp w) by (apply Z.pow_le_mono_r; lia). lia. }
  assert (Ev : v = sgn (v <? 0) (dv 0 (ip ++ fp))) by (rewrite Hval; symmetry; apply sgn_ltb_abs).
  rewrite (parse_native_canon w s (v <? 0) ip fp v Hw ltac:(lia) Hip Hfp Hne Hlen Ev HB). cbn [obind].
  rewrite check_prec_spec by (assumption || lia).
  assert (P : in_prec p v = true) by (apply in_prec_true; assumption). rewrite P. reflexivity.
Qed.
