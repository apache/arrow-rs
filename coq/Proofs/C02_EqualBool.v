(* C02 — arrow-data's boolean_equal (byte-aligned fast path: whole bytes then the suffix bits; the
   unaligned BitChunks comparison; the set-bit index loop when the range holds nulls) decides exactly
   the equality of the logical boolean columns. *)
From Coq Require Import List Arith NArith ZArith Bool Lia.
From AV Require Import Base.Bits Base.Bytes Model.C09_Layout Model.C02_Logical Model.C02_Equal.
From AV Require Import Proofs.C02_EqualNulls.
Import ListNotations.

Lemma byte_eq_bits u v : (u < 2^8)%N -> (v < 2^8)%N ->
  (u = v <-> forall j, j < 8 -> N.testbit u (N.of_nat j) = N.testbit v (N.of_nat j)).
Proof.
  intros Hu Hv. split; [now intros ->|]. intros H. apply N.bits_inj. intros k.
  destruct (N.lt_ge_cases k 8) as [Hk|Hk].
  - specialize (H (N.to_nat k) ltac:(lia)). now rewrite N2Nat.id in H.
  - now rewrite (testbit_high u 8 k Hu Hk), (testbit_high v 8 k Hv Hk).
Qed.

Lemma bytes_eq_bits x : forall y, wf_bytes x -> wf_bytes y -> length x = length y ->
  (x = y <-> forall i, i < 8 * length x -> bit_at x i = bit_at y i).
Proof.
  induction x as [|u x IH]; intros [|v y] Hx Hy Hl; cbn [length] in Hl; try discriminate.
  - split; [reflexivity | intros _; reflexivity].
  - inversion Hx as [|? ? Hu Hx']; inversion Hy as [|? ? Hv Hy']; subst. split; [now intros ->|].
    intros H. f_equal.
    + apply (byte_eq_bits u v Hu Hv). intros j Hj. specialize (H j ltac:(cbn [length]; lia)).
      now rewrite !bit_at_cons_lt in H by exact Hj.
    + apply IH; auto. intros i Hi. specialize (H (8 + i) ltac:(cbn [length]; lia)).
      rewrite !bit_at_cons_ge in H by lia. now replace (8 + i - 8) with i in H by lia.
Qed.

Lemma equal_len_bits l r ka kb q : wf_bytes l -> wf_bytes r -> ka + q <= length l -> kb + q <= length r ->
  (equal_len l r ka kb q = true <-> forall i, i < 8 * q -> bit_at l (8 * ka + i) = bit_at r (8 * kb + i)).
Proof.
  intros Hl Hr Hla Hlb. rewrite equal_len_iff.
  rewrite bytes_eq_bits; [| now apply wf_firstn_skipn | now apply wf_firstn_skipn | rewrite !firstn_skipn_length; lia].
  rewrite firstn_skipn_length by lia.
  assert (Hq : forall i, i < 8 * q -> i / 8 < q) by (intros i; now apply Nat.div_lt_upper_bound).
  split; intros H i Hi; specialize (H i Hi).
  - now rewrite !bit_at_firstn, !bit_at_skipn in H by exact (Hq i Hi).
  - now rewrite !bit_at_firstn, !bit_at_skipn by exact (Hq i Hi).
Qed.

Lemma forall_lt_add p r (C : nat -> Prop) :
  (forall i, i < p + r -> C i) <-> (forall i, i < p -> C i) /\ (forall i, i < r -> C (p + i)).
Proof.
  split.
  - intros H. split; intros i Hi; apply H; lia.
  - intros [H1 H2] i Hi. destruct (Nat.lt_ge_cases i p); [now apply H1|].
    replace i with (p + (i - p)) by lia. apply H2. lia.
Qed.

Lemma aligned_path_iff l r ka kb q rem :
  wf_bytes l -> wf_bytes r -> ka + q <= length l -> kb + q <= length r ->
  ((if (0 <? q) && negb (equal_len l r ka kb q) then false
    else if Nat.eqb rem 0 then true else equal_bits l r (8 * ka + 8 * q) (8 * kb + 8 * q) rem) = true
   <-> forall i, i < 8 * q + rem -> bit_at l (8 * ka + i) = bit_at r (8 * kb + i)).
Proof.
  intros Hl Hr Hla Hlb.
  rewrite (forall_lt_add (8 * q) rem (fun i => bit_at l (8 * ka + i) = bit_at r (8 * kb + i))). cbn beta.
  pose proof (equal_len_bits l r ka kb q Hl Hr Hla Hlb) as Hq.
  assert (Hrem : (if Nat.eqb rem 0 then true else equal_bits l r (8 * ka + 8 * q) (8 * kb + 8 * q) rem) = true
                 <-> forall i, i < rem -> bit_at l (8 * ka + (8 * q + i)) = bit_at r (8 * kb + (8 * q + i))).
  { destruct (Nat.eqb_spec rem 0) as [->|_]; [split; [intros _ i Hi; lia | reflexivity]|].
    rewrite equal_bits_iff. split; intros H i Hi; specialize (H i Hi); [now rewrite !Nat.add_assoc | now rewrite !Nat.add_assoc in H]. }
  destruct (equal_len l r ka kb q); cbn [negb].
  - rewrite andb_false_r, Hrem. split; [intros H; split; [now apply Hq | exact H] | now intros [_ H]].
  - (* the bytes differ; with q = 0 there are no bytes, and equal_len cannot have failed *)
    rewrite andb_true_r. destruct (Nat.ltb_spec 0 q) as [Hpos|Hz].
    + split; [discriminate | intros [H _]; now apply Hq in H].
    + assert (Hf : false = true) by (apply Hq; intros i Hi; lia). discriminate Hf.
Qed.

Theorem boolean_equal_iff a b ls rs n :
  wf_bytes (buf a 0) -> wf_bytes (buf b 0) ->
  ls + p_off a + n <= 8 * length (buf a 0) -> rs + p_off b + n <= 8 * length (buf b 0) ->
  (forall i, i < n -> slot_valid a (ls + i) = slot_valid b (rs + i)) ->
  (boolean_equal a b ls rs n = true
   <-> forall i, i < n -> slot_valid a (ls + i) = true ->
         bit_at (buf a 0) (ls + p_off a + i) = bit_at (buf b 0) (rs + p_off b + i)).
Proof.
  intros Hwa Hwb Hla Hlb Hv. unfold boolean_equal. cbn zeta.
  destruct (contains_nulls (p_nulls a) ls n) eqn:Ec; cbn [negb].
  - destruct (nulls_present Hv Ec) as (ln & _ & Ea & _). rewrite Ea.
    apply (index_loop_iff Ea). intros i _. apply eqb_true_iff.
  - rewrite (all_valid_iff _ Ec).
    destruct (Nat.eqb (ls mod 8) 0 && Nat.eqb (rs mod 8) 0 && Nat.eqb (p_off a mod 8) 0 && Nat.eqb (p_off b mod 8) 0) eqn:Eal.
    + (* byte-aligned: every position is 8 * its quotient and n = 8 * (n / 8) + n mod 8, which brings the
         path to the form of aligned_path_iff; quotients and remainder stay opaque *)
      rewrite !andb_true_iff, !Nat.eqb_eq in Eal. destruct Eal as [[[E1 E2] E3] E4].
      apply Nat.div_exact in E1, E2, E3, E4; try discriminate.
      pose proof (Nat.div_mod n 8 ltac:(discriminate)) as Hn.
      assert (HA : ls + p_off a = 8 * (ls / 8 + p_off a / 8)) by (now rewrite Nat.mul_add_distr_l, <- E1, <- E3).
      assert (HB : rs + p_off b = 8 * (rs / 8 + p_off b / 8)) by (now rewrite Nat.mul_add_distr_l, <- E2, <- E4).
      assert (Ka : ls / 8 + p_off a / 8 + n / 8 <= length (buf a 0)) by (clear - Hla HA Hn; lia).
      assert (Kb : rs / 8 + p_off b / 8 + n / 8 <= length (buf b 0)) by (clear - Hlb HB Hn; lia).
      replace (n - n mod 8) with (8 * (n / 8)) by (symmetry; apply Nat.add_sub_eq_r; now symmetry).
      rewrite (Nat.add_shuffle0 ls), (Nat.add_shuffle0 rs), HA, HB, aligned_path_iff by assumption.
      now rewrite <- Hn.
    + apply equal_bits_iff.
Qed.

Lemma spec_node_bool a : p_ty a = TBool -> spec_node a = true ->
  spec_nulls a = true /\ p_off a + p_len a <= 8 * length (buf a 0).
Proof.
  intros Ht H. unfold spec_node in H. rewrite Ht in H. cbn zeta in H. rewrite !andb_true_iff, Nat.leb_le in H.
  split; [tauto|]. assert (Hb : (p_off a + p_len a + 7) / 8 <= length (buf a 0)) by tauto.
  pose proof (Nat.div_mod (p_off a + p_len a + 7) 8 ltac:(discriminate)).
  pose proof (Nat.mod_upper_bound (p_off a + p_len a + 7) 8 ltac:(discriminate)). lia.
Qed.

Lemma reads_bool a : p_ty a = TBool -> reads a (fun i => LBool (bit_at (buf a 0) (p_off a + i))).
Proof. intros Ht i _. split; [|reflexivity]. destruct a as [ty len off nulls bufs kids]. cbn [p_ty] in Ht. now subst ty. Qed.

Lemma equal_values_bool a b ls rs n : p_ty a = TBool -> equal_values a b ls rs n = boolean_equal a b ls rs n.
Proof. destruct a. cbn [p_ty]. now intros ->. Qed.

Lemma bool_comparable ka kb : p_ty ka = TBool -> p_ty kb = TBool -> spec_node ka = true -> spec_node kb = true ->
  wf_bytes (buf ka 0) -> wf_bytes (buf kb 0) -> comparable ka kb.
Proof.
  intros Hta Htb Hsa Hsb Hwa Hwb.
  destruct (spec_node_bool ka Hta Hsa) as [Hna Hba]. destruct (spec_node_bool kb Htb Hsb) as [Hnb Hbb].
  apply (slots_comparable ka kb _ _ Hna Hnb (reads_bool ka Hta) (reads_bool kb Htb)).
  clear Hna Hnb Hsa Hsb. (* lia would translate them (ZifyBool) *)
  intros s1 s2 m H1 H2 Hv. rewrite (equal_values_bool ka kb) by exact Hta.
  rewrite boolean_equal_iff by (assumption || lia).
  split; intros H i Hi Hval; specialize (H i Hi Hval);
    rewrite (Nat.add_comm s1 (p_off ka)), (Nat.add_comm s2 (p_off kb)), <- !Nat.add_assoc in *; congruence.
Qed.

Theorem equal_iff_logical_bool a b :
  p_ty a = TBool -> spec_node a = true -> spec_node b = true ->
  wf_bytes (buf a 0) -> wf_bytes (buf b 0) ->
  (equal a b = true <-> p_ty a = p_ty b /\ logical a = logical b).
Proof.
  intros Ht Hsa Hsb Hwa Hwb. apply equal_iff_comparable. intros Htb. rewrite Ht in Htb. now apply bool_comparable.
Qed.

Example equal_bool_nonvacuous :
  let a := PArr TBool 10 8 None [[255; 165; 1]%N] [] in
  let b := PArr TBool 10 0 None [[165; 253]%N] [] in
  spec_node a = true /\ spec_node b = true /\ equal a b = true /\ equal a (PArr TBool 10 0 None [[165; 252]%N] []) = false.
Proof. vm_compute. repeat split. Qed.
