(* C10 — le_after, "the first k elements are in order and not above the rest", the one notion of sortedness the
   sorting models are proved against, with its lemmas; the contracts of the two std slice algorithms (oracles), met by
   insertion sort, and what sort_unstable_by(limit) guarantees under them; the sort predicate: code 1 is exactly
   its five clauses, it accepts every prefix of an ordering of all rows whose kept part is in order and not above
   the rest, and for a total preorder code 1 means what the property says about a sort output. *)
From Coq Require Import List ZArith Lia Bool Arith Permutation.
From AV Require Import Base.ListX Model.C10_Sort Proofs.C10_Cmp.
Import ListNotations.

Lemma NoDup_firstn {A} k : forall l : list A, NoDup l -> NoDup (firstn k l).
Proof.
  induction k as [|k IH]; intros [|a l] H; cbn; try constructor.
  - inversion H; subst. intros Hin. apply In_firstn in Hin. contradiction.
  - inversion H; subst. now apply IH.
Qed.

Lemma skipn_nth_error {T} (l : list T) n p : nth_error l n = Some p -> skipn n l = p :: skipn (S n) l.
Proof.
  intros H. rewrite (skipn_nth_cons n l p) by (apply nth_error_Some; congruence). now rewrite (nth_error_nth _ _ _ H).
Qed.

Lemma not_gt_iff c : not_gt c = true <-> c <> Gt.
Proof. destruct c; cbn; split; congruence. Qed.

(* the first k elements are in order and not above anything that follows them *)
Fixpoint le_after {R} (c : R -> R -> comparison) (k : nat) (l : list R) : Prop :=
  match k, l with
  | O, _ => True
  | _, [] => True
  | S k', x :: r => Forall (fun y => c x y <> Gt) r /\ le_after c k' r
  end.

Lemma le_after_nil {R} (c : R -> R -> comparison) k : le_after c k [].
Proof. now destruct k. Qed.

Lemma le_after_mono {R} (c : R -> R -> comparison) k k' l : k' <= k -> le_after c k l -> le_after c k' l.
Proof.
  revert k k'. induction l as [|x r IH]; intros k k' Hk H; [apply le_after_nil|].
  destruct k' as [|k']; [exact I|]. destruct k as [|k]; [lia|]. cbn in *. destruct H as [H1 H2].
  split; [exact H1|]. apply (IH k); [lia|exact H2].
Qed.

Lemma le_after_all {R} (c : R -> R -> comparison) k l :
  (forall x y, In x l -> In y l -> c x y <> Gt) -> le_after c k l.
Proof.
  revert k. induction l as [|x r IH]; intros k H; [apply le_after_nil|].
  destruct k as [|k]; [exact I|]. cbn. split.
  - apply Forall_forall. intros y Hy. apply H; [now left|now right].
  - apply IH. intros a b Ha Hb. apply H; now right.
Qed.

Lemma le_after_app {R} (c : R -> R -> comparison) A B : forall k,
  le_after c (length A) A -> (forall x y, In x A -> In y B -> c x y <> Gt) ->
  le_after c (k - length A) B -> le_after c k (A ++ B).
Proof.
  induction A as [|x A IH]; intros k HA HAB HB.
  - cbn in *. now rewrite Nat.sub_0_r in HB.
  - destruct k as [|k]; [exact I|]. cbn in HA |- *. destruct HA as [H1 H2]. split.
    + apply Forall_app. split; [exact H1|]. apply Forall_forall. intros y Hy. apply HAB; [now left|exact Hy].
    + apply IH; [exact H2| |exact HB]. intros a b Ha Hb. apply HAB; [now right|exact Hb].
Qed.

Lemma le_after_rev {R} (c : R -> R -> comparison) l : c_antisym c ->
  le_after c (length l) l -> le_after (fun x y => CompOpp (c x y)) (length (rev l)) (rev l).
Proof.
  intros Ha. induction l as [|x r IH]; intros H; [exact I|].
  cbn [length le_after] in H. destruct H as [H1 H2]. cbn [rev].
  apply le_after_app.
  - apply IH. exact H2.
  - intros y z Hy [<-|[]]. apply in_rev in Hy. rewrite Forall_forall in H1. specialize (H1 y Hy).
    rewrite (Ha x y). destruct (c x y); cbn in *; congruence.
  - generalize (length (rev r ++ [x]) - length (rev r)). intros [|k]; [exact I|].
    cbn [le_after]. split; [constructor|apply le_after_nil].
Qed.

Lemma le_after_map {R S} (f : S -> R) (c : R -> R -> comparison) k l :
  le_after (fun x y => c (f x) (f y)) k l <-> le_after c k (map f l).
Proof.
  revert k. induction l as [|x r IH]; intros k; [split; intros _; apply le_after_nil|].
  destruct k as [|k]; [reflexivity|]. cbn. rewrite IH. rewrite Forall_map. reflexivity.
Qed.

Lemma le_after_ext {R} (c1 c2 : R -> R -> comparison) k l :
  (forall x y, In x l -> In y l -> c1 x y = c2 x y) -> le_after c1 k l -> le_after c2 k l.
Proof.
  revert k. induction l as [|x r IH]; intros k H; [intros _; apply le_after_nil|].
  destruct k as [|k]; [trivial|]. cbn. intros [H1 H2]. split.
  - rewrite Forall_forall in *. intros y Hy. rewrite <- H; [now apply H1|now left|now right].
  - apply IH; [|exact H2]. intros a b Ha Hb. apply H; now right.
Qed.

Lemma le_after_sortedb {R} (c : R -> R -> comparison) k l : le_after c k l -> sortedb c (firstn k l) = true.
Proof.
  revert k. induction l as [|x r IH]; intros k H; [now destruct k|].
  destruct k as [|k]; [reflexivity|]. cbn in H. destruct H as [H1 H2].
  cbn [firstn]. specialize (IH k H2). destruct k as [|k]; [reflexivity|]. destruct r as [|y r']; [reflexivity|].
  cbn [firstn] in IH |- *. cbn [sortedb]. fold (firstn k r') in *.
  inversion H1 as [|? ? Hy _]; subst. apply not_gt_iff in Hy. rewrite Hy. exact IH.
Qed.

Lemma le_after_split {R} (c : R -> R -> comparison) k l x y :
  le_after c k l -> In x (firstn k l) -> In y (skipn k l) -> c x y <> Gt.
Proof.
  revert k. induction l as [|a r IH]; intros k H Hx Hy; [destruct k; contradiction|].
  destruct k as [|k]; [contradiction|]. cbn in H, Hx, Hy. destruct H as [H1 H2]. destruct Hx as [->|Hx].
  - rewrite Forall_forall in H1. apply H1. rewrite <- (firstn_skipn k r). apply in_or_app. now right.
  - now apply (IH k).
Qed.

Lemma le_after_mid {R} (c : R -> R -> comparison) A : forall x B,
  le_after c (length (A ++ x :: B)) (A ++ x :: B) ->
  Forall (fun z => c z x <> Gt) A /\ Forall (fun y => c x y <> Gt) B.
Proof.
  induction A as [|a A IH]; intros x B H; cbn in H.
  - split; [constructor|apply H].
  - destruct H as [Ha H]. destruct (IH x B H) as [H1 H2]. split; [|exact H2]. constructor; [|exact H1].
    rewrite Forall_forall in Ha. apply Ha, in_elt.
Qed.

Lemma le_after_pair {R} (c : R -> R -> comparison) A x B y C :
  le_after c (length (A ++ x :: B ++ y :: C)) (A ++ x :: B ++ y :: C) -> c x y <> Gt.
Proof. intros H. apply le_after_mid in H. destruct H as [_ H]. rewrite Forall_forall in H. apply H, in_elt. Qed.

Section SortedTpo.
  Context {R : Type} (c : R -> R -> comparison).
  Hypothesis Hc : tpo c.

  Lemma sortedb_head_le x l : sortedb c (x :: l) = true -> Forall (fun y => c x y <> Gt) l.
  Proof.
    revert x. induction l as [|y l IH]; intros x H; [constructor|].
    cbn [sortedb] in H. apply andb_true_iff in H. destruct H as [H1 H2].
    assert (Hxy : c x y <> Gt) by (now apply not_gt_iff).
    constructor; [exact Hxy|]. specialize (IH y H2).
    rewrite Forall_forall in *. intros z Hz. destruct Hc as (_ & _ & Ht). apply (Ht x y z); [exact Hxy|now apply IH].
  Qed.

  Lemma sortedb_tail x l : sortedb c (x :: l) = true -> sortedb c l = true.
  Proof. destruct l; [reflexivity|]. cbn [sortedb]. intros H. apply andb_true_iff in H. apply H. Qed.

  Lemma sortedb_le_after l : sortedb c l = true -> le_after c (length l) l.
  Proof.
    induction l as [|x l IH]; intros H; [exact I|]. cbn [length le_after].
    split; [now apply sortedb_head_le|]. apply IH. now apply sortedb_tail in H.
  Qed.
End SortedTpo.

Definition sort_contract {T} (so : (T -> T -> comparison) -> list T -> list T) : Prop :=
  forall c l, tpo c -> Permutation (so c l) l /\ sortedb c (so c l) = true.

(* select_nth_unstable_by(n): a permutation with the n-th element p in its sorted place,
   nothing before it greater than p, nothing after it less than p *)
Definition select_contract {T} (se : (T -> T -> comparison) -> nat -> list T -> list T) : Prop :=
  forall c n l, tpo c -> n < length l ->
    Permutation (se c n l) l /\
    exists p, nth_error (se c n l) n = Some p /\
      Forall (fun x => c x p <> Gt) (firstn n (se c n l)) /\
      Forall (fun y => c p y <> Gt) (skipn (S n) (se c n l)).

Section Oracles.
  Context {T : Type}.
  Variable so : (T -> T -> comparison) -> list T -> list T.
  Variable se : (T -> T -> comparison) -> nat -> list T -> list T.
  Hypothesis Hso : sort_contract so.
  Hypothesis Hse : select_contract se.

  Lemma sort_unstable_by_spec c k l : tpo c -> k <= length l ->
    Permutation (sort_unstable_by so se c k l) l /\ le_after c k (sort_unstable_by so se c k l).
  Proof.
    intros Hc Hk. unfold sort_unstable_by.
    destruct (length l =? k) eqn:E.
    - apply Nat.eqb_eq in E. destruct (Hso c l Hc) as [P Srt]. split; [exact P|].
      rewrite <- E, <- (Permutation_length P). now apply sortedb_le_after.
    - apply Nat.eqb_neq in E. unfold partial_sort. destruct k as [|n]; [split; [reflexivity|exact I]|].
      destruct (Hse c n l Hc) as (P & p & Hp & Hbefore & Hafter); [lia|].
      set (l' := se c n l) in *.
      destruct (Hso c (firstn n l') Hc) as [P2 S2].
      assert (Lf : length (so c (firstn n l')) = n).
      { rewrite (Permutation_length P2), firstn_length, (Permutation_length P). lia. }
      split.
      + now rewrite P2, firstn_skipn.
      + (* sorted part, then the n-th element, then the rest: each not above what follows *)
        rewrite (skipn_nth_error l' n p Hp). rewrite Forall_forall in Hbefore, Hafter. apply le_after_app.
        * now apply sortedb_le_after.
        * intros x y Hx Hy. apply (Permutation_in _ P2), Hbefore in Hx.
          destruct Hy as [<-|Hy]; [exact Hx|]. exact (tpo_trans _ Hc x p y Hx (Hafter y Hy)).
        * rewrite Lf. replace (S n - n) with 1 by lia. split; [now apply Forall_forall|exact I].
  Qed.
End Oracles.

Theorem sort_unstable_by_contract {T} (so : (T -> T -> comparison) -> list T -> list T)
    (se : (T -> T -> comparison) -> nat -> list T -> list T) :
  sort_contract so -> select_contract se ->
  forall c k l, tpo c -> k <= length l ->
  Permutation (sort_unstable_by so se c k l) l /\
  sortedb c (firstn k (sort_unstable_by so se c k l)) = true /\
  (forall x y, In x (firstn k (sort_unstable_by so se c k l)) -> In y (skipn k (sort_unstable_by so se c k l)) -> c x y <> Gt).
Proof.
  intros Hso Hse c k l Hc Hk. destruct (sort_unstable_by_spec so se Hso Hse c k l Hc Hk) as [P LA].
  split; [exact P|]. split; [now apply le_after_sortedb|]. intros x y. now apply le_after_split.
Qed.

Section Isort.
  Context {T : Type} (c : T -> T -> comparison).
  Hypothesis Hc : tpo c.

  Lemma insert_perm x l : Permutation (insert c x l) (x :: l).
  Proof.
    induction l as [|y l IH]; [reflexivity|]. cbn. destruct (c x y); try reflexivity.
    rewrite IH. apply perm_swap.
  Qed.

  Lemma insert_sorted x l : sortedb c l = true -> sortedb c (insert c x l) = true.
  Proof.
    induction l as [|y l IH]; intros Hs; [reflexivity|].
    cbn [insert]. destruct (c x y) eqn:E.
    - cbn [sortedb]. rewrite E. exact Hs.
    - cbn [sortedb]. rewrite E. exact Hs.
    - assert (Hyx : c y x <> Gt). { destruct Hc as (_ & Ha & _). rewrite Ha, E. cbn. congruence. }
      specialize (IH (sortedb_tail c y l Hs)).
      destruct l as [|z l'].
      + cbn. apply not_gt_iff in Hyx. now rewrite Hyx.
      + cbn [insert] in IH |- *. cbn [sortedb] in Hs. apply andb_true_iff in Hs. destruct Hs as [Hyz _].
        apply not_gt_iff in Hyx.
        (* x goes in front of z unless it is above it: y is followed by x, or still by z *)
        destruct (c x z); cbn [sortedb] in *; [rewrite Hyx; exact IH|rewrite Hyx; exact IH|rewrite Hyz; exact IH].
  Qed.

  Lemma isort_perm l : Permutation (isort c l) l.
  Proof. induction l as [|x l IH]; [reflexivity|]. cbn. rewrite insert_perm. now constructor. Qed.
  Lemma isort_sorted l : sortedb c (isort c l) = true.
  Proof. induction l as [|x l IH]; [reflexivity|]. cbn. now apply insert_sorted. Qed.
End Isort.

Lemma isort_contract {T} : sort_contract (@isort T).
Proof. intros c l Hc. split; [apply isort_perm|now apply isort_sorted]. Qed.

Lemma iselect_contract {T} : select_contract (@iselect T).
Proof.
  intros c n l Hc Hn. unfold iselect. split; [apply isort_perm|].
  pose proof (sortedb_le_after c Hc _ (isort_sorted c Hc l)) as LA.
  destruct (nth_error (isort c l) n) as [p|] eqn:E.
  2: { apply nth_error_None in E. rewrite (Permutation_length (isort_perm c l)) in E. lia. }
  exists p. split; [reflexivity|].
  rewrite <- (firstn_skipn n (isort c l)), (skipn_nth_error _ n p E) in LA. exact (le_after_mid c _ p _ LA).
Qed.

Lemma mark_spec i : forall m,
  match mark i m with
  | Some m' => nth_error m i = Some false /\ forall j, nth_error m' j = if j =? i then Some true else nth_error m j
  | None => nth_error m i <> Some false
  end.
Proof.
  induction i as [|i IH]; intros [|b m]; cbn; try discriminate.
  - destruct b; [discriminate|]. split; [reflexivity|]. now intros [|j].
  - specialize (IH m). destruct (mark i m) as [r|]; [|exact IH].
    split; [apply IH|]. intros [|j]; [reflexivity|apply IH].
Qed.

(* marking succeeds exactly on distinct positions that were free, and frees none *)
Lemma mark_all_spec out : forall m0,
  let ok := NoDup out /\ forall j, In j out -> nth_error m0 j = Some false in
  match mark_all out m0 with
  | Some m => ok /\ forall j, nth_error m j = Some false <-> nth_error m0 j = Some false /\ ~ In j out
  | None => ~ ok
  end.
Proof.
  induction out as [|i r IH]; intros m0; cbn [mark_all].
  { split; [split; [constructor|intros j []]|]. intros j. cbn [In]. tauto. }
  pose proof (mark_spec i m0) as M. destruct (mark i m0) as [m1|].
  2: { intros [_ H]. apply M, H. now left. }
  destruct M as [H0 H1]. specialize (IH m1). cbv zeta in IH.
  assert (F : forall j, nth_error m1 j = Some false <-> nth_error m0 j = Some false /\ i <> j).
  { intros j. rewrite H1. destruct (Nat.eqb_spec j i) as [->|N]; [split; [discriminate|now intros [_ []]]|apply not_eq_sym in N; tauto]. }
  (* the rest can be marked after i exactly when the whole list can be marked *)
  assert (OK : (NoDup r /\ forall j, In j r -> nth_error m1 j = Some false) <->
               (NoDup (i :: r) /\ forall j, In j (i :: r) -> nth_error m0 j = Some false)).
  { split.
    - intros [Hnd Hf]. split.
      + constructor; [|exact Hnd]. intros Hi. apply Hf, F in Hi. now destruct Hi.
      + intros j [<-|Hj]; [exact H0|]. now apply F, Hf.
    - intros [Hnd Hf]. inversion Hnd as [|? ? Hni Hnd']; subst. split; [exact Hnd'|].
      intros j Hj. apply F. split; [apply Hf; now right|]. now intros ->. }
  destruct (mark_all r m1) as [m|]; [|now rewrite <- OK].
  destruct IH as [IH1 IH2]. split; [now apply OK|].
  intros j. rewrite IH2, F. cbn [In]. split.
  - intros [[A B] C]. split; [exact A|]. now intros [E|D].
  - intros [A B]. repeat split; [exact A|intros E|intros D]; apply B; [now left|now right].
Qed.

Lemma unmarked_In {R} (rows : list R) : forall m r,
  In r (unmarked rows m) <-> exists i, nth_error rows i = Some r /\ nth_error m i = Some false.
Proof.
  induction rows as [|x rows IH]; intros [|b m] r; cbn [unmarked].
  1-3: split; [intros []|intros ([|i] & H1 & H2); discriminate].
  destruct b; cbn [In]; rewrite IH; split.
  - intros (i & H). now exists (S i).
  - intros ([|i] & H1 & H2); [discriminate|now exists i].
  - intros [<-|(i & H)]; [now exists 0|now exists (S i)].
  - intros ([|i] & H1 & H2); [left; now injection H1|right; now exists i].
Qed.

Lemma pick_map {R} (rows : list R) (row : nat -> R) out :
  (forall i, In i out -> nth_error rows i = Some (row i)) -> pick rows out = map row out.
Proof.
  induction out as [|i out IH]; intros H; [reflexivity|]. unfold pick in *. cbn.
  rewrite (H i (or_introl eq_refl)). cbn. f_equal. apply IH. intros j Hj. apply H. now right.
Qed.
Lemma pick_app {R} (rows : list R) a b : pick rows (a ++ b) = pick rows a ++ pick rows b.
Proof. unfold pick. apply flat_map_app. Qed.
Lemma pick_one {R} (rows : list R) i x : nth_error rows i = Some x -> pick rows [i] = [x].
Proof. intros H. unfold pick. cbn. now rewrite H. Qed.

(* a list is empty or ends in a last element, which heads its reverse: how sort_check finds the last kept row *)
Lemma last_cases {A} (l : list A) : l = [] /\ rev l = [] \/ exists k x, l = k ++ [x] /\ rev l = x :: rev k.
Proof.
  induction l as [|x k _] using rev_ind; [now left|]. right. exists k, x. split; [reflexivity|apply rev_unit].
Qed.

Section Accepts.
  Context {R : Type} (c : R -> R -> comparison) (rows : list R).

  (* the five clauses of the sort predicate as propositions *)
  Definition accepts (limit : option nat) (out : list nat) : Prop :=
    length out = out_len (length rows) limit /\ (forall i, In i out -> i < length rows) /\ NoDup out /\
    sortedb c (pick rows out) = true /\
    forall k x, pick rows out = k ++ [x] ->
      forall j y, ~ In j out -> nth_error rows j = Some y -> c x y <> Gt.

  (* nothing is assumed of c: the predicate is these five tests, whatever they mean for an arbitrary comparator *)
  Theorem sort_check_accepts limit out : sort_check c rows limit out = 1%Z <-> accepts limit out.
  Proof.
    unfold sort_check, accepts.
    destruct (Nat.eqb_spec (length out) (out_len (length rows) limit)) as [E1|N1]; cbn [negb];
      [|split; [discriminate|tauto]].
    destruct (forallb (fun i => i <? length rows) out) eqn:E2; cbn [negb].
    2: { split; [discriminate|]. intros (_ & Hr & _). apply not_true_iff_false in E2. destruct E2.
         apply forallb_forall. intros i Hi. now apply Nat.ltb_lt, Hr. }
    assert (Hr : forall i, In i out -> i < length rows).
    { intros i Hi. rewrite forallb_forall in E2. now apply Nat.ltb_lt, E2. }
    pose proof (mark_all_spec out (repeat false (length rows))) as M. cbv zeta in M.
    assert (Free : forall j, In j out -> nth_error (repeat false (length rows)) j = Some false)
      by (intros j Hj; now apply nth_error_repeat, Hr).
    destruct (mark_all out (repeat false (length rows))) as [m|];
      [|split; [discriminate|intros (_ & _ & Hnd & _); now destruct M]].
    destruct M as [[Hnd _] Hm].
    destruct (sortedb c (pick rows out)) eqn:E3; cbn [negb];
      [|split; [discriminate|intros (_ & _ & _ & F & _); discriminate]].
    (* the rows left out are those at the positions still unmarked *)
    assert (U : forall y, In y (unmarked rows m) <-> exists j, ~ In j out /\ nth_error rows j = Some y).
    { intros y. rewrite unmarked_In. split; intros (j & H1 & H2); exists j.
      - apply Hm in H2. tauto.
      - split; [exact H2|]. apply Hm. split; [|exact H1]. apply nth_error_repeat, nth_error_Some. congruence. }
    destruct (last_cases (pick rows out)) as [[E0 Er]|(k & x & Ek & Er)]; rewrite Er.
    { split; [intros _|reflexivity]. repeat split; try assumption.
      intros k x E. rewrite E0 in E. now destruct (app_cons_not_nil k [] x). }
    rewrite Ek.
    destruct (forallb (fun r => not_gt (c x r)) (unmarked rows m)) eqn:E4.
    - split; [intros _|reflexivity]. repeat split; try assumption.
      intros k' x' E j y Hj Hy. apply app_inj_tail in E. destruct E as [_ <-].
      rewrite forallb_forall in E4. apply not_gt_iff, E4, U. now exists j.
    - split; [discriminate|]. intros (_ & _ & _ & _ & F). apply not_true_iff_false in E4. destruct E4.
      apply forallb_forall. intros y Hy. apply U in Hy. destruct Hy as (j & Hj & Hy).
      apply not_gt_iff. exact (F _ x eq_refl j y Hj Hy).
  Qed.
End Accepts.

Section Check.
  Context {R : Type} (c : R -> R -> comparison) (rows : list R) (row : nat -> R).
  Hypothesis Hrow : forall i, i < length rows -> nth_error rows i = Some (row i).

  Theorem sort_check_firstn L limit :
    Permutation L (seq 0 (length rows)) ->
    le_after (fun i j => c (row i) (row j)) (out_len (length rows) limit) L ->
    sort_check c rows limit (firstn (out_len (length rows) limit) L) = 1%Z.
  Proof.
    intros P LA. set (lim := out_len (length rows) limit) in *.
    assert (Hlim : lim <= length rows) by (unfold lim, out_len; destruct limit; lia).
    assert (Hrange : forall i, In i L <-> i < length rows).
    { intros i. split; intros H.
      - apply (Permutation_in _ P), in_seq in H. apply H.
      - apply (Permutation_in _ (Permutation_sym P)), in_seq. split; [apply Nat.le_0_l|exact H]. }
    assert (Hout : forall i, In i (firstn lim L) -> i < length rows) by (intros i Hi; eapply Hrange, In_firstn, Hi).
    apply sort_check_accepts. unfold accepts. rewrite (pick_map rows row) by (intros i Hi; now apply Hrow, Hout).
    split; [|split; [exact Hout|split; [|split]]].
    - rewrite firstn_length, (Permutation_length P), seq_length. now apply Nat.min_l.
    - apply NoDup_firstn, (Permutation_NoDup (Permutation_sym P)), seq_NoDup.
    - rewrite <- firstn_map. apply le_after_sortedb, (le_after_map row), LA.
    - (* a row left out stands in L after the kept ones *)
      intros k x E j y Hj Hy.
      assert (Hk : In x (map row (firstn lim L))) by (rewrite E; apply in_elt).
      apply in_map_iff in Hk. destruct Hk as (i & <- & Hi).
      assert (Hjn : j < length rows) by (apply nth_error_Some; congruence).
      rewrite (Hrow j Hjn) in Hy. injection Hy as <-. apply (le_after_split _ lim L i j LA Hi).
      apply Hrange in Hjn. rewrite <- (firstn_skipn lim L) in Hjn. apply in_app_or in Hjn. now destruct Hjn.
  Qed.
End Check.

Lemma sort_check_nil {R} (c : R -> R -> comparison) rows limit :
  out_len (length rows) limit = 0 -> sort_check c rows limit [] = 1%Z.
Proof. intros H. unfold sort_check. rewrite H. reflexivity. Qed.

Theorem sort_check_sound {R} (c : R -> R -> comparison) (rows : list R) limit out : tpo c ->
  sort_check c rows limit out = 1%Z ->
  length out = out_len (length rows) limit /\ NoDup out /\ (forall i, In i out -> i < length rows) /\
  (forall l1 i l2 j l3 x y, out = l1 ++ i :: l2 ++ j :: l3 ->
     nth_error rows i = Some x -> nth_error rows j = Some y -> c x y <> Gt) /\
  (forall i j x y, In i out -> j < length rows -> ~ In j out ->
     nth_error rows i = Some x -> nth_error rows j = Some y -> c x y <> Gt).
Proof.
  intros Hc H. apply sort_check_accepts in H. destruct H as (E1 & Hr & Hnd & E3 & Hlast).
  pose proof (sortedb_le_after c Hc _ E3) as LA.
  split; [exact E1|]. split; [exact Hnd|]. split; [exact Hr|]. split.
  - intros l1 i l2 j l3 x y -> Hx Hy.
    change (i :: l2 ++ j :: l3) with ([i] ++ l2 ++ [j] ++ l3) in LA. rewrite !pick_app in LA.
    rewrite (pick_one rows i x Hx), (pick_one rows j y Hy) in LA. exact (le_after_pair c _ x _ y _ LA).
  - (* x is not above the last kept row, which is not above y *)
    intros i j x y Hi _ Hnj Hx Hy.
    assert (Hin : In x (pick rows out)) by (apply in_flat_map; exists i; rewrite Hx; split; [exact Hi|now left]).
    destruct (last_cases (pick rows out)) as [[E _]|(k & z & E & _)]; [now rewrite E in Hin|].
    apply (tpo_trans _ Hc x z y); [|exact (Hlast k z E j y Hnj Hy)].
    rewrite E in Hin, LA. apply in_app_or in Hin. destruct Hin as [Hin|[<-|[]]]; [|rewrite (tpo_refl _ Hc); discriminate].
    apply in_split in Hin. destruct Hin as (A & B & ->). rewrite <- app_assoc in LA. exact (le_after_pair c A x B z [] LA).
Qed.
