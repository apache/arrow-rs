(* C15: end-to-end progress.  The potential  |remaining batches| + 2 * |remaining request phases| +
   [not waiting on a satisfied request]  strictly decreases with every iteration of a driver whose answers
   contain the requested ranges; for answers that contain only some of them the number of ranges
   still to be supplied is added.  No move of the decoder raises either (adv_measures), and a batch
   handed out pays one unit (emit_potential). *)
From Coq Require Import List NArith Lia.
From AV Require Import Base.ListX Model.C15_PushBuf Model.C15_Machine Proofs.C15_Machine.
Import ListNotations.
Local Open Scope N_scope.

Section Drive.
Variables (Rw B U R : Type).
Variable fr_step : nat -> B -> fstep B R.
Variable plan : R -> phase Rw U.
Variable upd : B -> U -> B.
Variable file : list N.
Hypothesis plan_in_file : forall r, phase_ok Rw U file (in_file_range file) (plan r).

Notation phase := (phase Rw U).
Notation mach := (mach Rw B U).
Notation try_decode := (try_decode Rw B U R fr_step plan upd).
Notation sync_phase := (sync_phase Rw U file).
Notation fchunks := (file_chunks file).
Notation rest := (rest Rw B U R fr_step plan upd file).
Notation inv := (inv Rw B U file).
Notation enter := (enter Rw B U upd).
Notation adv := (adv Rw B U R fr_step plan upd file).
Notation walk := (walk Rw B U R fr_step plan upd file).
Notation emit := (emit Rw B U).
Notation call := (call Rw B U R fr_step plan upd).

(* number of request phases along the sync execution *)
Fixpoint plen (p : phase) : nat :=
  match p with PNeed req k => S (plen (k (fchunks req))) | _ => O end.
Fixpoint work_read (q : list nat) (b : B) : nat :=
  match q with
  | [] => O
  | g :: q' =>
      match fr_step g b with
      | FStop => O
      | FSkip b' => work_read q' b'
      | FRead r b' => (plen (plan r) + work_read q' (upd b' (snd (sync_phase (plan r)))))%nat
      end
  end.
Definition work_rg (q : list nat) (b : B) (st : rgst Rw U) : nat :=
  match st with
  | RGIdle => work_read q b
  | RGWait req k => (plen (PNeed req k) + work_read q (upd b (snd (sync_phase (PNeed req k)))))%nat
  end.
Definition phases_left (m : mach) : nat :=
  match m_dec _ _ _ m with
  | DFinished => O
  | _ => work_rg (m_queue _ _ _ m) (m_b _ _ _ m) (m_rg _ _ _ m)
  end.
(* an idle decoder counts as unsatisfied, so that entering a row group (adv_read) never has to pay for the
   request it may stop at *)
Definition unsat (m : mach) : nat :=
  match m_rg _ _ _ m with
  | RGWait req k => match needed_ranges (m_buf _ _ _ m) req with [] => O | _ => 1%nat end
  | RGIdle => 1%nat
  end.
(* the factor 2 is more than is needed, 1 would do in every proof below; it stands in the fuel bounds the
   property theorems state *)
Definition potential (m : mach) : nat := (length (rest m) + 2 * phases_left m + unsat m)%nat.

(* For suppliers that only make partial progress (one range per call, half of the ranges, ...):
   the number of ranges that remain to be supplied. *)
Fixpoint rlen (p : phase) : nat :=
  match p with PNeed req k => (length req + rlen (k (fchunks req)))%nat | _ => O end.
Fixpoint ranges_read (q : list nat) (b : B) : nat :=
  match q with
  | [] => O
  | g :: q' =>
      match fr_step g b with
      | FStop => O
      | FSkip b' => ranges_read q' b'
      | FRead r b' => (rlen (plan r) + ranges_read q' (upd b' (snd (sync_phase (plan r)))))%nat
      end
  end.
(* ranges of the phase about to run that are not buffered, plus all ranges of its continuation *)
Definition RL (p : phase) (pb : pushbuf) : nat :=
  match p with PNeed req k => (length (needed_ranges pb req) + rlen (k (fchunks req)))%nat | _ => O end.
Definition ranges_rg (q : list nat) (b : B) (st : rgst Rw U) (pb : pushbuf) : nat :=
  match st with
  | RGIdle => ranges_read q b
  | RGWait req k => (RL (PNeed req k) pb + ranges_read q (upd b (snd (sync_phase (PNeed req k)))))%nat
  end.
Definition ranges_left (m : mach) : nat :=
  match m_dec _ _ _ m with
  | DFinished => O
  | _ => ranges_rg (m_queue _ _ _ m) (m_b _ _ _ m) (m_rg _ _ _ m) (m_buf _ _ _ m)
  end.

Lemma unsat_le1 m : (unsat m <= 1)%nat.
Proof. unfold unsat. destruct (m_rg _ _ _ m) as [|req k]; [lia|]. destruct (needed_ranges _ req); lia. Qed.

Lemma RL_le p pb : (RL p pb <= rlen p)%nat.
Proof.
  destruct p; cbn [RL rlen]; [|lia|lia].
  pose proof (filter_length_le (fun r => negb (has_range pb r)) req). unfold needed_ranges. lia.
Qed.

Lemma phases_enter q b p pb : phases_left (enter q b p pb) = (plen p + work_read q (upd b (snd (sync_phase p))))%nat.
Proof. now destruct p. Qed.
Lemma ranges_enter q b p pb : ranges_left (enter q b p pb) = (RL p pb + ranges_read q (upd b (snd (sync_phase p))))%nat.
Proof. now destruct p. Qed.

Lemma adv_measures se m m1 : adv se m m1 ->
  (2 * phases_left m1 + unsat m1 <= 2 * phases_left m + unsat m /\ ranges_left m1 <= ranges_left m)%nat.
Proof.
  intros [se' q b req k pb Hn|se' g q b b' pb E|se' g q b r b' pb E|se' q b pb E|q b st pb];
    unfold phases_left at 2, ranges_left at 2, unsat at 2;
    cbn [m_dec m_queue m_b m_rg m_buf work_rg ranges_rg work_read ranges_read plen RL C15_Machine.sync_phase].
  - (* adv_pass: one phase fewer pays for the request that may be unsatisfied next *)
    rewrite phases_enter, ranges_enter, Hn. cbn [length].
    pose proof (unsat_le1 (enter q b (k (fchunks req)) (clear_ranges pb req))).
    pose proof (RL_le (k (fchunks req)) (clear_ranges pb req)). lia.
  - (* adv_skip *) rewrite E. cbn. lia.
  - (* adv_read *) rewrite phases_enter, ranges_enter, E.
    pose proof (unsat_le1 (enter q b' (plan r) pb)). pose proof (RL_le (plan r) pb). lia.
  - (* adv_stop *) cbn. lia.
  - (* adv_drain *) unfold unsat. cbn. lia.
Qed.

Lemma walk_potential se m y : walk se m y -> inv m -> (potential y <= potential m /\ ranges_left y <= ranges_left m)%nat.
Proof.
  induction 1 as [m|m m1 y Ha _ IH]; intros Hi; [lia|].
  destruct (adv_ok Rw B U R fr_step plan upd file plan_in_file _ _ _ Ha Hi) as [Hi1 Hr]. pose proof (adv_measures _ _ _ Ha). specialize (IH Hi1).
  unfold potential in *. rewrite Hr in IH. lia.
Qed.

Lemma emit_potential se y m' res : emit se y m' res ->
  (potential m' + length (ev_batches Rw (ev_of Rw res)) <= potential y /\ ranges_left m' <= ranges_left y)%nat.
Proof.
  intros [z Hd|q b req k pb Hne|q b st pb b0 bs _|q b st pb bs _]; cbn [ev_of ev_batches length].
  - (* emit_done *) lia.
  - (* emit_need *) lia.
  - (* emit_batch *)
    unfold potential, phases_left, ranges_left, unsat, C15_Machine.rest. cbn [m_dec m_queue m_b m_rg m_buf app length]. lia.
  - (* emit_reader *)
    unfold potential, phases_left, ranges_left, unsat, C15_Machine.rest. cbn [m_dec m_queue m_b m_rg m_buf]. rewrite app_length. lia.
Qed.

(* one call: each batch handed out pays one unit of the potential *)
Lemma call_potential se m : inv m ->
  let '(m', res) := call se m in
  (potential m' + length (ev_batches Rw (ev_of Rw res)) <= potential m /\ ranges_left m' <= ranges_left m)%nat.
Proof.
  intros Hi. pose proof (call_spec Rw B U R fr_step plan upd file plan_in_file se m Hi) as H.
  destruct (call se m) as [m' res]. destruct H as (y & Hw & He).
  pose proof (walk_potential se m y Hw Hi). pose proof (emit_potential se y m' res He). lia.
Qed.

(* every requested range lies in ONE supplied range (no coalescing) *)
Definition covering (supplied rs : list range) : Prop :=
  Forall (in_file_range file) supplied /\
  forall r, In r rs -> exists p, In p supplied /\ fst p <= fst r /\ snd r <= snd p.

(* some requested range lies in one supplied range *)
Definition progressing (supplied rs : list range) : Prop :=
  Forall (in_file_range file) supplied /\
  exists r p, In r rs /\ In p supplied /\ fst p <= fst r /\ snd r <= snd p.

(* After a push to a waiting decoder the ranges still needed are those needed before that no
   supplied range contains; nothing else of the measures changes. *)
Lemma supply_measures m req k supplied : inv m -> waiting Rw B U m req k -> Forall (in_file_range file) supplied ->
  let needed := needed_ranges (m_buf _ _ _ m) req in
  let needed' := filter (fun r => negb (existsb (within r) supplied)) needed in
  exists m2, push_data Rw B U m supplied (fchunks supplied) = Some m2 /\ inv m2 /\ rest m2 = rest m /\
    (potential m2 + match needed with [] => 0 | _ => 1 end = potential m + match needed' with [] => 0 | _ => 1 end
     /\ ranges_left m2 + length needed = ranges_left m + length needed')%nat.
Proof.
  intros Hi [Hd Hrg] Hin. destruct (push_data_spec Rw B U file m supplied Hin Hi) as (pb' & Hp & Hc' & Hh); [now rewrite Hd|].
  exists (with_buf Rw B U m pb'). split; [exact Hp|]. split; [split; [exact Hc'|apply Hi]|]. split; [reflexivity|].
  unfold potential, phases_left, unsat, ranges_left, C15_Machine.rest. cbn. rewrite Hd, Hrg. cbn [ranges_rg RL]. clear Hrg.
  assert (Hn : needed_ranges pb' req = filter (fun r => negb (existsb (within r) supplied)) (needed_ranges (m_buf _ _ _ m) req)).
  { unfold needed_ranges. induction req as [|r req IH]; [reflexivity|]. cbn [filter]. rewrite Hh, IH.
    destruct (has_range (m_buf _ _ _ m) r); cbn [orb negb filter]; reflexivity. }
  rewrite Hn. lia.
Qed.

(* The driver completes for every measure that try_decode does not increase, that pays for each batch handed
   out, and that the supplier's answer to a NeedsData decreases. *)
Section Driver.
Variable sup : nat -> list range -> list range.
Variable mu : mach -> nat.
Hypothesis decode_mu : forall m, inv m ->
  let '(m', res) := try_decode m in (mu m' + length (ev_batches Rw (ev_of Rw res)) <= mu m)%nat.
Hypothesis supply_mu : forall i m req k, inv m -> waiting Rw B U m req k ->
  let needed := needed_ranges (m_buf _ _ _ m) req in needed <> [] -> Forall (in_file_range file) needed ->
  let supplied := sup i needed in
  exists m2, push_data Rw B U m supplied (fchunks supplied) = Some m2 /\ inv m2 /\ rest m2 = rest m /\ (mu m2 < mu m)%nat.

Theorem drive_with_completes : forall fuel i m, inv m -> (mu m < fuel)%nat ->
  drive_with Rw B U R fr_step plan upd file sup fuel i m = (concat (rest m), true).
Proof.
  induction fuel as [|f IH]; intros i m Hi Hf; [lia|]. cbn [drive_with].
  pose proof (decode_cases Rw B U R fr_step plan upd file plan_in_file m Hi) as Hc. pose proof (decode_mu m Hi) as Hmu.
  destruct (try_decode m) as [m1 [rs|b|bs| |]]; destruct Hc as [Hi1 Hc]; cbn [ev_of ev_batches length] in Hmu.
  - destruct Hc as (<- & Hne & Hin & req & k & Hw & ->).
    destruct (supply_mu i m1 req k Hi1 Hw Hne Hin) as (m2 & -> & Hi2 & <- & Hlt). apply IH; [exact Hi2|lia].
  - rewrite Hc, IH; [reflexivity|exact Hi1|lia].
  - contradiction.
  - now rewrite Hc.
  - contradiction.
Qed.
End Driver.

Theorem fair_supply_completes sup q b fuel :
  (forall i rs, rs <> [] -> Forall (in_file_range file) rs -> progressing (sup i rs) rs) ->
  (potential (init Rw B U q b) + ranges_left (init Rw B U q b) < fuel)%nat ->
  drive_with Rw B U R fr_step plan upd file sup fuel O (init Rw B U q b) = (sync_rows Rw B U R fr_step plan upd file q b, true).
Proof.
  intros Hs Hf. apply (drive_with_completes sup (fun m => potential m + ranges_left m)%nat); [| |apply inv_init|exact Hf].
  - intros m Hi. pose proof (call_potential true m Hi) as H. unfold call in H. destruct (try_decode m). lia.
  - intros i m req k Hi Hw needed Hne Hin. destruct (Hs i needed Hne Hin) as [Hsin (r & p & Hr & Hp1 & Hp2 & Hp3)].
    destruct (supply_measures m req k _ Hi Hw Hsin) as (m2 & Hp & Hi2 & Hr2 & Hpot & Hrl).
    exists m2. split; [exact Hp|]. split; [exact Hi2|]. split; [exact Hr2|]. fold needed in Hpot, Hrl.
    (* one needed range is supplied: fewer remain *)
    pose proof (filter_length_lt (fun r => negb (existsb (within r) (sup i needed))) _ r Hr
                  (f_equal negb (within_spec _ r p Hp1 Hp2 Hp3))) as Hlt.
    destruct needed; [destruct Hr|]. clear - Hpot Hrl Hlt. destruct (filter _ _); cbn [length] in *; lia.
Qed.

Theorem responsive_supply_completes sup q b fuel :
  (forall i rs, Forall (in_file_range file) rs -> covering (sup i rs) rs) ->
  (potential (init Rw B U q b) < fuel)%nat ->
  drive_with Rw B U R fr_step plan upd file sup fuel O (init Rw B U q b) = (sync_rows Rw B U R fr_step plan upd file q b, true).
Proof.
  intros Hs Hf. apply (drive_with_completes sup potential); [| |apply inv_init|exact Hf].
  - intros m Hi. pose proof (call_potential true m Hi) as H. unfold call in H. destruct (try_decode m). apply H.
  - intros i m req k Hi Hw needed Hne Hin. destruct (Hs i needed Hin) as [Hsin Hcov].
    destruct (supply_measures m req k _ Hi Hw Hsin) as (m2 & Hp & Hi2 & Hr2 & Hpot & _).
    exists m2. split; [exact Hp|]. split; [exact Hi2|]. split; [exact Hr2|]. fold needed in Hpot.
    (* every needed range is supplied: none remains *)
    destruct (filter _ _) as [|r l] eqn:Ef; [destruct needed; [contradiction|lia]|].
    assert (Hr : In r (r :: l)) by now left. rewrite <- Ef in Hr. apply filter_In in Hr. destruct Hr as [Hr Hf'].
    destruct (Hcov r Hr) as (p & Hp1 & Hp2 & Hp3). rewrite (within_spec _ r p Hp1 Hp2 Hp3) in Hf'. discriminate.
Qed.

Theorem exact_supply_completes q b fuel :
  (potential (init Rw B U q b) < fuel)%nat ->
  drive Rw B U R fr_step plan upd file fuel (init Rw B U q b) = (sync_rows Rw B U R fr_step plan upd file q b, true).
Proof.
  intros Hf. unfold drive. apply responsive_supply_completes; [|exact Hf].
  intros _ rs H. split; [exact H|]. intros r Hr. exists r. repeat split; auto; lia.
Qed.

End Drive.
