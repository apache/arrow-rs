(* C10 — the integer key of f{16,32,64}::total_cmp orders bit patterns exactly like IEEE-754 totalOrder,
   for every width; totalOrder is a total order at every integer (total_order_ord, what C10_Cmp takes from here).
   C10_MCmp takes float_key_total_order; C11_Fixed builds arrow-row's float order on akey and akey_total_order. *)
From Coq Require Import ZArith Lia.
From AV Require Import Base.Bits Base.Order Model.C10_Order.
Local Open Scope Z_scope.

(* arithmetic meaning of the key: positives keep their magnitude, a negative -h+m maps to -1-m *)
Definition akey (h x : Z) : Z := if f_sign h x then -1 - f_mag h x else f_mag h x.

Lemma akey_total_order h x y : 0 <= x < 2 * h -> 0 <= y < 2 * h ->
  (akey h x ?= akey h y) = total_order h x y.
Proof.
  intros Hx Hy. unfold akey, total_order, f_mag, f_sign.
  destruct (Z.leb_spec h x), (Z.leb_spec h y).
  - destruct (Z.compare_spec (-1 - (x - h)) (-1 - (y - h))), (Z.compare_spec (y - h) (x - h)); try reflexivity; lia.
  - destruct (Z.compare_spec (-1 - (x - h)) y); try reflexivity; lia.
  - destruct (Z.compare_spec x (-1 - (y - h))); try reflexivity; lia.
  - reflexivity.
Qed.

Lemma lxor_low_ones k m : 0 <= k -> 0 <= m < 2 ^ k -> Z.lxor m (2 ^ k - 1) = 2 ^ k - 1 - m.
Proof. intros Hk Hm. rewrite <- (lxor_ones_low_Z m k Hk Hm), Z.ones_equiv. reflexivity. Qed.

Lemma float_key_arith w x : 0 < w -> 0 <= x < 2 ^ w -> float_key w x = akey (2 ^ (w - 1)) x.
Proof.
  intros Hw Hx. set (k := w - 1).
  assert (Hk : 0 <= k) by lia.
  assert (Hpw : 2 ^ w = 2 * 2 ^ k) by (replace w with (Z.succ k) by lia; rewrite Z.pow_succ_r by lia; reflexivity).
  assert (Hkpos : 0 < 2 ^ k) by (apply Z.pow_pos_nonneg; lia).
  unfold float_key, akey, as_signed, as_unsigned, f_mag, f_sign. fold k.
  destruct (Z.leb_spec (2 ^ k) x) as [Hs|Hs].
  - (* sign bit set: s = x - 2^w in [-2^k, 0) *)
    assert (E1 : (x - 2 ^ w) / 2 ^ k = -1) by (symmetry; apply Z.div_unique with (r := x - 2 ^ k); lia).
    assert (E2 : -1 mod 2 ^ w = 2 ^ w - 1) by (symmetry; apply Z.mod_unique with (q := -1); lia).
    assert (E3 : (2 ^ w - 1) / 2 = 2 ^ k - 1) by (symmetry; apply Z.div_unique with (r := 1); lia).
    rewrite (Z.shiftr_div_pow2 (x - 2 ^ w) k) by lia. rewrite E1, E2.
    rewrite Z.shiftr_div_pow2 by lia. change (2 ^ 1) with 2. rewrite E3.
    (* a negative number -2^k + m xor the low-ones mask: only the low k bits flip *)
    replace (x - 2 ^ w) with (-1 * 2 ^ k + (x - 2 ^ k)) by lia.
    rewrite Z.sub_1_r, <- Z.ones_equiv, lxor_ones_above_Z by lia. lia.
  - rewrite (Z.shiftr_div_pow2 x k) by lia.
    rewrite Z.div_small by lia. rewrite Z.mod_0_l by lia. rewrite Z.shiftr_0_l. apply Z.lxor_0_r.
Qed.

Theorem float_key_total_order w x y : 0 < w -> 0 <= x < 2 ^ w -> 0 <= y < 2 ^ w ->
  total_cmp_key w x y = total_order (2 ^ (w - 1)) x y.
Proof.
  intros Hw Hx Hy. unfold total_cmp_key. rewrite !float_key_arith by assumption.
  assert (Hpw : 2 ^ w = 2 * 2 ^ (w - 1)) by (replace w with (Z.succ (w - 1)) at 1 by lia; rewrite Z.pow_succ_r by lia; reflexivity).
  apply akey_total_order; lia.
Qed.

(* totalOrder is a total order on ALL integers, in range or not: sign first, then magnitude one way or the other *)
Lemma total_order_ord h x : ord_at (total_order h) x.
Proof.
  split; [|split; [|split]].
  - unfold total_order. destruct (f_sign h x); apply Z.compare_refl.
  - intros y. unfold total_order. destruct (f_sign h x), (f_sign h y); try reflexivity; apply Z.compare_antisym.
  - intros y. unfold total_order, f_mag, f_sign.
    destruct (Z.leb_spec h x), (Z.leb_spec h y); intros E; try discriminate; apply Z.compare_eq in E; lia.
  - intros y z. unfold total_order, f_mag, f_sign.
    destruct (Z.leb_spec h x), (Z.leb_spec h y), (Z.leb_spec h z); intros A B; try congruence;
      rewrite ?Z.compare_gt_iff in *; lia.
Qed.
