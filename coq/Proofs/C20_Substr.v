(* C20 — byte-based substring with character-boundary check.  A byte offset k is a boundary of utf8 s exactly when
   take_bytes s k, the specification's way of cutting at k, succeeds (boundary_utf8); the kernel's start and end are the
   specification's window shifted by the offset of the value in the buffer; the bytes between two boundaries are the
   encoding of the characters between them (slice_abs). *)
From Coq Require Import List NArith ZArith Lia.
From AV Require Import Base.ListX Base.Utf8 Model.C20_Like Model.C20_Substr Proofs.C20_Utf8 Proofs.C20_Layout.
Import ListNotations.

Lemma is_char_boundary_neg data z : (z < 0)%Z -> is_char_boundary data z = false.
Proof. intros H. unfold is_char_boundary. destruct (Z.eqb_spec z 0); [lia|]. destruct (Z.ltb_spec z 0); [reflexivity|lia]. Qed.
Lemma is_char_boundary_len data : is_char_boundary data (Z.of_nat (length data)) = true.
Proof.
  unfold is_char_boundary. destruct (Z.eqb_spec (Z.of_nat (length data)) 0); [reflexivity|].
  destruct (Z.ltb_spec (Z.of_nat (length data)) 0); [lia|]. rewrite Z.leb_refl. apply Z.eqb_refl.
Qed.
Lemma is_char_boundary_nat data k : 0 < k <= length data ->
  is_char_boundary data (Z.of_nat k) = negb (cont (nth 0 (skipn k data) 0%N)).
Proof.
  intros Hk. unfold is_char_boundary. destruct (Z.eqb_spec (Z.of_nat k) 0); [lia|].
  destruct (Z.ltb_spec (Z.of_nat k) 0); [lia|]. rewrite nth_skipn, Nat.add_0_r.
  destruct (Z.leb_spec (Z.of_nat (length data)) (Z.of_nat k)).
  - rewrite nth_overflow by lia. apply Z.eqb_eq. lia.
  - now rewrite Nat2Z.id.
Qed.

Lemma blen_app a b : blen (a ++ b) = blen a + blen b.
Proof. unfold blen. now rewrite utf8_app, app_length. Qed.
Lemma blen_cons c s : blen (c :: s) = length (encode c) + blen s.
Proof. unfold blen. now rewrite utf8_cons, app_length. Qed.

Definition is_some {A} (o : option A) : bool := match o with Some _ => true | None => false end.

Lemma mapM_Some {X Y} (f : X -> option Y) l : forall out, mapM f l = Some out -> Forall2 (fun x o => f x = Some o) l out.
Proof.
  induction l as [|x l IH]; intros out E; cbn [mapM] in E; [injection E as <-; constructor|].
  destruct (f x) as [o|] eqn:Ex; [|discriminate]. destruct (mapM f l) as [os|]; [|discriminate].
  injection E as <-. constructor; [exact Ex|now apply IH].
Qed.

Lemma take_bytes_0 s : take_bytes s 0 = Some [].
Proof. destruct s; reflexivity. Qed.

Lemma take_bytes_inv s : forall k p, take_bytes s k = Some p -> exists r, s = p ++ r /\ blen p = k.
Proof.
  induction s as [|c r IH]; intros k p E; cbn [take_bytes] in E.
  - destruct (Nat.eqb_spec k 0) as [->|]; [|discriminate]. inversion E. exists []. auto.
  - destruct (Nat.eqb_spec k 0) as [->|Hk]; [inversion E; exists (c :: r); auto|].
    destruct (Nat.ltb_spec k (length (encode c))); [discriminate|].
    destruct (take_bytes r (k - length (encode c))) as [q|] eqn:Eq; [|discriminate].
    injection E as <-. destruct (IH _ _ Eq) as (r' & -> & Hb).
    exists r'. split; [reflexivity|]. rewrite blen_cons. lia.
Qed.

Lemma take_bytes_app p r j : take_bytes (p ++ r) (blen p + j) = option_map (app p) (take_bytes r j).
Proof.
  induction p as [|c p IH]; [cbn; now destruct (take_bytes r j)|].
  pose proof (encode_len c). rewrite blen_cons. cbn [app take_bytes].
  destruct (Nat.eqb_spec (length (encode c) + blen p + j) 0); [lia|].
  destruct (Nat.ltb_spec (length (encode c) + blen p + j) (length (encode c))); [lia|].
  replace (length (encode c) + blen p + j - length (encode c)) with (blen p + j) by lia.
  rewrite IH. now destruct (take_bytes r j).
Qed.
Lemma take_bytes_all s : take_bytes s (blen s) = Some s.
Proof.
  rewrite <- (Nat.add_0_r (blen s)). rewrite <- (app_nil_r s) at 1. rewrite take_bytes_app. cbn. now rewrite app_nil_r.
Qed.
Lemma take_bytes_app_l v r : forall j, j <= blen v -> take_bytes (v ++ r) j = take_bytes v j.
Proof.
  induction v as [|c v IH]; intros j L.
  - replace j with 0 by (cbn in L; lia). now rewrite !take_bytes_0.
  - rewrite blen_cons in L. cbn [app take_bytes]. destruct (j =? 0); [reflexivity|].
    destruct (Nat.ltb_spec j (length (encode c))); [reflexivity|]. now rewrite IH by lia.
Qed.

(* the boundaries of an encoded string are the ends of the encodings of its prefixes *)
Lemma boundary_utf8 s k : k <= blen s -> is_char_boundary (utf8 s) (Z.of_nat k) = is_some (take_bytes s k).
Proof.
  intros L. destruct (Nat.eq_dec k 0) as [->|Hk]; [now rewrite take_bytes_0|].
  rewrite is_char_boundary_nat by (unfold blen in L; lia).
  destruct (take_bytes s k) as [p|] eqn:E; cbn [is_some].
  - apply take_bytes_inv in E as (r & -> & <-).
    rewrite utf8_app, skipn_app_exact by reflexivity. now rewrite (char_start_utf8 r).
  - destruct (cont (nth 0 (skipn k (utf8 s)) 0%N)) eqn:C; [reflexivity|]. exfalso.
    destruct (utf8_split s (firstn k (utf8 s)) (skipn k (utf8 s))) as (h1 & h2 & -> & E1 & _);
      [now rewrite firstn_skipn|exact C|].
    assert (Hk1 : blen h1 = k) by (unfold blen in *; rewrite <- E1, firstn_length; lia).
    rewrite <- Hk1, <- (Nat.add_0_r (blen h1)), take_bytes_app, take_bytes_0 in E. discriminate.
Qed.

(* the window [sel_lo, sel_hi) that start and length select in a string of L units (bytes here, characters in
   substring_by_char).  The model has no name for it: substring_spec, substring_by_char_spec, ascii_bounds and (with the
   test 0 <? start) view_substring_elem each write the two expressions out, and the proofs fold them into these. *)
Definition sel_lo (L start : Z) : Z := if (0 <=? start)%Z then Z.min start L else Z.max (L + start) 0.
Definition sel_hi (L start : Z) (len : option Z) : Z :=
  match len with Some n => Z.min (sel_lo L start + n) L | None => L end.
Lemma sel_range L start len : (0 <= L)%Z -> (match len with Some n => 0 <= n | None => True end)%Z ->
  (0 <= sel_lo L start <= sel_hi L start len)%Z /\ (sel_hi L start len <= L)%Z.
Proof. intros HL Hlen. unfold sel_hi, sel_lo. destruct (Z.leb_spec 0 start), len; lia. Qed.

(* byte_substring_elem's local `check`, `ns` and `ne` under names *)
Definition check_boundary (data : list N) (o : Z) : option Z := if is_char_boundary data o then Some o else None.
Definition new_start (data : list N) (start lo hi : Z) : option Z :=
  if (0 <? start)%Z then check_boundary data (Z.min (lo + start) hi)
  else if (start =? 0)%Z then Some lo
  else check_boundary data (Z.max (hi + start) lo).
Definition new_end (data : list N) (len : option Z) (ns hi : Z) : option Z :=
  match len with Some l => check_boundary data (Z.min (l + ns) hi) | None => Some hi end.
Lemma byte_substring_elem_eq data start len lo hi :
  byte_substring_elem data start len (lo, hi) =
  match new_start data start lo hi with
  | None => None
  | Some ns => match new_end data len ns hi with None => None | Some ne => Some (zslice data ns ne) end
  end.
Proof. reflexivity. Qed.

(* one value v between the bytes of pre and post, all three encodings; data, lo and L are the buffer, the offset of v in it
   and the byte length of v, so that outside the section
     boundary_abs pre v post j : 0 <= j <= blen v ->
       is_char_boundary (utf8 pre ++ utf8 v ++ utf8 post) (blen pre + j) = is_some (take_bytes v (Z.to_nat j))
   and likewise for the others (with the casts from nat written out) *)
Section Elem.
Variables (pre v post : list N).
Let data := utf8 pre ++ utf8 v ++ utf8 post.
Let lo := Z.of_nat (blen pre).
Let L := Z.of_nat (blen v).

Lemma boundary_abs j : (0 <= j <= L)%Z -> is_char_boundary data (lo + j) = is_some (take_bytes v (Z.to_nat j)).
Proof.
  intros Hj. rewrite <- (Z2Nat.id j) at 1 by lia. subst data lo L.
  rewrite <- !utf8_app, <- Nat2Z.inj_add, boundary_utf8 by (rewrite !blen_app; lia).
  rewrite take_bytes_app, take_bytes_app_l by lia. now destruct (take_bytes v (Z.to_nat j)).
Qed.

Lemma check_boundary_abs j : (0 <= j <= L)%Z ->
  check_boundary data (lo + j) = if is_some (take_bytes v (Z.to_nat j)) then Some (lo + j)%Z else None.
Proof. intros Hj. unfold check_boundary. now rewrite boundary_abs. Qed.

Lemma slice_abs pa pb a b : take_bytes v a = Some pa -> take_bytes v b = Some pb -> a <= b ->
  zslice data (lo + Z.of_nat a) (lo + Z.of_nat b) = utf8 (skipn (length pa) pb).
Proof.
  intros Ea Eb Lab. apply take_bytes_inv in Ea as (ra & Ev & <-).
  (* the longer prefix extends the shorter *)
  replace b with (blen pa + (b - blen pa)) in * by lia. rewrite Ev, take_bytes_app in Eb.
  destruct (take_bytes ra (b - blen pa)) as [m|] eqn:Em; [|discriminate]. inversion Eb; subst pb.
  apply take_bytes_inv in Em as (rb & -> & <-).
  rewrite skipn_app_exact by reflexivity.
  subst data lo. rewrite Ev, <- !Nat2Z.inj_add, Nat.add_assoc, <- blen_app, Nat2Z.inj_add.
  rewrite !utf8_app, <- !app_assoc, (app_assoc (utf8 pre)), <- (utf8_app pre pa).
  apply zslice_layout.
Qed.

(* the kernel works with absolute offsets lo + _, the spec with offsets inside the value: the start / end the kernel accepts
   is lo + sel_lo / lo + sel_hi, and it accepts it iff it is a boundary of v.  Nothing is tested for start = 0 and for
   length = None, where the offset is the window's own end: a boundary because pre, v and post are encodings. *)
Lemma new_start_abs start :
  new_start data start lo (lo + L) =
  if is_some (take_bytes v (Z.to_nat (sel_lo L start))) then Some (lo + sel_lo L start)%Z else None.
Proof.
  destruct (sel_range L start None) as (Ha & _); [subst L; lia|exact I|]. cbn [sel_hi] in Ha.
  rewrite <- check_boundary_abs by exact Ha. unfold new_start, sel_lo.
  destruct (Z.ltb_spec 0 start) as [Hs|Hs]; [|destruct (Z.eqb_spec start 0) as [->|Hz]].
  - (* 0 < start *) destruct (Z.leb_spec 0 start); [|lia]. now rewrite Z.add_min_distr_l.
  - (* start = 0: lo itself, untested *)
    cbn [Z.leb Z.compare]. rewrite Z.min_l, check_boundary_abs by lia. cbn [Z.to_nat]. rewrite take_bytes_0.
    cbn [is_some]. now rewrite Z.add_0_r.
  - (* start < 0 *) destruct (Z.leb_spec 0 start); [lia|].
    now replace (Z.max (lo + L + start) lo) with (lo + Z.max (L + start) 0)%Z by lia.
Qed.

Lemma new_end_abs start len : (match len with Some n => 0 <= n | None => True end)%Z ->
  new_end data len (lo + sel_lo L start) (lo + L) =
  if is_some (take_bytes v (Z.to_nat (sel_hi L start len))) then Some (lo + sel_hi L start len)%Z else None.
Proof.
  intros Hlen. destruct (sel_range L start len) as (Ha & Hb); [subst L; lia|assumption|].
  rewrite <- check_boundary_abs by lia. unfold new_end, sel_hi. destruct len as [n|].
  - now replace (Z.min (n + (lo + sel_lo L start)) (lo + L)) with (lo + Z.min (sel_lo L start + n) L)%Z by lia.
  - (* no length: lo + L itself, untested *)
    rewrite check_boundary_abs by lia. subst L. now rewrite Nat2Z.id, take_bytes_all.
Qed.

Lemma byte_substring_elem_spec start len : (match len with Some n => 0 <= n | None => True end)%Z ->
  byte_substring_elem data start len (lo, (lo + L)%Z) = option_map utf8 (substring_spec v start len).
Proof.
  intros Hlen. rewrite byte_substring_elem_eq, new_start_abs.
  unfold substring_spec. fold L (sel_lo L start) (sel_hi L start len).
  destruct (sel_range L start len) as (Ha & Hb); [subst L; lia|assumption|].
  destruct (take_bytes v (Z.to_nat (sel_lo L start))) as [pa|] eqn:Epa; cbn [is_some]; [|reflexivity].
  rewrite new_end_abs by assumption.
  destruct (take_bytes v (Z.to_nat (sel_hi L start len))) as [pb|] eqn:Epb; cbn [is_some option_map]; [|reflexivity].
  f_equal. rewrite <- (Z2Nat.id (sel_lo L start)), <- (Z2Nat.id (sel_hi L start len)) by lia.
  apply (slice_abs pa pb); try assumption. lia.
Qed.
End Elem.

(* StringViewArray: view_substring_range computes the same bounds on the value alone, with both ends checked *)
Lemma view_substring_elem_eq v start len :
  view_substring_elem v start len = byte_substring_elem v start len (0%Z, Z.of_nat (length v)).
Proof.
  rewrite byte_substring_elem_eq. unfold view_substring_elem, new_start, check_boundary. rewrite !Z.add_0_l.
  (* the end, for whichever start ns: the same test, and none without a length, where the view tests the end of the value *)
  assert (End : forall ns,
    (if is_char_boundary v match len with Some l => Z.min (ns + l) (Z.of_nat (length v)) | None => Z.of_nat (length v) end
     then Some (zslice v ns match len with Some l => Z.min (ns + l) (Z.of_nat (length v)) | None => Z.of_nat (length v) end)
     else None)
    = match new_end v len ns (Z.of_nat (length v)) with None => None | Some ne => Some (zslice v ns ne) end).
  { intros ns. unfold new_end, check_boundary. destruct len as [l|].
    - rewrite (Z.add_comm l). now destruct (is_char_boundary v _).
    - now rewrite is_char_boundary_len. }
  destruct (0 <? start)%Z; [|destruct (start =? 0)%Z].
  - (* 0 < start: the same test *) destruct (is_char_boundary v _); [apply End|reflexivity].
  - (* start = 0: the view tests offset 0 *) change (is_char_boundary v 0) with true. apply End.
  - (* start < 0: the same test *) destruct (is_char_boundary v _); [apply End|reflexivity].
Qed.

Lemma view_substring_elem_spec v start len : (match len with Some n => 0 <= n | None => True end)%Z ->
  view_substring_elem (utf8 v) start len = option_map utf8 (substring_spec v start len).
Proof.
  intros Hlen. rewrite view_substring_elem_eq, <- (byte_substring_elem_spec [] v [] start len Hlen).
  cbn [utf8 flat_map app]. now rewrite app_nil_r.
Qed.

(* The statements in Props/C20.v also assume that vals, pre and post are scalar values; nothing here needs that: the boundary
   test only depends on the shape of the encoding.  What follows the last value does have to be an encoding
   (`char_start post` is the exact condition): byte_substring tests boundaries in the whole values buffer, so the end of a
   value is judged by the byte after it. *)
Theorem substring_spec_thm bits start len : (1 <= bits)%Z ->
  (- 2 ^ (bits - 1) <= start < 2 ^ (bits - 1))%Z ->
  (match len with Some n => 0 <= n < 2 ^ (bits - 1) | None => True end)%Z ->
  forall (vals : list (list N)) (pre post : list N),
  byte_substring_m bits (layout_offsets (utf8 pre) (map utf8 vals)) (layout_data (utf8 pre) (map utf8 vals) (utf8 post)) start len
  = mapM (fun v => option_map utf8 (substring_spec v start len)) vals.
Proof.
  intros Hb Hs Hl. unfold byte_substring_m. rewrite (wrap_id bits start) by assumption.
  assert (El : option_map (wrap bits) len = len).
  { destruct len as [n|]; [|reflexivity]. cbn. rewrite wrap_id; [reflexivity|lia|lia]. }
  rewrite El. clear El.
  assert (Hl' : (match len with Some n => 0 <= n | None => True end)%Z) by (destruct len; lia).
  unfold layout_offsets, layout_data.
  induction vals as [|v r IH]; intros pre post; [reflexivity|].
  rewrite map_cons, concat_cons, windows_offsets_from. cbn [mapM].
  rewrite <- utf8_concat, <- app_assoc, <- utf8_app.
  pose proof (byte_substring_elem_spec pre v (concat r ++ post) start len Hl') as E. unfold blen in E. rewrite E. clear E.
  destruct (substring_spec v start len) as [o|]; cbn [option_map]; [|reflexivity].
  specialize (IH (pre ++ v) post).
  rewrite utf8_app, app_length, Nat2Z.inj_add, <- app_assoc in IH.
  rewrite utf8_app, utf8_concat. rewrite IH. reflexivity.
Qed.

Lemma scalars_app_r a b : scalars (a ++ b) -> scalars b.
Proof. intros H. now apply Forall_app in H as [_ ?]. Qed.

Lemma substring_spec_scalars v start len o : scalars v -> substring_spec v start len = Some o -> scalars o.
Proof.
  intros Hv. unfold substring_spec. destruct (take_bytes v _) as [pa|]; [|discriminate].
  destruct (take_bytes v _) as [pb|] eqn:Eb; [|discriminate]. intros E. injection E as <-.
  apply take_bytes_inv in Eb as (rb & -> & _). apply Forall_app in Hv as [Hv _]. now apply Forall_skipn.
Qed.

(* every string the kernel returns is valid UTF-8 (or the call is an error) *)
Theorem substring_valid_utf8_or_err bits start len : (1 <= bits)%Z ->
  (- 2 ^ (bits - 1) <= start < 2 ^ (bits - 1))%Z ->
  (match len with Some n => 0 <= n < 2 ^ (bits - 1) | None => True end)%Z ->
  forall (vals : list (list N)) (pre post : list N) out,
  Forall (fun v => scalars v) vals -> scalars pre -> scalars post ->
  byte_substring_m bits (layout_offsets (utf8 pre) (map utf8 vals)) (layout_data (utf8 pre) (map utf8 vals) (utf8 post)) start len
  = Some out -> Forall (fun o => valid_utf8 o = true) out.
Proof.
  (* pre and post are not used; Props/C20.v states the theorem with them *)
  intros Hb Hs Hl vals pre post out Hvals _ _. rewrite substring_spec_thm by assumption. intros E.
  apply mapM_Some in E. induction E as [|v o r os Ev _ IH]; [constructor|].
  inversion Hvals as [|? ? Hv Hr]; subst. constructor; [|now apply IH].
  destruct (substring_spec v start len) as [o'|] eqn:Eo; [|discriminate]. injection Ev as <-.
  apply valid_utf8_utf8. eapply substring_spec_scalars; eassumption.
Qed.

(* the `start as i32` / `length as i32` casts: outside the offset type's range the result is wrong *)
Theorem substring_i32_cast_refuted :
  exists v start, byte_substring_m 32 (layout_offsets [] [utf8 v]) (layout_data [] [utf8 v] []) start None
                  <> mapM (fun v => option_map utf8 (substring_spec v start None)) [v].
Proof. (* start = 2^32, which `as i32` takes to 0 *) exists [104%N; 105%N], 4294967296%Z. vm_compute. discriminate. Qed.
