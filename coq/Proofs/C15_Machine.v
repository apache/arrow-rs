(* C15: the push decoder machine reads the same rows as the sync reader under every schedule;
   its requests lie within the file; supplying what was asked makes it advance.

   A call of the decoder is a sequence of moves along the sync execution ([adv]) followed by what it
   hands out at the state the moves ended in ([emit]).  The moves keep the invariant and the sync
   output that remains, under the invariant the two calls are exactly that ([call_spec]), and what is
   said about a call is a case analysis over the moves and over what is handed out.  The planner is a
   tree of requests per row group ([plan]), so the phases of a row group are nodes of data, not cases
   of a proof.  The other actions of a schedule (a push of file bytes, clear_all_ranges, a rebuild at a
   boundary) change neither the invariant nor the sync output that remains ([step_quiet]); [step_spec]
   shows [step_ok] of every action and [run_spec] composes it along a schedule. *)
From Coq Require Import List Arith NArith Lia Bool Relations.
From AV Require Import Model.C15_PushBuf Model.C15_Machine Proofs.C15_PushBuf.
Import ListNotations.
Local Open Scope N_scope.

Section Proofs.
Variables (Rw B U R : Type).
Variable fr_step : nat -> B -> fstep B R.
Variable plan : R -> phase Rw U.
Variable upd : B -> U -> B.
Variable file : list N.

Notation phase := (phase Rw U).
Notation mach := (mach Rw B U).
Notation Mk := (Build_mach Rw B U).
Notation try_decode := (try_decode Rw B U R fr_step plan upd).
Notation try_next_reader := (try_next_reader Rw B U R fr_step plan upd).
Notation sync_phase := (sync_phase Rw U file).
Notation sync_read := (sync_read Rw B U R fr_step plan upd file).
Notation fchunks := (file_chunks file).

Definition in_file_range (r : range) : Prop := fst r <= snd r /\ snd r <= nlen file.
Definition cons_buf (pb : pushbuf) : Prop := Forall (consistent file) (pb_entries pb).

(* Along the sync execution of a phase, every request satisfies P. *)
Inductive phase_ok (P : range -> Prop) : phase -> Prop :=
| ok_need req k : Forall P req -> phase_ok P (k (fchunks req)) -> phase_ok P (PNeed req k)
| ok_finish u : phase_ok P (PFinish u)
| ok_data bs u : phase_ok P (PData bs u).

(* planner hypothesis "needed ⊆ file": every range requested along the sync execution of any row
   group is a well-formed range within the file *)
Hypothesis plan_in_file : forall r, phase_ok in_file_range (plan r).

Lemma phase_ok_need P req k : phase_ok P (PNeed req k) -> Forall P req /\ phase_ok P (k (fchunks req)).
Proof. intros H. inversion H. now split. Qed.

Lemma needed_spec pb req r : In r (needed_ranges pb req) <-> In r req /\ has_range pb r = false.
Proof. unfold needed_ranges. rewrite filter_In. now destruct (has_range pb r). Qed.

(* DataRequest::get_chunks never reaches "Internal Error missing data" once needed_ranges is empty *)
Lemma get_chunks_buffered pb req : cons_buf pb -> Forall in_file_range req -> needed_ranges pb req = [] ->
  get_chunks pb req = Some (fchunks req).
Proof.
  intros Hc Hreq. unfold needed_ranges.
  induction Hreq as [|[s e] req [Hse _] _ IH]; cbn [filter get_chunks file_chunks map fst snd] in *; [reflexivity|].
  rewrite (get_bytes_iff_has_range file) by exact Hc. replace (s + (e - s)) with e by lia.
  destruct (has_range pb (s, e)); [|discriminate]. intros Hn. now rewrite (IH Hn).
Qed.

(* the sync output that remains: what the sync reader would still read from where the decoder stands *)
Definition rest_rg (q : list nat) (b : B) (st : rgst Rw U) : list (list Rw) :=
  match st with
  | RGIdle => sync_read q b
  | RGWait req k => let '(bs, u) := sync_phase (PNeed req k) in bs ++ sync_read q (upd b u)
  end.
Definition rest (m : mach) : list (list Rw) :=
  match m_dec _ _ _ m with
  | DFinished => []
  | DDecoding bs => bs ++ rest_rg (m_queue _ _ _ m) (m_b _ _ _ m) (m_rg _ _ _ m)
  | DReading => rest_rg (m_queue _ _ _ m) (m_b _ _ _ m) (m_rg _ _ _ m)
  end.

Definition rg_ok (st : rgst Rw U) : Prop :=
  match st with RGIdle => True | RGWait req k => phase_ok in_file_range (PNeed req k) end.
Definition inv (m : mach) : Prop := cons_buf (m_buf _ _ _ m) /\ rg_ok (m_rg _ _ _ m).

Definition waiting (m : mach) (req : list range) (k : list (list N) -> phase) : Prop :=
  m_dec _ _ _ m = DReading /\ m_rg _ _ _ m = RGWait req k.

Lemma waiting_state m req k : waiting m req k -> exists q b pb, m = Mk q b (RGWait req k) pb DReading.
Proof. destruct m as [q b st pb d]. intros [Hd Hrg]. cbn in Hd, Hrg. subst d st. now exists q, b, pb. Qed.

(* The decoder about to run phase p of a row group: try_build waits on a request, a row group that
   ends without a reader is behind the decoder, a reader is being decoded (budget updated in both). *)
Definition enter (q : list nat) (b : B) (p : phase) (pb : pushbuf) : mach :=
  match p with
  | PNeed req k => Mk q b (RGWait req k) pb DReading
  | PFinish u => Mk q (upd b u) RGIdle pb DReading
  | PData bs u => Mk q (upd b u) RGIdle pb (DDecoding bs)
  end.

(* What a call does before it returns.  pass: try_build finds every range of the request buffered, takes
   the chunks, clears the ranges and goes on to the next phase; skip, read, stop: try_next_reader pops
   the frontier (a row group skipped by metadata, one that is planned, the end or an exhausted budget);
   drain: try_next_batch ([se = true]) leaves a reader that has no batch left, try_next_reader ([false])
   hands it out as it is.  Whatever is requested inside a row group (the columns of a predicate, the
   data, an index read first) is a [PNeed] node of the tree [plan r], so for every planner these five
   are all the moves, and no proof below has a case per kind of phase. *)
Inductive adv : bool -> mach -> mach -> Prop :=
| adv_pass se q b req k pb : needed_ranges pb req = [] ->
    adv se (Mk q b (RGWait req k) pb DReading) (enter q b (k (fchunks req)) (clear_ranges pb req))
| adv_skip se g q b b' pb : fr_step g b = FSkip b' -> adv se (Mk (g :: q) b RGIdle pb DReading) (Mk q b' RGIdle pb DReading)
| adv_read se g q b r b' pb : fr_step g b = FRead r b' -> adv se (Mk (g :: q) b RGIdle pb DReading) (enter q b' (plan r) pb)
| adv_stop se q b pb : match q with [] => True | g :: _ => fr_step g b = FStop end ->
    adv se (Mk q b RGIdle pb DReading) (Mk [] b RGIdle pb DFinished)
| adv_drain q b st pb : adv true (Mk q b st pb (DDecoding [])) (Mk q b st pb DReading).

(* the iterations of the loops of try_next_batch / try_next_reader in one call *)
Inductive walk (se : bool) : mach -> mach -> Prop :=
| walk_refl m : walk se m m
| walk_step m m1 y : adv se m m1 -> walk se m1 y -> walk se m y.

(* What a call returns where its moves end: Finished from a finished decoder, NeedsData with the ranges
   of the waited request that no buffered range contains, the next batch of the reader (try_decode,
   [se = true]) or the whole reader (try_next_reader). *)
Inductive emit (se : bool) : mach -> mach -> dres Rw -> Prop :=
| emit_done y : m_dec _ _ _ y = DFinished -> emit se y y RFinished
| emit_need q b req k pb : needed_ranges pb req <> [] ->
    emit se (Mk q b (RGWait req k) pb DReading) (Mk q b (RGWait req k) pb DReading) (RNeed (needed_ranges pb req))
| emit_batch q b st pb b0 bs : se = true ->
    emit se (Mk q b st pb (DDecoding (b0 :: bs))) (Mk q b st pb (DDecoding bs)) (RData b0)
| emit_reader q b st pb bs : se = false -> emit se (Mk q b st pb (DDecoding bs)) (Mk q b st pb DReading) (RReader bs).

Lemma rest_enter q b p pb : rest (enter q b p pb) = let '(bs, u) := sync_phase p in bs ++ sync_read q (upd b u).
Proof. now destruct p. Qed.

Lemma inv_enter q b p pb : cons_buf pb -> phase_ok in_file_range p -> inv (enter q b p pb).
Proof. intros Hc Hp. now destruct p. Qed.

Lemma adv_ok se m m1 : adv se m m1 -> inv m -> inv m1 /\ rest m1 = rest m.
Proof.
  intros [se' q b req k pb Hn|se' g q b b' pb E|se' g q b r b' pb E|se' q b pb E|q b st pb] [Hc Hrg].
  - (* adv_pass *) rewrite rest_enter. split; [|reflexivity].
    apply inv_enter; [now apply clear_ranges_consistent|apply (phase_ok_need _ _ _ Hrg)].
  - (* adv_skip *) split; [now split|]. unfold rest. cbn [m_dec m_queue m_b m_rg rest_rg C15_Machine.sync_read]. now rewrite E.
  - (* adv_read *) rewrite rest_enter. split; [now apply inv_enter|].
    unfold rest. cbn [m_dec m_queue m_b m_rg rest_rg C15_Machine.sync_read]. now rewrite E.
  - (* adv_stop *) split; [now split|]. unfold rest. cbn [m_dec m_queue m_b m_rg rest_rg].
    destruct q; cbn [C15_Machine.sync_read]; [reflexivity|now rewrite E].
  - (* adv_drain *) now split.
Qed.

Lemma walk_ok se m y : walk se m y -> inv m -> inv y /\ rest y = rest m.
Proof.
  induction 1 as [m|m m1 y Ha _ IH]; intros Hi; [now split|].
  destruct (adv_ok _ _ _ Ha Hi) as [Hi1 <-]. exact (IH Hi1).
Qed.

Definition call (se : bool) := if se then try_decode else try_next_reader.

(* Entering phase p is running it: what either call returns from [enter q b p pb] is what it makes of try_build's
   result for p.  The hypothesis is how the lemma is used: the reader loop, at some reading state, has come to run p
   with the queue q and the budget b.  The one case with content is a reader without batches ([PData [] u]) under
   try_decode: after_phase goes on to [next] exactly as pump does from [DDecoding []]; the others compute. *)
Lemma call_enter se q0 b0 st pb0 q b p pb :
  C15_Machine.resume_reader Rw B U R fr_step plan upd se (Mk q0 b0 st pb0 DReading)
  = after_phase Rw B U upd se q b (next_reader Rw B U R fr_step plan upd se q) (run_phase Rw U p pb) ->
  call se (Mk q0 b0 st pb0 DReading) = call se (enter q b p pb).
Proof.
  intros Hr. destruct se; unfold call.
  - change (try_decode (Mk q0 b0 st pb0 DReading)) with (C15_Machine.pump Rw B U R fr_step plan upd (Mk q0 b0 st pb0 DReading)).
    unfold C15_Machine.pump at 1. rewrite Hr. destruct p as [| |[|]]; reflexivity.
  - unfold C15_Machine.try_next_reader at 1. cbn [m_dec]. rewrite Hr. destruct p as [| |[|]]; reflexivity.
Qed.

(* the moves are the steps the functions take *)
Lemma adv_call se m m1 : adv se m m1 -> inv m -> call se m = call se m1.
Proof.
  intros [se' q b req k pb Hn|se' g q b b' pb E|se' g q b r b' pb E|se' q b pb E|q b st pb] [Hc Hrg].
  - (* adv_pass *) apply call_enter. unfold C15_Machine.resume_reader. cbn [m_rg m_queue m_b m_buf C15_Machine.run_phase].
    now rewrite Hn, (get_chunks_buffered pb req Hc (proj1 (phase_ok_need _ _ _ Hrg)) Hn).
  - (* adv_skip *)
    destruct se'; unfold call, C15_Machine.try_decode, C15_Machine.try_next_reader, C15_Machine.pump, C15_Machine.resume_reader;
      cbn [m_dec m_rg m_queue m_b m_buf C15_Machine.next_reader]; now rewrite E.
  - (* adv_read *) apply call_enter. unfold C15_Machine.resume_reader. cbn [m_rg m_queue m_b m_buf C15_Machine.next_reader].
    now rewrite E.
  - (* adv_stop *)
    destruct se'; unfold call, C15_Machine.try_decode, C15_Machine.try_next_reader, C15_Machine.pump, C15_Machine.resume_reader;
      cbn [m_dec m_rg m_queue m_b m_buf]; (destruct q; cbn [C15_Machine.next_reader]; now rewrite ?E).
  - (* adv_drain: try_decode on a reader without batches is try_decode on the reading decoder *) reflexivity.
Qed.

(* and where something is handed out, they return it *)
Lemma emit_call se y m' res : emit se y m' res -> call se y = (m', res).
Proof.
  intros [z Hd|q b req k pb Hne|q b st pb b0 bs ->|q b st pb bs ->].
  - (* emit_done *) destruct se; unfold call, C15_Machine.try_decode, C15_Machine.try_next_reader; now rewrite Hd.
  - (* emit_need: try_build stops at the request *)
    destruct se; unfold call, C15_Machine.try_decode, C15_Machine.try_next_reader, C15_Machine.pump, C15_Machine.resume_reader;
      cbn [m_dec m_rg m_queue m_b m_buf C15_Machine.run_phase]; (destruct (needed_ranges pb req); [now elim Hne|reflexivity]).
  - (* emit_batch *) reflexivity.
  - (* emit_reader *) reflexivity.
Qed.

Definition answers (se : bool) (m : mach) : Prop :=
  inv m -> let '(m', res) := call se m in exists y, walk se m y /\ emit se y m' res.

Lemma answers_adv se m m1 : adv se m m1 -> answers se m1 -> answers se m.
Proof.
  intros Ha H Hi. specialize (H (proj1 (adv_ok _ _ _ Ha Hi))). rewrite (adv_call se m m1 Ha Hi).
  destruct (call se m1) as [m' res]. destruct H as (y & Hw & He). exists y. split; [exact (walk_step se _ _ _ Ha Hw)|exact He].
Qed.

Lemma answers_here se m m' res : emit se m m' res -> answers se m.
Proof. intros He _. rewrite (emit_call _ _ _ _ He). exists m. split; [apply walk_refl|exact He]. Qed.

Lemma done_answers se q b st pb : answers se (Mk q b st pb DFinished).
Proof. now eapply answers_here, emit_done. Qed.

Lemma decoding_answers se q b st pb bs : answers se (Mk q b st pb DReading) -> answers se (Mk q b st pb (DDecoding bs)).
Proof.
  intros Hr. destruct se; [destruct bs as [|b0 bs]|].
  - exact (answers_adv true _ _ (adv_drain q b st pb) Hr).
  - now eapply answers_here, emit_batch.
  - now eapply answers_here, emit_reader.
Qed.

Lemma enter_answers se q : (forall b pb, answers se (Mk q b RGIdle pb DReading)) -> forall p b pb, answers se (enter q b p pb).
Proof.
  intros Hq. induction p as [req k IH|u|bs u]; intros b pb; cbn [enter].
  - destruct (needed_ranges pb req) as [|r0 rs0] eqn:En.
    + apply (answers_adv se _ _ (adv_pass se q b req k pb En)), IH.
    + eapply answers_here, emit_need. now rewrite En.
  - apply Hq.
  - apply decoding_answers, Hq.
Qed.

Lemma idle_answers se q : forall b pb, answers se (Mk q b RGIdle pb DReading).
Proof.
  induction q as [|g q IH]; intros b pb.
  - apply (answers_adv se _ _ (adv_stop se [] b pb I)), done_answers.
  - destruct (fr_step g b) as [|b'|r b'] eqn:E.
    + apply (answers_adv se _ _ (adv_stop se (g :: q) b pb E)), done_answers.
    + apply (answers_adv se _ _ (adv_skip se g q b b' pb E)), IH.
    + apply (answers_adv se _ _ (adv_read se g q b r b' pb E)), enter_answers, IH.
Qed.

Theorem call_spec se m : answers se m.
Proof.
  destruct m as [q b st pb d].
  assert (Hr : answers se (Mk q b st pb DReading)).
  { destruct st as [|req k]; [apply idle_answers|apply (enter_answers se q (idle_answers se q) (PNeed req k))]. }
  destruct d as [|bs|]; [exact Hr|apply decoding_answers, Hr|apply done_answers].
Qed.

Lemma rest_with_parts q b st pb d :
  rest (with_parts Rw B U (q, b, st, pb) d) =
  match d with DFinished => [] | DDecoding bs => bs ++ rest_rg q b st | DReading => rest_rg q b st end.
Proof. reflexivity. Qed.

Definition ev_batches (e : event Rw) : list (list Rw) :=
  match e with EData b => [b] | EReader bs => bs | _ => [] end.
Definition ev_ok (e : event Rw) : Prop :=
  match e with
  | ENeed rs => rs <> [] /\ Forall in_file_range rs
  | EError => False
  | _ => True
  end.

Definition valid_action (a : action) : Prop :=
  match a with APush rs => Forall in_file_range rs | _ => True end.

Definition batches_of (evs : list (event Rw)) : list (list Rw) := flat_map ev_batches evs.
Lemma rows_of_batches evs : rows_of Rw evs = concat (batches_of evs).
Proof.
  unfold rows_of, batches_of. induction evs as [|e evs IH]; [reflexivity|]. cbn [flat_map].
  rewrite concat_app, IH. destruct e; cbn; rewrite ?app_nil_r; reflexivity.
Qed.

Definition step_ok (m m' : mach) (evs : list (event Rw)) : Prop :=
  inv m' /\ batches_of evs ++ rest m' = rest m /\ Forall ev_ok evs /\ (In EFinished evs -> rest m' = []).

Lemma call_ok se m : inv m -> let '(m', res) := call se m in step_ok m m' [ev_of Rw res].
Proof.
  intros Hi. pose proof (call_spec se m Hi) as H. destruct (call se m) as [m' res].
  destruct H as (y & Hw & He). unfold step_ok, batches_of. cbn [flat_map]. rewrite app_nil_r.
  destruct (walk_ok se m y Hw Hi) as [Hiy <-].
  destruct He as [z Hd|q b req k pb Hne|q b st pb b0 bs _|q b st pb bs _]; (split; [exact Hiy|]); unfold rest; cbn [m_dec ev_of ev_batches].
  - rewrite Hd. split; [reflexivity|]. split; [now repeat constructor|reflexivity].
  - split; [reflexivity|]. split; [|intros [E|[]]; discriminate E]. repeat constructor; [exact Hne|].
    exact (incl_Forall (incl_filter _ req) (proj1 (phase_ok_need _ _ _ (proj2 Hiy)))).
  - split; [reflexivity|]. split; [now repeat constructor|intros [E|[]]; discriminate E].
  - split; [reflexivity|]. split; [now repeat constructor|intros [E|[]]; discriminate E].
Qed.

(* what a caller may assume of a try_decode call *)
Lemma decode_cases m : inv m ->
  let '(m', res) := try_decode m in
  inv m' /\
  match res with
  | RNeed rs => rest m' = rest m /\ rs <> [] /\ Forall in_file_range rs /\
                exists req k, waiting m' req k /\ rs = needed_ranges (m_buf _ _ _ m') req
  | RData b => rest m = b :: rest m'
  | RFinished => rest m = []
  | RReader _ | RError => False
  end.
Proof.
  intros Hi. pose proof (call_spec true m Hi) as Hs. pose proof (call_ok true m Hi) as Hok. unfold call in Hs, Hok.
  destruct (try_decode m) as [m1 res]. destruct Hs as (y & _ & He).
  destruct Hok as (Hi1 & Hr & Hev & Hfin). unfold batches_of in Hr. cbn [flat_map] in Hr. rewrite app_nil_r in Hr.
  split; [exact Hi1|]. apply Forall_inv in Hev.
  destruct He as [z _|q b req k pb Hne|q b st pb b0 bs _|q b st pb bs Ef]; cbn [ev_of ev_batches ev_ok app] in *.
  - rewrite <- Hr. now apply Hfin; left.
  - split; [now symmetry|]. destruct Hev as [Hn Hin]. split; [exact Hn|]. split; [exact Hin|]. exists req, k. now split.
  - now symmetry.
  - discriminate Ef.
Qed.

(* [p] contains [r]: what [covers] tests of the entry pushed for the range p *)
Definition within (r p : range) : bool := (fst p <=? fst r) && (snd r <=? snd p).
Lemma within_spec supplied r p : In p supplied -> fst p <= fst r -> snd r <= snd p -> existsb (within r) supplied = true.
Proof.
  intros Hp H1 H2. apply existsb_exists. exists p. split; [exact Hp|].
  apply andb_true_intro. split; now apply N.leb_le.
Qed.

Lemma push_all_file pb rs : Forall in_file_range rs -> cons_buf pb ->
  exists pb', push_all pb rs (fchunks rs) = (pb', true) /\ cons_buf pb' /\
    forall r, has_range pb' r = has_range pb r || existsb (within r) rs.
Proof.
  intros Hrs. revert pb; induction Hrs as [|[s e] rs [H1 H2] _ IH]; intros pb Hc; cbn [push_all file_chunks map existsb].
  - exists pb. split; [reflexivity|]. split; [exact Hc|]. intros r. now rewrite orb_false_r.
  - cbn [fst snd] in *. destruct (push_range_consistent file pb s e H1 H2 Hc) as (pb1 & -> & Hc1 & He).
    destruct (IH pb1 Hc1) as (pb' & Hp & Hc' & Hh). exists pb'. split; [exact Hp|]. split; [exact Hc'|].
    intros r. rewrite Hh. unfold has_range. rewrite He, existsb_app. cbn [existsb]. now rewrite orb_false_r, orb_assoc.
Qed.

Lemma push_data_spec m rs : Forall in_file_range rs -> inv m -> m_dec _ _ _ m <> DFinished ->
  exists pb', push_data Rw B U m rs (fchunks rs) = Some (with_buf Rw B U m pb') /\ cons_buf pb' /\
    forall r, has_range pb' r = has_range (m_buf _ _ _ m) r || existsb (within r) rs.
Proof.
  intros Hrs [Hc _] Hd. destruct (push_all_file _ rs Hrs Hc) as (pb' & Hp & H). exists pb'. split; [|exact H].
  unfold push_data, push_ranges. replace (length (fchunks rs)) with (length rs) by (symmetry; apply map_length).
  rewrite Nat.eqb_refl, Hp. now destruct (m_dec _ _ _ m).
Qed.

Lemma clear_all_spec m : inv m -> inv (clear_all Rw B U m) /\ rest (clear_all Rw B U m) = rest m.
Proof.
  intros [Hc Hrg]. unfold clear_all, inv, rest. destruct (m_dec _ _ _ m) eqn:Ed; cbn; rewrite ?Ed.
  - split; [split; [constructor|exact Hrg]|reflexivity].
  - split; [split; [constructor|exact Hrg]|reflexivity].
  - split; [split; [exact Hc|exact Hrg]|reflexivity].
Qed.

Theorem rebuild_at_boundary m bd : into_builder Rw B U m = Some bd -> build Rw B U bd = m.
Proof.
  unfold into_builder, at_boundary. destruct m as [q b st pb d]; cbn. destruct d; try discriminate.
  destruct st; try discriminate. intros H; inversion H; subst. reflexivity.
Qed.

Definition quiet (e : event Rw) : Prop := match e with EPush _ | EClear | ERebuild => True | _ => False end.

Lemma step_quiet m m' evs : inv m' -> rest m' = rest m -> Forall quiet evs -> step_ok m m' evs.
Proof.
  intros Hi Hr Hq. unfold step_ok. rewrite Hr.
  induction Hq as [|e evs He _ (_ & IH1 & IH2 & IH3)].
  - split; [exact Hi|]. split; [reflexivity|]. split; [constructor|intros []].
  - split; [exact Hi|]. destruct e; try contradiction; cbn [batches_of flat_map ev_batches app].
    (* EPush, EClear, ERebuild: no batch, nothing to check, not Finished *)
    all: split; [exact IH1|]; split; [now constructor|]; intros [E|Hin]; [discriminate E|exact (IH3 Hin)].
Qed.

Lemma step_spec m a : valid_action a -> inv m ->
  let '(m', evs) := step Rw B U R fr_step plan upd file m a in step_ok m m' evs.
Proof.
  intros Hv Hi. destruct a as [rs| | | |]; cbn [step].
  - destruct (push_data Rw B U m rs (fchunks rs)) as [m'|] eqn:Ep; [|now apply step_quiet].
    assert (Hd : m_dec _ _ _ m <> DFinished) by (intros Hd; unfold push_data in Ep; rewrite Hd in Ep; discriminate).
    destruct (push_data_spec m rs Hv Hi Hd) as (pb' & Hp & Hc' & _). rewrite Hp in Ep. inversion Ep; subst m'.
    apply step_quiet; [split; [exact Hc'|apply Hi]|reflexivity|repeat constructor].
  - pose proof (call_ok true m Hi) as H. unfold call in H. now destruct (try_decode m).
  - pose proof (call_ok false m Hi) as H. unfold call in H. now destruct (try_next_reader m).
  - destruct (clear_all_spec m Hi). apply step_quiet; auto; repeat constructor.
  - destruct (into_builder Rw B U m) as [bd|] eqn:Eb; [rewrite (rebuild_at_boundary _ _ Eb)|];
      apply step_quiet; auto; repeat constructor.
Qed.

Lemma rest_finished_stays m a : inv m -> valid_action a -> m_dec _ _ _ m = DFinished ->
  m_dec _ _ _ (fst (step Rw B U R fr_step plan upd file m a)) = DFinished.
Proof.
  intros _ _ Hd. destruct a as [rs| | | |]; cbn [step].
  - unfold push_data. rewrite Hd. exact Hd.
  - unfold C15_Machine.try_decode. rewrite Hd. exact Hd.
  - unfold C15_Machine.try_next_reader. rewrite Hd. exact Hd.
  - unfold clear_all. rewrite Hd. exact Hd.
  - unfold into_builder, at_boundary. rewrite Hd. exact Hd.
Qed.

Theorem run_spec sched : forall m, Forall valid_action sched -> inv m ->
  let '(m', evs) := run Rw B U R fr_step plan upd file m sched in step_ok m m' evs.
Proof.
  induction sched as [|a sched IH]; intros m Hv Hi; cbn [run]; [now apply step_quiet|].
  inversion Hv as [|? ? Ha Hs]; subst.
  pose proof (step_spec m a Ha Hi) as H1. destruct (step _ _ _ _ _ _ _ file m a) as [m1 e1].
  destruct H1 as (Hi1 & Hr1 & Ho1 & Hf1).
  pose proof (IH m1 Hs Hi1) as H2. destruct (run _ _ _ _ _ _ _ file m1 sched) as [m2 e2].
  destruct H2 as (Hi2 & Hr2 & Ho2 & Hf2). split; [exact Hi2|]. split; [|split].
  - unfold batches_of in *. rewrite flat_map_app, <- app_assoc, Hr2. exact Hr1.
  - apply Forall_app; auto.
  - intros Hin. apply in_app_or in Hin. destruct Hin as [Hin|Hin]; [|auto].
    (* Finished earlier: the remaining sync output was already empty and stays so *)
    specialize (Hf1 Hin). rewrite Hf1 in Hr2. apply app_eq_nil in Hr2. apply Hr2.
Qed.

Lemma inv_init q b : inv (init Rw B U q b).
Proof. split; cbn; constructor. Qed.

Theorem schedule_independence q b sched :
  Forall valid_action sched ->
  let '(m', evs) := run Rw B U R fr_step plan upd file (init Rw B U q b) sched in
  rows_of Rw evs ++ concat (rest m') = sync_rows Rw B U R fr_step plan upd file q b
  /\ (In EFinished evs -> rows_of Rw evs = sync_rows Rw B U R fr_step plan upd file q b)
  /\ ~ In EError evs.
Proof.
  intros Hv. pose proof (run_spec sched (init Rw B U q b) Hv (inv_init q b)) as H.
  destruct (run _ _ _ _ _ _ _ file (init Rw B U q b) sched) as [m' evs].
  destruct H as (_ & Hr & Ho & Hf). change (rest (init Rw B U q b)) with (sync_read q b) in Hr. unfold sync_rows.
  rewrite rows_of_batches, <- Hr, concat_app. repeat split; auto.
  - intros Hin. rewrite (Hf Hin). cbn [concat]. now rewrite app_nil_r.
  - intros Hin. rewrite Forall_forall in Ho. exact (Ho _ Hin).
Qed.

Theorem requests_in_file q b sched rs :
  Forall valid_action sched ->
  In (ENeed rs) (snd (run Rw B U R fr_step plan upd file (init Rw B U q b) sched)) ->
  rs <> [] /\ Forall in_file_range rs.
Proof.
  intros Hv. pose proof (run_spec sched (init Rw B U q b) Hv (inv_init q b)) as H.
  destruct (run _ _ _ _ _ _ _ file (init Rw B U q b) sched) as [m' evs].
  destruct H as (_ & _ & Ho & _). cbn [snd]. intros Hin. rewrite Forall_forall in Ho. exact (Ho _ Hin).
Qed.

Theorem need_not_buffered m m' rs : inv m -> try_decode m = (m', RNeed rs) ->
  rs <> [] /\ Forall (fun r => has_range (m_buf _ _ _ m') r = false) rs.
Proof.
  intros Hi E. pose proof (decode_cases m Hi) as H. rewrite E in H. destruct H as (_ & _ & Hne & _ & req & k & _ & ->).
  split; [exact Hne|]. apply Forall_forall. intros r Hr. now apply needed_spec in Hr.
Qed.

Theorem progress_partial_supply m req k : waiting m req k -> needed_ranges (m_buf _ _ _ m) req <> [] ->
  try_decode m = (m, RNeed (needed_ranges (m_buf _ _ _ m) req)).
Proof.
  intros Hw Hne. destruct (waiting_state _ _ _ Hw) as (q & b & pb & ->). exact (emit_call _ _ _ _ (emit_need true q b req k pb Hne)).
Qed.

Corollary supplied_not_rerequested m req k r : inv m -> waiting m req k ->
  has_range (m_buf _ _ _ m) r = true -> ~ In r (needed_ranges (m_buf _ _ _ m) req).
Proof. intros _ _ Hh Hin. apply needed_spec in Hin. destruct Hin as [_ Hf]. congruence. Qed.

Lemma queue_enter q b p pb : m_queue _ _ _ (enter q b p pb) = q.
Proof. now destruct p. Qed.

Inductive reach : phase -> phase -> Prop :=
| reach_refl p : reach p p
| reach_step req k p' : reach (k (fchunks req)) p' -> reach (PNeed req k) p'.

(* the phase p' continues the request the decoder waits on *)
Definition continues (st : rgst Rw U) (p' : phase) : Prop :=
  match st with RGIdle => False | RGWait req k => reach (PNeed req k) p' end.

Lemma continues_enter q b p pb p' : continues (m_rg _ _ _ (enter q b p pb)) p' -> reach p p'.
Proof. now destruct p. Qed.

(* A request reached by moves belongs to a later row group or continues the request the moves began at:
   no move lengthens the queue, and within a row group [adv_pass] only descends the tree of requests.  A move
   after which the queue could be longer would make this false. *)
Lemma walk_later se m y req' k' : walk se m y -> m_rg _ _ _ y = RGWait req' k' ->
  (length (m_queue _ _ _ y) < length (m_queue _ _ _ m))%nat \/
  (m_queue _ _ _ y = m_queue _ _ _ m /\ continues (m_rg _ _ _ m) (PNeed req' k')).
Proof.
  induction 1 as [m|m m1 y Ha _ IH]; intros Hy.
  - right. split; [reflexivity|]. rewrite Hy. apply reach_refl.
  - specialize (IH Hy).
    destruct Ha as [se' q b req k pb Hn|se' g q b b' pb E|se' g q b r b' pb E|se' q b pb E|q b st pb];
      rewrite ?queue_enter in IH; cbn [m_queue m_rg length continues] in *.
    + (* adv_pass *) destruct IH as [Hlt|[-> Hr]]; [now left|]. right. split; [reflexivity|].
      exact (reach_step _ _ _ (continues_enter _ _ _ _ _ Hr)).
    + (* adv_skip *) left. destruct IH as [Hlt|[-> _]]; lia.
    + (* adv_read *) left. destruct IH as [Hlt|[-> _]]; lia.
    + (* adv_stop *) destruct IH as [Hlt|[_ []]]. lia.
    + (* adv_drain *) exact IH.
Qed.

Theorem progress_full_supply m req k m' res : inv m -> waiting m req k ->
  needed_ranges (m_buf _ _ _ m) req = [] -> try_decode m = (m', res) ->
  match res with
  | RNeed rs =>
      exists req' k', m_rg _ _ _ m' = RGWait req' k' /\ rs = needed_ranges (m_buf _ _ _ m') req' /\
        ((length (m_queue _ _ _ m') < length (m_queue _ _ _ m))%nat \/
         (m_queue _ _ _ m' = m_queue _ _ _ m /\ reach (k (fchunks req)) (PNeed req' k')))
  | RData _ | RFinished => True
  | RReader _ | RError => False
  end.
Proof.
  intros Hi Hm Hn E. destruct (waiting_state _ _ _ Hm) as (q & b & pb & ->). clear Hm. cbn [m_buf m_queue] in *.
  (* the first move passes the satisfied request *)
  pose proof (adv_pass true q b req k pb Hn) as Ha. pose proof (adv_call _ _ _ Ha Hi) as Ec. unfold call in Ec. rewrite Ec in E.
  pose proof (call_spec true _ (proj1 (adv_ok _ _ _ Ha Hi))) as H. unfold call in H. rewrite E in H. destruct H as (y & Hw & He).
  destruct He as [z _|q1 b1 req' k' pb1 Hne|q1 b1 st1 pb1 b0 bs _|q1 b1 st1 pb1 bs Ef]; [exact I| |exact I|discriminate Ef].
  exists req', k'. split; [reflexivity|]. split; [reflexivity|].
  destruct (walk_later _ _ _ req' k' Hw eq_refl) as [Hlt|[Hq Hr]]; rewrite queue_enter in *; [now left|].
  right. split; [exact Hq|exact (continues_enter _ _ _ _ _ Hr)].
Qed.

(* The request that follows a full supply is [reach]ed from the continuation of the satisfied one, unless it
   belongs to a later row group (progress_full_supply).  [sub_phase] is one step of that: from a request to its
   continuation.  [reach_sub]: what is reached is the phase itself or lies below it in [sub_phase]; [sub_phase_wf]:
   that order is well founded.  So within a row group full supplies cannot be answered by new requests forever. *)
Inductive sub_phase : phase -> phase -> Prop :=
| sub_here req k : sub_phase (k (fchunks req)) (PNeed req k).
Theorem sub_phase_wf : well_founded sub_phase.
Proof.
  intros p. induction p as [req k IH|u|bs u]; constructor; intros p' Hs; inversion Hs; subst. apply IH.
Qed.
Lemma reach_sub p p' : reach p p' -> p = p' \/ Relation_Operators.clos_trans _ sub_phase p' p.
Proof.
  induction 1 as [p|req k p' Hr IH]; [now left|]. right. destruct IH as [<-|Ht].
  - apply Relation_Operators.t_step. constructor.
  - eapply Relation_Operators.t_trans; [exact Ht|]. apply Relation_Operators.t_step. constructor.
Qed.

End Proofs.
