(* C10 — lexsort_topk: the bounded max-heap keeps the `limit` smallest rows, so its sorted content is
   accepted by the sort predicate; sift_up / sift_down restore the heap property. *)
From Coq Require Import List ZArith Lia Bool Arith Permutation.
From AV Require Import Base.ListX Model.C10_Sort Model.C10_Rank Model.C10_Heap.
From AV Require Import Proofs.C10_Cmp Proofs.C10_Sort Proofs.C10_Rank.
Import ListNotations.

Lemma hswap_length h i j : length (hswap h i j) = length h.
Proof. unfold hswap. now rewrite !upd_length. Qed.

Lemma hget_hswap_r h i j : j < length h -> hget (hswap h i j) j = hget h i.
Proof. intros Hj. apply upd_same. now rewrite upd_length. Qed.
Lemma hget_hswap_l h i j : i < length h -> i <> j -> hget (hswap h i j) i = hget h j.
Proof. intros Hi N. unfold hswap, hget. rewrite upd_other by exact N. now apply upd_same. Qed.
Lemma hget_hswap_o h i j k : k <> i -> k <> j -> hget (hswap h i j) k = hget h k.
Proof. intros Ni Nj. unfold hswap, hget. now rewrite !upd_other. Qed.

Lemma upd_perm l : forall i x, i < length l -> Permutation (nth i l 0 :: upd l i x) (x :: l).
Proof.
  induction l as [|a l IH]; intros [|i] x H; cbn in *; try lia; [apply perm_swap|].
  rewrite perm_swap, IH by lia. apply perm_swap.
Qed.

Lemma hswap_perm h i j : i < length h -> j < length h -> i <> j -> Permutation (hswap h i j) h.
Proof.
  intros Hi Hj N. apply (Permutation_cons_inv (a := hget h j)).
  rewrite <- (upd_perm h i (hget h j) Hi). fold (hget h i). unfold hswap.
  rewrite <- (upd_perm (upd h i (hget h j)) j (hget h i)) by now rewrite upd_length.
  now rewrite upd_other by auto.
Qed.

(* The implicit tree: the proofs below use nothing else of the index arithmetic. *)

Definition heap_par (i : nat) : nat := (i - 1) / 2.

Lemma heap_par_children i p : 0 < i -> heap_par i = p <-> i = 2 * p + 1 \/ i = 2 * p + 2.
Proof.
  intros Hi. unfold heap_par. pose proof (Nat.div_mod (i - 1) 2). pose proof (Nat.mod_upper_bound (i - 1) 2). lia.
Qed.
Lemma heap_par_lt i : 0 < i -> heap_par i < i.
Proof. intros Hi. destruct (proj1 (heap_par_children i (heap_par i) Hi) eq_refl); lia. Qed.

Section Heap.
  Variable cmp : nat -> nat -> comparison.
  Hypothesis Hc : tpo cmp.

  (* as the Rust loops test it: `!= Ordering::Less`; heap_ge_not_gt turns it into the `<> Gt` of the other files *)
  Definition heap_ge (a b : nat) : Prop := cmp a b <> Lt.
  Lemma heap_ge_refl a : heap_ge a a.
  Proof. unfold heap_ge. rewrite (tpo_refl _ Hc). discriminate. Qed.
  Lemma heap_ge_not_gt a b : heap_ge a b <-> cmp b a <> Gt.
  Proof. unfold heap_ge. rewrite (tpo_antisym _ Hc a b), compopp_gt. reflexivity. Qed.
  Lemma heap_ge_trans a b d : heap_ge a b -> heap_ge b d -> heap_ge a d.
  Proof. rewrite !heap_ge_not_gt. intros H1 H2. exact (tpo_trans _ Hc d b a H2 H1). Qed.
  Lemma lt_heap_ge a b : cmp a b = Lt -> heap_ge b a.
  Proof. intros H. apply heap_ge_not_gt. rewrite H. discriminate. Qed.

  Definition edge (h : list nat) (i : nat) : Prop := heap_ge (hget h (heap_par i)) (hget h i).
  Definition heap_ok (h : list nat) : Prop := forall i, 0 < i < length h -> edge h i.

  Lemma root_max h : heap_ok h -> forall i, i < length h -> heap_ge (hget h 0) (hget h i).
  Proof.
    intros H i. induction i as [i IH] using lt_wf_ind. intros Hi.
    destruct i as [|i]; [apply heap_ge_refl|]. pose proof (heap_par_lt (S i)).
    apply heap_ge_trans with (hget h (heap_par (S i))); [apply IH|apply H]; lia.
  Qed.

  Lemma root_ge h x : heap_ok h -> In x h -> cmp x (hget h 0) <> Gt.
  Proof. intros H Hx. apply heap_ge_not_gt. destruct (In_nth h x 0 Hx) as (i & Hi & <-). now apply root_max. Qed.

  (* While an element travels, the edges in [bad] may be broken; the children of the travelling position p
     are then not above p's parent.  sift_up: bad = the edge above p.  sift_down: bad = the edges below p. *)
  Definition hole_inv (bad : nat -> Prop) (h : list nat) (p : nat) : Prop :=
    (forall i, 0 < i < length h -> ~ bad i -> edge h i) /\
    (forall i, 0 < i < length h -> heap_par i = p -> 0 < p -> heap_ge (hget h (heap_par p)) (hget h i)).
  Definition up_inv h p := hole_inv (fun i => i = p) h p.
  Definition down_inv h p := hole_inv (fun i => heap_par i = p) h p.

  Lemma up_stop h p : up_inv h p -> (0 < p -> edge h p) -> heap_ok h.
  Proof. intros [U _] E i Hi. destruct (Nat.eq_dec i p) as [->|N]; [apply E; lia|now apply U]. Qed.

  Lemma up_step h p : 0 < p < length h -> up_inv h p -> cmp (hget h (heap_par p)) (hget h p) = Lt ->
    up_inv (hswap h (heap_par p) p) (heap_par p).
  Proof.
    intros [Hp0 Hp] [U1 U2] E. pose proof (heap_par_lt p Hp0) as Hq. apply lt_heap_ge in E. set (q := heap_par p) in *.
    assert (Hqh : q < length h) by now apply Nat.lt_trans with p.
    assert (Nqp : q <> p) by now apply Nat.lt_neq.
    unfold up_inv, hole_inv, edge. rewrite hswap_length. split.
    - (* the edges other than the one above q *)
      intros i Hi Ni. destruct (Nat.eq_dec i p) as [->|Nip].
      { (* the swapped pair itself *) fold q. now rewrite hget_hswap_l, hget_hswap_r. }
      rewrite (hget_hswap_o h q p i Ni Nip). destruct (Nat.eq_dec (heap_par i) p) as [Ep|Np].
      { (* a child of p: it was below p's parent *) rewrite Ep, hget_hswap_r by exact Hp. now apply U2. }
      destruct (Nat.eq_dec (heap_par i) q) as [Eq|Nq].
      { (* a sibling of p: below the old value of q, which is below the new one *)
        rewrite Eq, hget_hswap_l by assumption. apply heap_ge_trans with (hget h q); [exact E|]. rewrite <- Eq. now apply U1. }
      (* an edge the swap does not touch *) rewrite hget_hswap_o by assumption. now apply U1.
    - (* the children of q against q's parent, which the swap does not touch *)
      intros i Hi Ei Hq0. pose proof (heap_par_lt q Hq0) as Hqq. pose proof (heap_par_lt i (proj1 Hi)) as Hii. rewrite Ei in Hii.
      assert (Gq : heap_ge (hget h (heap_par q)) (hget h q)) by (apply U1; [now split|exact Nqp]).
      rewrite (hget_hswap_o h q p (heap_par q)) by (apply Nat.lt_neq; first [assumption|now apply Nat.lt_trans with q]).
      destruct (Nat.eq_dec i p) as [->|Nip]; [(* p now holds q's old value *) now rewrite hget_hswap_r|].
      (* the sibling of p, unchanged and below q's old value *)
      rewrite hget_hswap_o by first [exact Nip|apply Nat.neq_sym, Nat.lt_neq, Hii].
      apply heap_ge_trans with (hget h q); [exact Gq|]. rewrite <- Ei. now apply U1.
  Qed.

  (* fuel: the position halves at every swap, so p steps are enough (topk_step gives length heap, the new last position) *)
  Lemma sift_up_heap fuel : forall h p, p < length h -> p <= fuel -> up_inv h p -> heap_ok (sift_up fuel cmp h p).
  Proof.
    induction fuel as [|f IH]; intros h p Hp Hf U; [apply (up_stop h p U); lia|].
    cbn [sift_up]. destruct p as [|p']; [apply (up_stop h 0 U); lia|].
    fold (heap_par (S p')). pose proof (heap_par_lt (S p')).
    destruct (cmp (hget h (heap_par (S p'))) (hget h (S p'))) eqn:E.
    - apply (up_stop h (S p') U). intros _. unfold edge, heap_ge. rewrite E. discriminate.
    - apply IH; [rewrite hswap_length; lia|lia|apply up_step; [lia|exact U|exact E]].
    - apply (up_stop h (S p') U). intros _. unfold edge, heap_ge. rewrite E. discriminate.
  Qed.

  Lemma sift_up_perm fuel : forall h p, p < length h -> Permutation (sift_up fuel cmp h p) h.
  Proof.
    induction fuel as [|f IH]; intros h p Hp; [reflexivity|].
    cbn [sift_up]. destruct p as [|p']; [reflexivity|]. fold (heap_par (S p')). pose proof (heap_par_lt (S p')).
    destruct (cmp _ _); try reflexivity.
    rewrite IH by (rewrite hswap_length; lia). apply hswap_perm; lia.
  Qed.

  Lemma down_stop h p w : down_inv h p -> heap_ge (hget h p) (hget h w) ->
    (forall i, 0 < i < length h -> heap_par i = p -> heap_ge (hget h w) (hget h i)) -> heap_ok h.
  Proof.
    intros [D _] G W i Hi. destruct (Nat.eq_dec (heap_par i) p) as [Ep|N]; [|now apply D].
    unfold edge. rewrite Ep. apply heap_ge_trans with (hget h w); [exact G|now apply W].
  Qed.

  Lemma worst_child h p : 2 * p + 1 < length h ->
    let w := if (2 * p + 1 + 1 <? length h) && is_lt_c (cmp (hget h (2 * p + 1)) (hget h (2 * p + 1 + 1)))
             then 2 * p + 1 + 1 else 2 * p + 1 in
    p < w < length h /\ heap_par w = p /\ forall i, 0 < i < length h -> heap_par i = p -> heap_ge (hget h w) (hget h i).
  Proof.
    intros Hl. set (l := 2 * p + 1) in *.
    assert (Ch : forall i, 0 < i -> heap_par i = p <-> i = l \/ i = l + 1).
    { intros i Hi. rewrite heap_par_children by exact Hi. unfold l. lia. }
    (* whichever child w is chosen, it only has to be shown not below the children *)
    enough (G : forall w, w = l \/ w = l + 1 /\ l + 1 < length h ->
              (forall i, i < length h -> i = l \/ i = l + 1 -> heap_ge (hget h w) (hget h i)) ->
              p < w < length h /\ heap_par w = p /\
              forall i, 0 < i < length h -> heap_par i = p -> heap_ge (hget h w) (hget h i)).
    { destruct (l + 1 <? length h) eqn:ER; cbn [andb].
      - apply Nat.ltb_lt in ER. destruct (cmp (hget h l) (hget h (l + 1))) eqn:EC; cbn [is_lt_c].
        * apply G; [now left|]. intros i _ [->| ->]; [apply heap_ge_refl|unfold heap_ge; rewrite EC; discriminate].
        * apply G; [right; now split|]. intros i _ [->| ->]; [now apply lt_heap_ge|apply heap_ge_refl].
        * apply G; [now left|]. intros i _ [->| ->]; [apply heap_ge_refl|unfold heap_ge; rewrite EC; discriminate].
      - apply Nat.ltb_ge in ER. apply G; [now left|]. intros i Hi [->| ->]; [apply heap_ge_refl|lia]. }
    intros w Hw G. split; [unfold l in *; lia|]. split; [apply Ch; [unfold l in *; lia|tauto]|].
    intros i Hi Ei. apply G; [apply Hi|]. now apply Ch.
  Qed.

  Lemma down_step h p w : p < w < length h -> heap_par w = p ->
    (forall i, 0 < i < length h -> heap_par i = p -> heap_ge (hget h w) (hget h i)) ->
    down_inv h p -> cmp (hget h p) (hget h w) = Lt -> down_inv (hswap h p w) w.
  Proof.
    intros [Hpw Hw] Pw W [D1 D2] E. apply lt_heap_ge in E.
    assert (Hp : p < length h) by now apply Nat.lt_trans with w.
    assert (Npw : p <> w) by now apply Nat.lt_neq.
    assert (Hw0 : 0 < w) by now apply Nat.lt_lt_0 with p.
    unfold down_inv, hole_inv, edge. rewrite hswap_length. split.
    - (* the edges other than those below w *)
      intros i Hi Ni. destruct (Nat.eq_dec i w) as [->|Niw].
      { (* the swapped pair itself *) now rewrite Pw, hget_hswap_l, hget_hswap_r. }
      destruct (Nat.eq_dec i p) as [->|Nip].
      { (* the edge above p: w was below p's parent *)
        rewrite hget_hswap_l, hget_hswap_o by (try apply Nat.lt_neq, heap_par_lt, Hi; assumption).
        apply (D2 w); [now split|exact Pw|apply Hi]. }
      rewrite (hget_hswap_o h p w i Nip Niw). destruct (Nat.eq_dec (heap_par i) p) as [Ep|Np].
      { (* the other child of p: below w, the worst child *) rewrite Ep, hget_hswap_l by assumption. now apply W. }
      (* an edge the swap does not touch *) rewrite hget_hswap_o by assumption. now apply D1.
    - (* the children of w against w's parent p, which now holds w's old value *)
      intros i Hi Ei _. pose proof (heap_par_lt i (proj1 Hi)) as Hii. rewrite Ei in Hii.
      rewrite Pw, hget_hswap_l by assumption.
      rewrite hget_hswap_o by (apply Nat.neq_sym, Nat.lt_neq; first [assumption|now apply Nat.lt_trans with w]).
      rewrite <- Ei. apply D1; [exact Hi|]. rewrite Ei. now apply Nat.neq_sym.
  Qed.

  (* fuel: every swap moves to a child, a larger position below length h; from the root length h steps are enough *)
  Lemma sift_down_heap fuel : forall h p, p < length h -> length h <= fuel + p -> down_inv h p ->
    heap_ok (sift_down fuel cmp h p).
  Proof.
    induction fuel as [|f IH]; intros h p Hp Hf D; [lia|]. cbn [sift_down].
    destruct (length h <=? 2 * p + 1) eqn:EL.
    - apply Nat.leb_le in EL. intros i Hi. apply D; [exact Hi|]. intros Ei. apply heap_par_children in Ei; lia.
    - apply Nat.leb_gt in EL. destruct (worst_child h p EL) as (Hw & Pw & W).
      destruct (cmp (hget h p) (hget h _)) eqn:E.
      + refine (down_stop h p _ D _ W). unfold heap_ge. rewrite E. discriminate.
      + apply IH; [rewrite hswap_length; lia..|now apply down_step].
      + refine (down_stop h p _ D _ W). unfold heap_ge. rewrite E. discriminate.
  Qed.

  Lemma sift_down_perm fuel : forall h p, p < length h -> Permutation (sift_down fuel cmp h p) h.
  Proof.
    induction fuel as [|f IH]; intros h p Hp; [reflexivity|]. cbn [sift_down].
    destruct (length h <=? 2 * p + 1) eqn:EL; [reflexivity|].
    apply Nat.leb_gt in EL. destruct (worst_child h p EL) as (Hw & _).
    destruct (cmp (hget h p) (hget h _)); try reflexivity.
    rewrite IH by (rewrite hswap_length; lia). apply hswap_perm; lia.
  Qed.
  (* Vec::push, then sift_up_worst_heap from the new last position *)
  Lemma heap_push h x : heap_ok h ->
    heap_ok (sift_up (length h) cmp (h ++ [x]) (length h)) /\
    Permutation (sift_up (length h) cmp (h ++ [x]) (length h)) (x :: h).
  Proof.
    intros Hok. assert (Ll : length (h ++ [x]) = S (length h)) by (rewrite app_length; cbn; lia).
    split.
    - apply sift_up_heap; [lia..|]. split; rewrite Ll.
      + intros i Hi Ni. pose proof (heap_par_lt i). unfold edge, hget. rewrite !app_nth1 by lia. apply Hok. lia.
      + intros i Hi Ei. pose proof (heap_par_lt i). lia.
    - rewrite sift_up_perm by lia. symmetry. apply Permutation_cons_append.
  Qed.

  (* heap[0] = x, then sift_down_worst_heap from the root *)
  Lemma heap_replace_root r t x : heap_ok (r :: t) ->
    heap_ok (sift_down (length (r :: t)) cmp (x :: t) 0) /\
    Permutation (sift_down (length (r :: t)) cmp (x :: t) 0) (x :: t).
  Proof.
    intros Hok. split; [|apply sift_down_perm, Nat.lt_0_succ].
    apply sift_down_heap; [apply Nat.lt_0_succ|cbn; lia|]. split; [|lia].
    intros i Hi Np. pose proof (heap_par_lt i). specialize (Hok i Hi). unfold edge, hget in *.
    destruct i as [|i]; [lia|]. destruct (heap_par (S i)); [lia|exact Hok].
  Qed.
End Heap.

Section TopK.
  Variable cmp : nat -> nat -> comparison.
  Hypothesis Hc : tpo cmp.
  Variable limit : nat.
  Hypothesis Hlim : 0 < limit.

  (* after rows 0..m-1: the heap holds min(limit, m) of them, none above any of the others [om] *)
  Definition tk_inv (heap : list nat) (m : nat) : Prop :=
    heap_ok cmp heap /\ length heap = Nat.min limit m /\
    exists om, Permutation (heap ++ om) (seq 0 m) /\ forall x y, In x heap -> In y om -> cmp x y <> Gt.

  Lemma push_inv heap m : tk_inv heap m -> length heap < limit ->
    tk_inv (sift_up (length heap) cmp (heap ++ [m]) (length heap)) (S m).
  Proof.
    intros (Hok & Hlen & om & P & _) EL. pose proof (Permutation_length P) as L.
    rewrite app_length, seq_length in L. destruct om; [|cbn in L; lia]. rewrite app_nil_r in P.
    destruct (heap_push cmp Hc heap m Hok) as [Hok' Pu]. split; [exact Hok'|split].
    - rewrite (Permutation_length Pu). cbn. lia.
    - exists []. split; [|intros x y _ []]. rewrite app_nil_r, Pu, seq_S, P. apply Permutation_cons_append.
  Qed.

  Lemma keep_inv heap m : tk_inv heap m -> limit <= length heap -> heap_ge cmp m (hget heap 0) -> tk_inv heap (S m).
  Proof.
    intros (Hok & Hlen & om & P & Hom) EL G. split; [exact Hok|]. split; [lia|].
    exists (om ++ [m]). rewrite app_assoc, seq_S. split; [now apply Permutation_app_tail|].
    intros x y Hx Hy. apply in_app_or in Hy. destruct Hy as [Hy|[<-|[]]]; [now apply Hom|].
    apply (heap_ge_not_gt cmp Hc), (heap_ge_trans cmp Hc m (hget heap 0) x G), (heap_ge_not_gt cmp Hc). now apply (root_ge cmp Hc).
  Qed.

  (* the old root joins the rows left out *)
  Lemma replace_inv root t m : tk_inv (root :: t) m -> limit <= length (root :: t) -> cmp m root = Lt ->
    tk_inv (sift_down (length (root :: t)) cmp (m :: t) 0) (S m).
  Proof.
    intros (Hok & Hlen & om & P & Hom) EL E.
    destruct (heap_replace_root cmp Hc root t m Hok) as [Hok' Pd]. split; [exact Hok'|split].
    - rewrite (Permutation_length Pd). cbn in *. lia.
    - exists (root :: om). split.
      + rewrite Pd, seq_S. cbn [app]. rewrite <- Permutation_middle, Permutation_cons_append.
        apply Permutation_app_tail. now rewrite <- P.
      + intros x y Hx Hy. apply (Permutation_in _ Pd) in Hx. destruct Hx as [<-|Hx], Hy as [<-|Hy].
        * rewrite E. discriminate.
        * rewrite (tpo_lt_le cmp Hc m root y E); [discriminate|]. apply Hom; [now left|exact Hy].
        * apply (root_ge cmp Hc (root :: t) x Hok). now right.
        * apply Hom; [now right|exact Hy].
  Qed.

  Lemma step_inv heap m : tk_inv heap m -> tk_inv (topk_step limit cmp heap m) (S m).
  Proof.
    intros H. unfold topk_step. destruct (length heap <? limit) eqn:EL.
    - apply Nat.ltb_lt in EL. now apply push_inv.
    - apply Nat.ltb_ge in EL. destruct heap as [|root t]; [cbn in EL; lia|].
      assert (K : cmp m root <> Lt -> tk_inv (root :: t) (S m)) by (intros N; now apply keep_inv).
      destruct (cmp m root) eqn:E; [apply K; discriminate|now apply replace_inv|apply K; discriminate].
  Qed.

  Lemma topk_heap_inv n : tk_inv (topk_heap n limit cmp) n.
  Proof.
    unfold topk_heap.
    enough (G : forall k heap m, tk_inv heap m -> tk_inv (fold_left (topk_step limit cmp) (seq m k) heap) (m + k)).
    { apply (G n [] 0). split; [intros i Hi; cbn in Hi; lia|]. split; [cbn; lia|]. now exists []. }
    induction k as [|k IH]; intros heap m H; [now rewrite Nat.add_0_r|].
    cbn [seq fold_left]. rewrite <- Nat.add_succ_comm. apply IH. now apply step_inv.
  Qed.

  Theorem lexsort_topk_check (so : (nat -> nat -> comparison) -> list nat -> list nat) n :
    sort_contract so -> sort_check cmp (seq 0 n) (Some limit) (lexsort_topk so n limit cmp) = 1%Z.
  Proof.
    intros Hso. unfold lexsort_topk. destruct (topk_heap_inv n) as (_ & Hlen & om & P & Hom).
    destruct (Hso cmp (topk_heap n limit cmp) Hc) as [Ps S]. set (res := so cmp _) in *.
    assert (Elim : out_len (length (seq 0 n)) (Some limit) = length res).
    { rewrite (Permutation_length Ps), Hlen, seq_length. reflexivity. }
    replace res with (firstn (out_len (length (seq 0 n)) (Some limit)) (res ++ om))
      by now apply firstn_app_exact.
    apply (sort_check_firstn cmp (seq 0 n) (fun i => i)).
    - intros i Hi. rewrite seq_length in Hi. rewrite (nth_error_nth' _ 0) by (now rewrite seq_length).
      now rewrite seq_nth.
    - rewrite seq_length, Ps. exact P.
    - rewrite Elim. apply le_after_app.
      + now apply sortedb_le_after.
      + intros x y Hx Hy. apply Hom; [apply (Permutation_in _ Ps), Hx|exact Hy].
      + rewrite Nat.sub_diag. exact I.
  Qed.
End TopK.
