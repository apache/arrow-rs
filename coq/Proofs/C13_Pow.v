(* C13 — what the other C13 proof files stand on, in this order:
   1. the machine integers of Model/C13_Num.v: imin / imax / fits, from_decimal, checked_mul, wrap_signed;
   2. the MAX_FOR_EACH_PRECISION tables hold 10^k - 1, and 10^MAX_PRECISION fits the native width;
   3. precision: in_prec, valid_prec / check_prec agree with it, what dec_type_ok says. *)
From Coq Require Import List ZArith Bool Lia.
From AV Require Import Model.C13_Num Model.C13_Decimal.
Import ListNotations.
Local Open Scope Z_scope.

Lemma imin_le0 : forall bits sg, imin bits sg <= 0.
Proof. intros bits [|]; unfold imin; [|lia]. pose proof (Z.pow_nonneg 2 (bits - 1)). lia. Qed.
Lemma imax_ge0 : forall bits sg, 1 <= bits -> 0 <= imax bits sg.
Proof.
  intros bits [|] Hb; unfold imax.
  - pose proof (Z.pow_pos_nonneg 2 (bits - 1)). lia.
  - pose proof (Z.pow_pos_nonneg 2 bits). lia.
Qed.
Lemma fits_intro : forall bits sg v, imin bits sg <= v <= imax bits sg -> fits bits sg v = true.
Proof. intros bits sg v [L U]. unfold fits. apply andb_true_iff. split; apply Z.leb_le; assumption. Qed.
Lemma fits_elim : forall bits sg v, fits bits sg v = true -> imin bits sg <= v <= imax bits sg.
Proof. intros bits sg v H. unfold fits in H. apply andb_true_iff in H. destruct H as [L U]. apply Z.leb_le in L, U. lia. Qed.
Lemma fits_zero : forall bits sg, 1 <= bits -> fits bits sg 0 = true.
Proof. intros. apply fits_intro. pose proof (imin_le0 bits sg). pose proof (imax_ge0 bits sg H). lia. Qed.

Lemma fits_signed_abs : forall w v, Z.abs v < 2 ^ (w - 1) -> fits w true v = true.
Proof. intros w v H. apply fits_intro. unfold imin, imax. lia. Qed.

Lemma from_decimal_some : forall w v, fits w true v = true -> from_decimal w v = Some v.
Proof. intros w v H. unfold from_decimal, num_cast. rewrite H. reflexivity. Qed.
Lemma from_decimal_inv : forall w v r, from_decimal w v = Some r -> r = v /\ fits w true v = true.
Proof. intros w v r. unfold from_decimal, num_cast. destruct (fits w true v); [|discriminate]. intros H. inversion H. split; reflexivity. Qed.
Lemma checked_mul_inv : forall w a b r, checked_mul w a b = Some r -> r = a * b /\ fits w true (a * b) = true.
Proof. intros w a b. exact (from_decimal_inv w (a * b)). Qed.
Lemma checked_mul_some : forall w a b, fits w true (a * b) = true -> checked_mul w a b = Some (a * b).
Proof. intros w a b. exact (from_decimal_some w (a * b)). Qed.

Lemma wrap_signed_fits : forall w v, fits w true v = true -> wrap_signed w v = v.
Proof.
  intros w v H. apply fits_elim in H. unfold imin, imax in H. unfold wrap_signed. cbv zeta.
  assert (C : (- 2 ^ (w - 1) <=? v) && (v <? 2 ^ (w - 1)) = true).
  { apply andb_true_iff. split; [apply Z.leb_le|apply Z.ltb_lt]; lia. }
  rewrite C. reflexivity.
Qed.

Lemma pow10_ge1 : forall k, 0 <= k -> 1 <= 10 ^ k.
Proof. intros k Hk. pose proof (Z.pow_pos_nonneg 10 k). lia. Qed.

Definition widths : list Z := [32; 64; 128; 256].

(* MAX_FOR_EACH_PRECISION holds 10^k - 1 at k.  The regenerated tables are checked by walking them
   once (each entry is ten times the one before plus nine), which needs no powers; the 256-bit table
   is that formula by definition. *)
Fixpoint nines_from (e : Z) (t : list Z) : bool :=
  match t with [] => true | m :: r => (m =? e) && nines_from (10 * e + 9) r end.

Lemma nines_from_nth : forall t k n, 0 <= k -> nines_from (10 ^ k - 1) t = true -> (n < length t)%nat ->
  nth_error t n = Some (10 ^ (k + Z.of_nat n) - 1).
Proof.
  induction t as [|m r IH]; intros k n Hk H Hn; [cbn in Hn; lia|].
  cbn [nines_from] in H. apply andb_true_iff in H. destruct H as [Hm Hr]. apply Z.eqb_eq in Hm.
  destruct n as [|n]; cbn [nth_error].
  - rewrite Z.add_0_r, Hm. reflexivity.
  - replace (10 * (10 ^ k - 1) + 9) with (10 ^ (k + 1) - 1) in Hr by (rewrite Z.pow_add_r; lia).
    cbn [length] in Hn. rewrite (IH (k + 1) n) by (assumption || lia). do 3 f_equal. lia.
Qed.

Lemma max_table_spec : forall w, In w widths ->
  length (max_table w) = S (Z.to_nat (dec_maxp w))
  /\ forall n, (n < length (max_table w))%nat -> nth_error (max_table w) n = Some (10 ^ Z.of_nat n - 1).
Proof.
  assert (Lit : forall t, nines_from 0 t = true ->
            forall n, (n < length t)%nat -> nth_error t n = Some (10 ^ Z.of_nat n - 1)).
  { intros t H n Hn. apply (nines_from_nth t 0 n); [lia|exact H|assumption]. }
  intros w [<-|[<-|[<-|[<-|[]]]]]; (split; [reflexivity|]).
  - (* 32 *) apply Lit. reflexivity.
  - (* 64 *) apply Lit. reflexivity.
  - (* 128 *) apply Lit. reflexivity.
  - (* 256 *) intros n Hn. change (max_table 256) with pow10_table_256 in *. unfold pow10_table_256 in *.
    rewrite map_length, seq_length in Hn.
    rewrite nth_error_map, (nth_error_nth' _ 0%nat), seq_nth by (rewrite ?seq_length; assumption). reflexivity.
Qed.

Lemma dec_maxp_range : forall w, In w widths -> 1 <= dec_maxp w <= 76.
Proof. intros w [<-|[<-|[<-|[<-|[]]]]]; vm_compute; split; discriminate. Qed.

Lemma table_get_some : forall w k, In w widths -> 0 <= k <= dec_maxp w -> table_get w k = Some (10 ^ k - 1).
Proof.
  intros w k Hw Hk. destruct (max_table_spec w Hw) as [L T].
  unfold table_get. destruct (Z.ltb_spec k 0); [lia|].
  rewrite T, Z2Nat.id by lia. reflexivity.
Qed.
Lemma table_get_none : forall w k, In w widths -> k < 0 \/ dec_maxp w < k -> table_get w k = None.
Proof.
  intros w k Hw Hk. destruct (max_table_spec w Hw) as [L _]. pose proof (dec_maxp_range w Hw).
  unfold table_get. destruct (Z.ltb_spec k 0); [reflexivity|].
  apply nth_error_None. lia.
Qed.

Lemma pow10_fits_width : forall w, In w widths -> 10 ^ dec_maxp w < 2 ^ (w - 1).
Proof. intros w [<-|[<-|[<-|[<-|[]]]]]; vm_compute; reflexivity. Qed.

Lemma in_prec_true : forall p v, in_prec p v = true <-> Z.abs v < 10 ^ p.
Proof. intros p v. unfold in_prec. cbv beta zeta. apply Z.ltb_lt. Qed.

Lemma abs_mul_pow : forall x k, 0 <= k -> Z.abs (x * 10 ^ k) = Z.abs x * 10 ^ k.
Proof. intros x k Hk. rewrite Z.abs_mul. rewrite (Z.abs_eq (10 ^ k)); [reflexivity|]. pose proof (pow10_ge1 k Hk). lia. Qed.

Lemma abs_le_mul_pow : forall x k, 0 <= k -> Z.abs x <= Z.abs (x * 10 ^ k).
Proof. intros x k Hk. rewrite abs_mul_pow by assumption. pose proof (pow10_ge1 k Hk). pose proof (Z.abs_nonneg x). nia. Qed.

Lemma in_prec_fits : forall w p v, In w widths -> 0 <= p <= dec_maxp w -> Z.abs v < 10 ^ p -> fits w true v = true.
Proof.
  intros w p v Hw Hp Hv. apply fits_signed_abs.
  pose proof (pow10_fits_width w Hw).
  assert (10 ^ p <= 10 ^ dec_maxp w) by (apply Z.pow_le_mono_r; lia). lia.
Qed.

Lemma valid_prec_spec : forall w p v, In w widths -> 0 <= p <= dec_maxp w -> valid_prec w p v = in_prec p v.
Proof.
  intros w p v Hw Hp. unfold valid_prec, in_prec. cbv beta zeta. rewrite (table_get_some w p Hw Hp).
  destruct (Z.ltb_spec (Z.abs v) (10 ^ p)) as [H|H].
  - apply Z.abs_lt in H. apply andb_true_iff. split; apply Z.leb_le; lia.
  - apply andb_false_iff. destruct (Z.leb_spec (- (10 ^ p - 1)) v); [|left; reflexivity].
    right. apply Z.leb_gt. lia.
Qed.

Lemma check_prec_spec : forall w p v, In w widths -> 0 <= p <= dec_maxp w ->
  check_prec w p v = if in_prec p v then Some v else None.
Proof. intros w p v Hw Hp. unfold check_prec. rewrite valid_prec_spec by assumption. reflexivity. Qed.

Lemma dec_type_ok_bounds : forall w p s, dec_type_ok w p s = true ->
  1 <= p <= dec_maxp w /\ s <= dec_maxs w /\ (0 < s -> s <= p) /\ -128 <= s.
Proof.
  intros w p s H. unfold dec_type_ok in H.
  apply andb_true_iff in H; destruct H as [H H5].
  apply andb_true_iff in H; destruct H as [H H4].
  apply andb_true_iff in H; destruct H as [H H3].
  apply andb_true_iff in H; destruct H as [H1 H2].
  apply Z.leb_le in H1, H2, H3, H5.
  repeat split; try lia. intros Hs. apply Z.ltb_lt in Hs. rewrite Hs in H4. apply Z.leb_le in H4. assumption.
Qed.

Lemma dec_type_ok_prec : forall w p s, dec_type_ok w p s = true -> 1 <= p <= dec_maxp w.
Proof. intros w p s H. apply (dec_type_ok_bounds w p s H). Qed.
