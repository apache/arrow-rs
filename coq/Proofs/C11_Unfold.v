(* C11 — the model's [enc], [cmp_asc], [wt] and [wf_type] nest anonymous fixpoints over lists; here each
   gets a name and the equation that says so, and the field types an induction principle that reaches
   into the struct.  Proofs rewrite with these equations instead of simplifying the model: on a leaf
   type a call is one match and computes ([eq_refl] in the leaf instances of C11_Field), on the
   nested types (struct, lists, run-end encoded) it would unfold the big match of cmp_asc.  Where the standalone function binds the
   same arguments as the nested fixpoint the equation holds by computation; [enc_fields],
   [null_fields] and [struct_cmp] carry the options / the comparison as a further argument and need
   an induction.  (The loops nested in [dec] are named in C11_Decode.) *)
From Coq Require Import List NArith ZArith.
From AV Require Import Base.Order Model.C11_Row.
Import ListNotations.
Local Open Scope N_scope.

Lemma ftype_ind' (P : ftype -> Prop)
  (HInt : forall w, P (TInt w)) (HUInt : forall w, P (TUInt w)) (HBool : P TBool)
  (HFloat : forall w, P (TFloat w)) (HFsb : forall n, P (TFsb n)) (HVar : P TVar)
  (HStruct : forall fs, Forall P fs -> P (TStruct fs))
  (HList : forall c, P c -> P (TList c)) (HFsl : forall c n, P c -> P (TFsl c n))
  (HRee : forall c, P c -> P (TRee c)) (HIv : forall ws, P (TIv ws)) : forall t, P t.
Proof.
  fix IH 1. intros [w|w| |w|n| |fs|c|c n|c|ws].
  - apply HInt. - apply HUInt. - apply HBool. - apply HFloat. - apply HFsb. - apply HVar.
  - apply HStruct. induction fs as [|f fs IHfs]; constructor; [apply IH | exact IHfs].
  - apply HList, IH. - apply HFsl, IH. - apply HRee, IH. - apply HIv.
Qed.

Fixpoint enc_fields (fs : list ftype) (o : opts) (vs : list value) : list N :=
  match fs with
  | [] => []
  | f :: fs' => enc f o (hd VNull vs) ++ enc_fields fs' o (tl vs)
  end.

Fixpoint null_fields (fs : list ftype) (o : opts) : list N :=
  match fs with
  | [] => []
  | f :: fs' => enc f o VNull ++ null_fields fs' o
  end.

Lemma enc_struct_valid fs o vs : enc (TStruct fs) o (VStruct vs) = 1 :: enc_fields fs o vs.
Proof.
  cbn [enc]. f_equal. revert vs. induction fs as [|f fs IH]; intros vs; [reflexivity|].
  cbn [enc_fields]. rewrite <- IH. reflexivity.
Qed.

Lemma enc_struct_null fs o : enc (TStruct fs) o VNull = null_sentinel o :: null_fields fs o.
Proof.
  cbn [enc]. f_equal. induction fs as [|f fs IH]; [reflexivity|].
  cbn [null_fields]. rewrite <- IH. reflexivity.
Qed.

Fixpoint struct_cmp (cf : ftype -> value -> value -> comparison) (fs : list ftype) (xs ys : list value) : comparison :=
  match fs with
  | [] => Eq
  | f :: fs' =>
    match cf f (hd VNull xs) (hd VNull ys) with
    | Eq => struct_cmp cf fs' (tl xs) (tl ys)
    | c => c
    end
  end.

Lemma cmp_asc_struct fs nf xs ys :
  cmp_asc (TStruct fs) nf (VStruct xs) (VStruct ys) = struct_cmp (fun f => cmp_asc f nf) fs xs ys.
Proof.
  revert xs ys. induction fs as [|f fs IH]; intros xs ys; [reflexivity|].
  cbn [struct_cmp]. rewrite <- IH. reflexivity.
Qed.

Fixpoint wt_fields (fs : list ftype) (vs : list value) : Prop :=
  match fs, vs with
  | [], [] => True
  | f :: fs', x :: vs' => wt f x /\ wt_fields fs' vs'
  | _, _ => False
  end.

Lemma wt_struct fs vs : wt (TStruct fs) (VStruct vs) = wt_fields fs vs.
Proof. reflexivity. Qed.

Fixpoint wf_types (fs : list ftype) : Prop :=
  match fs with [] => True | f :: r => wf_type f /\ wf_types r end.

Lemma wf_type_struct fs : wf_type (TStruct fs) = wf_types fs.
Proof. reflexivity. Qed.

Lemma Forall_wf_types (Q : ftype -> Prop) fs : Forall (fun f => wf_type f -> Q f) fs -> wf_types fs -> Forall Q fs.
Proof. induction 1 as [|f fs Hf _ IH]; intros Wt; constructor; cbn [wf_types] in Wt; [apply Hf | apply IH]; tauto. Qed.

(* list::encode_one treats the empty list apart, to the same effect *)
Lemma enc_list_flat c o vs :
  enc (TList c) o (VList vs) = flat_map (fun e => encode_one o (Some (enc c (child_opts o) e))) vs ++ encode_empty o.
Proof. cbn [enc]. destruct vs; reflexivity. Qed.

(* The element type is a section variable, so that the fixpoint is literally the one nested in [wt]
   and the equations below hold by computation; the comparison of lists nested in [cmp_asc] is
   [Base.Order.lexc] in the same way. *)
Section Elements.
Variable t : ftype.
Fixpoint wt_all (vs : list value) : Prop :=
  match vs with [] => True | x :: r => wt t x /\ wt_all r end.
End Elements.

Lemma cmp_asc_list c nf xs ys :
  cmp_asc (TList c) nf (VList xs) (VList ys) = lexc (cmp_asc c nf) xs ys.
Proof. reflexivity. Qed.

Lemma cmp_asc_fsl c n nf xs ys :
  cmp_asc (TFsl c n) nf (VList xs) (VList ys) = lexc (cmp_asc c nf) xs ys.
Proof. reflexivity. Qed.

Lemma wt_list c vs : wt (TList c) (VList vs) = wt_all c vs.
Proof. reflexivity. Qed.

Lemma wt_fsl c n vs : wt (TFsl c n) (VList vs) = (length vs = n /\ wt_all c vs).
Proof. reflexivity. Qed.

Lemma wt_all_Forall c vs : wt_all c vs <-> Forall (wt c) vs.
Proof.
  induction vs as [|x vs IH]; cbn [wt_all]; [split; constructor|].
  split; [intros [H1 H2]; constructor; tauto | intros H; inversion H; subst; tauto].
Qed.

Fixpoint tuple_cmp (xs ys : list value) : comparison :=
  match xs, ys with
  | x :: xs', y :: ys' => match (vint x ?= vint y)%Z with Eq => tuple_cmp xs' ys' | r => r end
  | _, _ => Eq
  end.

Lemma cmp_asc_iv ws nf xs ys : cmp_asc (TIv ws) nf (VStruct xs) (VStruct ys) = tuple_cmp xs ys.
Proof. reflexivity. Qed.

Fixpoint wt_tuple (ws : list nat) (vs : list value) : Prop :=
  match ws, vs with
  | [], [] => True
  | w :: ws', VInt z :: vs' =>
    (- 2 ^ (Z.of_N (bits w) - 1) <= z < 2 ^ (Z.of_N (bits w) - 1))%Z /\ wt_tuple ws' vs'
  | _, _ => False
  end.

Lemma wt_iv ws vs : wt (TIv ws) (VStruct vs) = wt_tuple ws vs.
Proof. reflexivity. Qed.

Fixpoint wf_widths (ws : list nat) : Prop :=
  match ws with [] => True | w :: r => (1 <= w)%nat /\ wf_widths r end.

Lemma wf_type_iv ws : wf_type (TIv ws) = wf_widths ws.
Proof. reflexivity. Qed.

(* run-end encoded: the logical value and its type are the child's *)
Lemma wt_ree c v : wt (TRee c) v = wt c v.
Proof. reflexivity. Qed.

Lemma cmp_field_ree c o a b : cmp_field (TRee c) o a b = cmp_field c o a b.
Proof. reflexivity. Qed.

Lemma enc_ree c o v : enc (TRee c) o v = encode_one o (Some (enc c (child_opts o) v)).
Proof. reflexivity. Qed.

Lemma enc_list_null c o : enc (TList c) o VNull = encode_null o.
Proof. reflexivity. Qed.

Lemma enc_fsl_null c n o : enc (TFsl c n) o VNull = encode_null o.
Proof. reflexivity. Qed.

Lemma enc_fsl_valid c n o vs : enc (TFsl c n) o (VList vs) = 1 :: flat_map (enc c o) vs.
Proof. reflexivity. Qed.
