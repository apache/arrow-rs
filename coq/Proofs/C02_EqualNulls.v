(* C02 — the lemmas the other C02 proof files stand on, in this order: windows of lists (equal blocks, a window of a
   mapped range); the model's guarded readers on naturals; the model's boolean tests decide equality (so the
   executable [logically_equal] of the specification ops is the relation of the theorems); the validity bits:
   contains_nulls and equal_nulls through the list-of-bool specifications of the bit iterators ([runs] =
   BitSliceIterator, [positions] = BitIndexIterator, with the facts of Proofs/C19_Runs.v); the dispatch on nulls and
   the loops the comparators share (section Paths); null counts; from a layout's theorem about slots to windows of
   the column and to `==` ([reads], [range_decides], [comparable]). *)
From Coq Require Import List Arith NArith ZArith Bool Lia.
From AV Require Import Base.ListX Base.Bytes Model.C19_Bits Model.C09_Layout Model.C02_Logical Model.C02_Equal.
From AV Require Export Proofs.C19_Runs.
Import ListNotations.

(* windows are written [firstn m (skipn s _)] here; the statements of the property fold them as [window]
   (Proofs/C02_EqualList.v) *)
Lemma seq_window o n m : o + n <= m -> firstn n (skipn o (seq 0 m)) = seq o n.
Proof.
  intros H. replace m with (o + (m - o)) by lia. rewrite seq_app, skipn_app, seq_length, Nat.sub_diag.
  rewrite skipn_all2 by (rewrite seq_length; lia). cbn [app skipn Nat.add].
  replace (m - o) with (n + (m - o - n)) by lia. rewrite seq_app, firstn_app, seq_length, Nat.sub_diag.
  rewrite firstn_all2 by (rewrite seq_length; lia). cbn [firstn]. now rewrite app_nil_r.
Qed.

Lemma window_map {A} (f : nat -> A) o n m : o + n <= m ->
  firstn n (skipn o (map f (seq 0 m))) = map (fun i => f (o + i)) (seq 0 n).
Proof. intros H. now rewrite skipn_map, firstn_map, (seq_window o n m H), (seq_shift_map o n), map_map. Qed.

Lemma app_eq_len {A} (x x' y y' : list A) : length x = length x' -> (x ++ y = x' ++ y' <-> x = x' /\ y = y').
Proof.
  revert x'. induction x as [|u x IH]; intros [|u' x'] Hl; cbn [length] in Hl; try discriminate.
  - cbn [app]. split; [tauto | now intros [_ ->]].
  - cbn [app]. split.
    + intros E. injection E as -> E. apply IH in E; [|lia]. destruct E as [-> ->]. tauto.
    + intros [E ->]. now injection E as -> ->.
Qed.

Lemma firstn_skipn_length {A} (l : list A) w o : o + w <= length l -> length (firstn w (skipn o l)) = w.
Proof. intros H. rewrite firstn_length, skipn_length. lia. Qed.

Lemma mul_le_trans x y w len : x <= y -> y * w <= len -> x * w <= len.
Proof. intros H1 H2. eapply Nat.le_trans; [apply Nat.mul_le_mono_r, H1 | exact H2]. Qed.

Lemma blocks_eq {A} (w : nat) (l r : list A) : forall n o o', (o + n) * w <= length l -> (o' + n) * w <= length r ->
  (firstn (n * w) (skipn (o * w) l) = firstn (n * w) (skipn (o' * w) r)
   <-> forall i, i < n -> firstn w (skipn ((o + i) * w) l) = firstn w (skipn ((o' + i) * w) r)).
Proof.
  induction n as [|n IH]; intros o o' Hl Hr.
  - cbn [Nat.mul firstn]. split; [intros _ i Hi; lia | reflexivity].
  - replace (S n * w) with (w + n * w) by lia. rewrite !firstn_plus, !skipn_skipn.
    rewrite app_eq_len by (rewrite !firstn_skipn_length; lia).
    replace (o * w + w) with (S o * w) by lia. replace (o' * w + w) with (S o' * w) by lia.
    rewrite (IH (S o) (S o')) by lia. split.
    + intros [H0 H] i Hi. destruct i as [|i]; [now rewrite !Nat.add_0_r|].
      rewrite !Nat.add_succ_r. apply (H i). lia.
    + intros H. split; [specialize (H 0 ltac:(lia)); now rewrite !Nat.add_0_r in H|].
      intros i Hi. specialize (H (S i) ltac:(lia)). now rewrite !Nat.add_succ_r in H.
Qed.

Lemma forallb_combine_same {A} (f : A * A -> bool) l : forallb f (List.combine l l) = forallb (fun x => f (x, x)) l.
Proof. induction l as [|x l IH]; [reflexivity|]. cbn [List.combine forallb]. now rewrite IH. Qed.

(* the guarded readers of Model/C02_Logical.v on naturals *)
Lemma leb_0_of_nat n : (0 <=? Z.of_nat n)%Z = true.
Proof. apply Z.leb_le, Nat2Z.is_nonneg. Qed.

Lemma leb_of_nat s m : s <= m -> (Z.of_nat s <=? Z.of_nat m)%Z = true.
Proof. intros H. now apply Z.leb_le, Nat2Z.inj_le. Qed.

Lemma leb_of_nat_add s n m : s + n <= m -> (Z.of_nat s + Z.of_nat n <=? Z.of_nat m)%Z = true.
Proof. intros H. rewrite <- Nat2Z.inj_add. now apply leb_of_nat. Qed.

Lemma bytes_between_nat b s e : s <= e -> e <= length b ->
  bytes_between b (Z.of_nat s) (Z.of_nat e) = firstn (e - s) (skipn s b).
Proof.
  intros H1 H2. unfold bytes_between, slice_bytes. rewrite leb_0_of_nat, !leb_of_nat by assumption.
  now rewrite <- Nat2Z.inj_sub, !Nat2Z.id by exact H1.
Qed.

Lemma child_range_nat klen s e : s <= e -> e <= klen -> child_range klen (Z.of_nat s) (Z.of_nat e) = seq s (e - s).
Proof.
  intros H1 H2. unfold child_range. rewrite leb_0_of_nat, !leb_of_nat by assumption.
  now rewrite <- Nat2Z.inj_sub, !Nat2Z.id by exact H1.
Qed.

(* the list comparisons of Model/C02_Equal, and those nested in lval_eqb, are ListX.eqb_list by computation *)

Lemma bits_eqb_eq p : forall q, bits_eqb p q = true <-> p = q.
Proof. exact (eqb_list_eq_all Bool.eqb eqb_true_iff p). Qed.
Lemma bytes_eqb_eq p : forall q, bytes_eqb p q = true <-> p = q.
Proof. exact (eqb_list_eq_all N.eqb N.eqb_eq p). Qed.
Lemma zs_eqb_eq p : forall q, zs_eqb p q = true <-> p = q.
Proof. exact (eqb_list_eq_all Z.eqb Z.eqb_eq p). Qed.

(* the nested lists are handled by an inner induction under the outer [fix] *)
Lemma lval_eqb_eq : forall x y, lval_eqb x y = true <-> x = y.
Proof.
  fix IH 1. intros [|b|z|l|l|l] [|b'|z'|l'|l'|l']; cbn [lval_eqb]; try (split; intros H; discriminate H).
  - (* LNull *) split; reflexivity.
  - (* LBool *) rewrite eqb_true_iff. split; congruence.
  - (* LInt *) rewrite N.eqb_eq. split; congruence.
  - (* LBytes *) etransitivity; [apply (eqb_list_eq_all N.eqb N.eqb_eq) | split; congruence].
  - (* LList *) etransitivity; [apply (eqb_list_eq lval_eqb) | split; congruence].
    induction l as [|x r IHr]; constructor; [apply IH | exact IHr].
  - (* LStruct *) etransitivity; [apply (eqb_list_eq lval_eqb) | split; congruence].
    induction l as [|x r IHr]; constructor; [apply IH | exact IHr].
Qed.

Lemma lvals_eqb_eq p : forall q, lvals_eqb p q = true <-> p = q.
Proof. exact (eqb_list_eq_all lval_eqb lval_eqb_eq p). Qed.

(* the comparison of field lists nested in dty_eqb destructs each pair, so it is not ListX.eqb_list by computation:
   it is taken abstractly, with its one-step unfolding *)
Lemma fields_eqb_spec {K} (keqb : K -> K -> bool) (leqb : list (K * dty) -> list (K * dty) -> bool) :
  (forall a b, keqb a b = true <-> a = b) ->
  (forall p q, leqb p q = match p, q with
                          | [], [] => true
                          | u :: p', v :: q' => keqb (fst u) (fst v) && dty_eqb (snd u) (snd v) && leqb p' q'
                          | _, _ => false end) ->
  forall fs, Forall (fun p : K * dty => forall t, dty_eqb (snd p) t = true <-> snd p = t) fs ->
  forall fs', leqb fs fs' = true <-> fs = fs'.
Proof.
  intros Hk Hstep fs IH. induction IH as [|[k t] fs Ht _ IHfs]; intros [|[k' t'] fs']; rewrite Hstep;
    try (split; intros H; discriminate H); [split; reflexivity|]. cbn [fst snd] in *.
  rewrite !andb_true_iff, Hk, Ht, IHfs. split; [intros [[-> ->] ->]; reflexivity | intros E; injection E; tauto].
Qed.

Lemma dty_eqb_eq : forall a b, dty_eqb a b = true <-> a = b.
Proof.
  fix IH 1. intros [| |w|n|l u|u|l n c|l n c|s n c|fs|kw s v|rw v|d fs] [| |w'|n'|l' u'|u'|l' n' c'|l' n' c'|s' n' c'|fs'|kw' s' v'|rw' v'|d' fs'];
    try (split; intros H; discriminate H); cbn [dty_eqb]; try (split; reflexivity).
  (* the 156 mixed pairs are refuted, TNull and TBool are immediate; the other eleven equal-constructor pairs: *)
  - (* TFixed *) rewrite Nat.eqb_eq. split; congruence.
  - (* TFixedBin *) rewrite Z.eqb_eq. split; congruence.
  - (* TBin *) rewrite andb_true_iff, !eqb_true_iff. split; [intros [-> ->]; reflexivity | intros H; injection H; tauto].
  - (* TView *) rewrite eqb_true_iff. split; congruence.
  - (* TList *) rewrite !andb_true_iff, !eqb_true_iff, IH. split; [intros [[-> ->] ->]; reflexivity | intros H; injection H; tauto].
  - (* TListView *) rewrite !andb_true_iff, !eqb_true_iff, IH. split; [intros [[-> ->] ->]; reflexivity | intros H; injection H; tauto].
  - (* TFixedList *) rewrite !andb_true_iff, Z.eqb_eq, eqb_true_iff, IH. split; [intros [[-> ->] ->]; reflexivity | intros H; injection H; tauto].
  - (* TStruct *) etransitivity; [apply (fields_eqb_spec Bool.eqb); [exact eqb_true_iff | now intros [|[? ?] ?] [|[? ?] ?] |] | split; congruence].
    induction fs as [|[k t] r IHr]; constructor; [apply IH | exact IHr].
  - (* TDict *) rewrite !andb_true_iff, Nat.eqb_eq, eqb_true_iff, IH. split; [intros [[-> ->] ->]; reflexivity | intros H; injection H; tauto].
  - (* TRee *) rewrite !andb_true_iff, Nat.eqb_eq, IH. split; [intros [-> ->]; reflexivity | intros H; injection H; tauto].
  - (* TUnion *) rewrite andb_true_iff, eqb_true_iff.
    etransitivity; [apply and_iff_compat_l, (fields_eqb_spec Z.eqb); [exact Z.eqb_eq | now intros [|[? ?] ?] [|[? ?] ?] |] |].
    + induction fs as [|[k t] r IHr]; constructor; [apply IH | exact IHr].
    + split; [intros [-> ->]; reflexivity | intros H; injection H; tauto].
Qed.

Theorem logically_equal_iff a b : logically_equal a b = true <-> (p_ty a = p_ty b /\ logical a = logical b).
Proof. unfold logically_equal. now rewrite andb_true_iff, dty_eqb_eq, lvals_eqb_eq. Qed.

Lemma map_seq_ext_iff {A} (f g : nat -> A) n :
  map f (seq 0 n) = map g (seq 0 n) <-> (forall i, i < n -> f i = g i).
Proof. rewrite map_ext_in_iff. split; intros H i Hi; apply H; [apply in_seq; lia | apply in_seq in Hi; lia]. Qed.

Lemma bits_range_eq_iff l r ls rs n :
  bits_range l ls n = bits_range r rs n <-> (forall i, i < n -> bit_at l (ls + i) = bit_at r (rs + i)).
Proof. unfold bits_range. apply map_seq_ext_iff. Qed.

Lemma equal_len_iff l r ls rs n :
  equal_len l r ls rs n = true <-> firstn n (skipn ls l) = firstn n (skipn rs r).
Proof. apply bytes_eqb_eq. Qed.

Lemma equal_bits_iff l r ls rs n :
  equal_bits l r ls rs n = true <-> (forall i, i < n -> bit_at l (ls + i) = bit_at r (rs + i)).
Proof. unfold equal_bits. rewrite bits_eqb_eq. apply bits_range_eq_iff. Qed.

(* what contains_nulls looks at: the head of the run list *)
Lemma contains_nulls_spec l :
  match runs l with
  | (s, e) :: _ => negb (Nat.eqb s 0) || negb (Nat.eqb e (length l))
  | [] => negb (Nat.eqb (length l) 0)
  end = existsb negb l.
Proof.
  unfold runs. destruct l as [|[|] r]; [reflexivity| |]; cbn [runs_from existsb negb orb length].
  - destruct (runs_from_open_head r 1 0) as (e & rest & -> & He). cbn [Nat.eqb negb orb].
    destruct (Nat.eqb_spec e (S (length r))) as [E|E]; cbn [negb]; symmetry.
    + now apply He.
    + apply not_false_iff_true. intros H. now apply E, He.
  - (* first bit unset: every run starts at 1 or later *)
    destruct (runs_from 1 None r) as [|[s e] rest] eqn:E; [reflexivity|].
    assert (Hin : In (s, e) (runs_from 1 None r)) by (rewrite E; now left).
    apply (runs_from_bound r 1 None s e I) in Hin.
    destruct (Nat.eqb_spec s 0); [lia | reflexivity].
Qed.

Lemma nulls_bits_length nb s n : length (nulls_bits nb s n) = n.
Proof. apply bits_range_length. Qed.
Lemma nulls_bits_nth nb s n i : i < n -> nth i (nulls_bits nb s n) false = nb_valid nb (s + i).
Proof. intros Hi. unfold nulls_bits. rewrite bits_range_nth by exact Hi. unfold nb_valid. f_equal. lia. Qed.

Lemma In_valid_positions nb s n j : In j (positions (nulls_bits nb s n)) <-> (j < n /\ nb_valid nb (s + j) = true).
Proof.
  rewrite In_positions, nulls_bits_length. split; intros [Hj H]; (split; [exact Hj|]);
    [rewrite <- (nulls_bits_nth nb s n j Hj) | rewrite (nulls_bits_nth nb s n j Hj)]; exact H.
Qed.

Lemma existsb_negb_false_iff l : existsb negb l = false <-> (forall i, i < length l -> nth i l false = true).
Proof.
  split.
  - intros H i Hi. apply negb_false_iff. exact (existsb_nth negb l false Hi H).
  - intros H. apply not_true_is_false. intros Hex. apply existsb_exists in Hex as (x & Hin & Hx).
    apply (In_nth _ _ false) in Hin as (k & Hk & <-). rewrite H in Hx by exact Hk. discriminate.
Qed.

(* slot_valid of the validity buffer alone: contains_nulls and count_nulls take the buffer, not the array *)
Definition valid_in (nulls : option nullbuf) (i : nat) : bool := match nulls with None => true | Some nb => nb_valid nb i end.

Lemma contains_nulls_false_iff nulls s n :
  contains_nulls nulls s n = false <-> (forall i, i < n -> valid_in nulls (s + i) = true).
Proof.
  destruct nulls as [nb|]; cbn [contains_nulls valid_in]; [|tauto].
  pose proof (contains_nulls_spec (nulls_bits nb s n)) as Hs. rewrite nulls_bits_length in Hs. rewrite Hs.
  rewrite existsb_negb_false_iff, nulls_bits_length. split; intros H i Hi; specialize (H i Hi).
  - now rewrite nulls_bits_nth in H.
  - now rewrite nulls_bits_nth.
Qed.

Lemma slot_valid_valid_in a i : slot_valid a i = valid_in (p_nulls a) i.
Proof. reflexivity. Qed.

Lemma slot_valid_some a nb i : p_nulls a = Some nb -> slot_valid a i = nb_valid nb i.
Proof. unfold slot_valid. now intros ->. Qed.

Lemma equal_nulls_iff a b ls rs n :
  equal_nulls a b ls rs n = true <-> (forall i, i < n -> slot_valid a (ls + i) = slot_valid b (rs + i)).
Proof.
  unfold equal_nulls, slot_valid. destruct (p_nulls a) as [ln|], (p_nulls b) as [rn|].
  - rewrite equal_bits_iff. unfold nb_valid. split; intros H i Hi; specialize (H i Hi); now rewrite <- ?Nat.add_assoc in *.
  - rewrite negb_true_iff, contains_nulls_false_iff. cbn [valid_in]. tauto.
  - rewrite negb_true_iff, contains_nulls_false_iff. cbn [valid_in]. split; intros H i Hi; symmetry; now apply H.
  - tauto.
Qed.

Section Paths.
  Variables (a b : parr) (ls rs n : nat).
  Hypothesis Hv : forall i, i < n -> slot_valid a (ls + i) = slot_valid b (rs + i).

  Lemma nulls_present : contains_nulls (p_nulls a) ls n = true -> exists ln rn, p_nulls a = Some ln /\ p_nulls b = Some rn.
  Proof.
    intros Hc. destruct (p_nulls a) as [ln|] eqn:Ea; [|discriminate Hc].
    destruct (p_nulls b) as [rn|] eqn:Eb; [now exists ln, rn|]. exfalso.
    rewrite (proj2 (contains_nulls_false_iff (Some ln) ls n)) in Hc; [discriminate Hc|].
    intros i Hi. specialize (Hv i Hi). unfold slot_valid in Hv. now rewrite Ea, Eb in Hv.
  Qed.

  Lemma all_valid_iff (P : nat -> Prop) : contains_nulls (p_nulls a) ls n = false ->
    ((forall i, i < n -> slot_valid a (ls + i) = true -> P i) <-> (forall i, i < n -> P i)).
  Proof.
    intros Hc. pose proof (proj1 (contains_nulls_false_iff _ _ _) Hc) as Hall.
    split; intros H i Hi; [apply H; [exact Hi | exact (Hall i Hi)] | intros _; now apply H].
  Qed.

  (* the shape the comparators share: ONE comparison of the whole range when it holds no null, else a path that
     reads both validity buffers.  Stated over variables so that it applies to the body of equal_values as it
     stands, [fast] and [slow] being found by unification *)
  Section Dispatch.
    Variables (fast : bool) (slow : nullbuf -> nullbuf -> bool) (P : nat -> Prop).
    Hypothesis Hfast : (forall i, i < n -> slot_valid a (ls + i) = true) -> (fast = true <-> forall i, i < n -> P i).
    Hypothesis Hslow : forall ln rn, p_nulls a = Some ln -> p_nulls b = Some rn ->
      (slow ln rn = true <-> forall i, i < n -> slot_valid a (ls + i) = true -> P i).

    Theorem null_paths_iff :
      (if negb (contains_nulls (p_nulls a) ls n) then fast
       else match p_nulls a, p_nulls b with Some ln, Some rn => slow ln rn | _, _ => false end) = true
      <-> forall i, i < n -> slot_valid a (ls + i) = true -> P i.
    Proof.
      destruct (contains_nulls (p_nulls a) ls n) eqn:Ec; cbn [negb].
      - destruct (nulls_present Ec) as (ln & rn & Ea & Eb). rewrite Ea, Eb. now apply Hslow.
      - rewrite (all_valid_iff _ Ec). apply Hfast, (proj1 (contains_nulls_false_iff _ _ _) Ec).
    Qed.
  End Dispatch.

  Variables (ln rn : nullbuf) (one : nat -> bool) (P : nat -> Prop).
  Hypotheses (Ea : p_nulls a = Some ln) (Eb : p_nulls b = Some rn).
  Hypothesis Hone : forall i, i < n -> slot_valid a (ls + i) = true -> (one i = true <-> P i).

  (* the two spellings of the loop body in arrow-data: [lnull || (lnull == rnull && ..)] in primitive, variable_size,
     fixed_list and dictionary; [if lnull != rnull { false } else { lnull || .. }] in list.rs and structure.rs *)
  Lemma slot_body i : i < n ->
    let lnull := is_null_at ln (ls + i) in let rnull := is_null_at rn (rs + i) in
    (lnull || (Bool.eqb lnull rnull && one i) = true <-> (slot_valid a (ls + i) = true -> P i)) /\
    ((if negb (Bool.eqb lnull rnull) then false else lnull || one i) = true <-> (slot_valid a (ls + i) = true -> P i)).
  Proof.
    intros Hi. specialize (Hv i Hi). specialize (Hone i Hi). cbn zeta. unfold is_null_at.
    rewrite <- (slot_valid_some a ln _ Ea), <- (slot_valid_some b rn _ Eb), <- Hv.
    destruct (slot_valid a (ls + i)); cbn [negb orb andb Bool.eqb].
    - specialize (Hone eq_refl). tauto.
    - split; (split; [intros _ E; discriminate E | reflexivity]).
  Qed.

  Lemma slot_loop_iff :
    forallb (fun i => let lnull := is_null_at ln (ls + i) in let rnull := is_null_at rn (rs + i) in
                      lnull || (Bool.eqb lnull rnull && one i)) (seq 0 n) = true
    <-> forall i, i < n -> slot_valid a (ls + i) = true -> P i.
  Proof. rewrite forallb_seq_iff. split; intros H i Hi; apply (proj1 (slot_body i Hi)), H, Hi. Qed.

  Lemma slot_loop_if_iff :
    forallb (fun i => let lnull := is_null_at ln (ls + i) in let rnull := is_null_at rn (rs + i) in
                      if negb (Bool.eqb lnull rnull) then false else lnull || one i) (seq 0 n) = true
    <-> forall i, i < n -> slot_valid a (ls + i) = true -> P i.
  Proof. rewrite forallb_seq_iff. split; intros H i Hi; apply (proj2 (slot_body i Hi)), H, Hi. Qed.

  Lemma same_validity_bits : nulls_bits rn rs n = nulls_bits ln ls n.
  Proof.
    apply bits_range_eq_iff. intros i Hi. specialize (Hv i Hi).
    rewrite (slot_valid_some a ln _ Ea), (slot_valid_some b rn _ Eb) in Hv. unfold nb_valid in Hv. now rewrite <- !Nat.add_assoc.
  Qed.

  Lemma forall_valid_positions :
    (forall j, In j (positions (nulls_bits ln ls n)) -> P j) <-> (forall i, i < n -> slot_valid a (ls + i) = true -> P i).
  Proof.
    split; intros H i.
    - intros Hi Hval. apply H, In_valid_positions. now rewrite <- (slot_valid_some a ln _ Ea).
    - intros Hc. apply In_valid_positions in Hc as [Hi Hval]. apply (H i Hi). now rewrite (slot_valid_some a ln _ Ea).
  Qed.

  (* the set-bit index loop (BitIndexIterator over the left validity) *)
  Lemma index_loop_iff (body : nat -> bool) : (forall i, i < n -> (body i = true <-> P i)) ->
    (forallb body (positions (nulls_bits ln ls n)) = true <-> forall i, i < n -> slot_valid a (ls + i) = true -> P i).
  Proof.
    intros Hb. rewrite forallb_forall, <- forall_valid_positions.
    split; intros H j Hin; apply (Hb j (proj1 (proj1 (In_valid_positions _ _ _ _) Hin))), H, Hin.
  Qed.

  (* the valid-run loop (two BitSliceIterators zipped): both sides yield the same runs, which cover exactly the valid slots *)
  Lemma runs_loop_iff (body : nat -> nat -> nat -> nat -> bool) :
    (forall s e, s <= e -> e <= n -> (body s e s e = true <-> forall i, i < e - s -> P (s + i))) ->
    (forallb (fun p : (nat * nat) * (nat * nat) => let '((l_s, l_e), (r_s, r_e)) := p in body l_s l_e r_s r_e)
             (List.combine (runs (nulls_bits ln ls n)) (runs (nulls_bits rn rs n))) = true
     <-> forall i, i < n -> slot_valid a (ls + i) = true -> P i).
  Proof.
    intros Hbody. rewrite same_validity_bits, forallb_combine_same, forallb_forall.
    (* the runs span the set positions, which are the valid slots *)
    rewrite <- forall_valid_positions, <- runs_spans, <- forall_spans.
    split.
    - intros H s e Hin. pose proof (runs_bound _ s e Hin) as [Hbe Hse]. rewrite nulls_bits_length in Hbe.
      apply (Hbody s e Hse Hbe), (H (s, e) Hin).
    - intros H [s e] Hin. pose proof (runs_bound _ s e Hin) as [Hbe Hse]. rewrite nulls_bits_length in Hbe.
      apply (Hbody s e Hse Hbe), (H s e Hin).
  Qed.
End Paths.
Arguments nulls_present {a b ls rs n} Hv Ec.
Arguments all_valid_iff {a ls n} P Ec.
Arguments null_paths_iff {a b ls rs n} Hv {fast slow P} Hfast Hslow.
Arguments slot_loop_iff {a b ls rs n} Hv {ln rn one P} Ea Eb Hone.
Arguments slot_loop_if_iff {a b ls rs n} Hv {ln rn one P} Ea Eb Hone.
Arguments index_loop_iff {a ls n ln P} Ea {body} Hb.
Arguments runs_loop_iff {a b ls rs n} Hv {ln rn P} Ea Eb {body} Hbody.

(* list_equal tests the null count of the range where the other comparators test contains_nulls; `==` compares the
   cached counts *)
Lemma count_false_zero_iff l : count_false l = 0 <-> (forall i, i < length l -> nth i l false = true).
Proof.
  unfold count_false. induction l as [|b r IH]; cbn [filter length].
  - split; [intros _ i Hi; lia | reflexivity].
  - destruct b; cbn [negb].
    + rewrite IH. split; intros H i Hi; [destruct i as [|i]; [reflexivity | apply H; lia] | apply (H (S i)); lia].
    + cbn [length]. split; [discriminate | intros H; specialize (H 0 ltac:(lia)); discriminate].
Qed.

Lemma count_nulls_zero_iff nulls s n : count_nulls nulls s n = 0 <-> (forall i, i < n -> valid_in nulls (s + i) = true).
Proof.
  destruct nulls as [nb|]; cbn [count_nulls valid_in]; [|split; [reflexivity | intros _; reflexivity]].
  rewrite count_false_zero_iff, nulls_bits_length. split; intros H i Hi; specialize (H i Hi).
  - now rewrite nulls_bits_nth in H.
  - now rewrite nulls_bits_nth.
Qed.

Lemma count_nulls_eq a b ls rs n : (forall i, i < n -> slot_valid a (ls + i) = slot_valid b (rs + i)) ->
  count_nulls (p_nulls a) ls n = count_nulls (p_nulls b) rs n.
Proof.
  unfold slot_valid. intros Hv. destruct (p_nulls a) as [la|] eqn:Ea, (p_nulls b) as [lb|] eqn:Eb; cbn [count_nulls].
  - f_equal. unfold nulls_bits. apply bits_range_eq_iff. intros i Hi. specialize (Hv i Hi).
    unfold nb_valid in Hv. now rewrite <- !Nat.add_assoc.
  - apply (count_nulls_zero_iff (Some la)). intros i Hi. exact (Hv i Hi).
  - symmetry. apply (count_nulls_zero_iff (Some lb)). intros i Hi. symmetry. exact (Hv i Hi).
  - reflexivity.
Qed.

Lemma null_count_spec a : spec_nulls a = true -> null_count a = count_nulls (p_nulls a) 0 (p_len a).
Proof.
  unfold spec_nulls, null_count, count_nulls. destruct (p_nulls a) as [nb|]; [|reflexivity].
  rewrite !andb_true_iff, !Nat.eqb_eq. intros [[Hl _] Hc]. rewrite Hc, <- Hl. unfold nb_bits, nulls_bits. now rewrite Nat.add_0_r.
Qed.

Lemma null_count_eq a b :
  spec_nulls a = true -> spec_nulls b = true -> p_len a = p_len b ->
  (forall i, i < p_len a -> slot_valid a i = slot_valid b i) -> null_count a = null_count b.
Proof. intros Ha Hb Hl Hv. rewrite !null_count_spec, <- Hl by assumption. now apply count_nulls_eq. Qed.

Lemma logical_eq_iff a b :
  logical a = logical b <-> (p_len a = p_len b /\ forall i, i < p_len a -> logical_at a i = logical_at b i).
Proof.
  unfold logical. split.
  - intros E. assert (Hl : p_len a = p_len b) by (apply (f_equal (@length _)) in E; now rewrite !map_length, !seq_length in E).
    split; [exact Hl|]. rewrite <- Hl in E. now apply map_seq_ext_iff.
  - intros [Hl H]. rewrite <- Hl. now apply map_seq_ext_iff.
Qed.

Lemma window_logical k s m : s + m <= p_len k ->
  firstn m (skipn s (logical k)) = map (fun i => logical_at k (s + i)) (seq 0 m).
Proof. intros H. unfold logical. now apply window_map. Qed.

(* a layout whose validity buffer alone says which slots are null: slot i denotes [V i] where it is valid, LNull
   elsewhere, and [V i] is not LNull there, so that validity can be read off the column.  Not so Dictionary (a valid
   key may select a null value) and RunEndEncoded (the nulls are those of the values) *)
Definition reads (a : parr) (V : nat -> lval) : Prop :=
  forall i, i < p_len a ->
    logical_at a i = (if slot_valid a i then V i else LNull) /\ (slot_valid a i = true -> is_valid_l (V i) = true).
Definition visible (a : parr) : Prop := forall i, i < p_len a -> slot_valid a i = is_valid_l (logical_at a i).

Lemma reads_visible a V : reads a V -> visible a.
Proof. intros R i Hi. destruct (R i Hi) as [-> N]. destruct (slot_valid a i); [symmetry; now apply N | reflexivity]. Qed.

(* comparing the two arrays on any ranges decides equality of the corresponding windows of their columns: what a parent
   layout asks of its children.  The statements of the property say it with [window] (Proofs/C02_EqualList.v) and call
   it [range_ok] (Proofs/C02_EqualStruct.v): the same body once [window] and [equal_range] are unfolded *)
Definition range_decides (ka kb : parr) : Prop :=
  forall s1 s2 m, s1 + m <= p_len ka -> s2 + m <= p_len kb ->
    (equal_range ka kb s1 s2 m = true <-> firstn m (skipn s1 (logical ka)) = firstn m (skipn s2 (logical kb))).

(* what `==` asks of two arrays of one type: validity buffers that are well formed and say which slots of the column
   are null (the cached null counts are compared first), and a comparison that decides windows *)
Definition comparable (a b : parr) : Prop :=
  spec_nulls a = true /\ spec_nulls b = true /\ visible a /\ visible b /\ range_decides a b.

Lemma comparable_range a b : comparable a b -> range_decides a b.
Proof. intros H. apply H. Qed.

(* from a layout's theorem about slots to windows of the column: equal windows force equal validity because a valid
   slot never denotes LNull *)
Theorem slots_comparable ka kb (Va Vb : nat -> lval) :
  spec_nulls ka = true -> spec_nulls kb = true -> reads ka Va -> reads kb Vb ->
  (forall s1 s2 m, s1 + m <= p_len ka -> s2 + m <= p_len kb ->
     (forall i, i < m -> slot_valid ka (s1 + i) = slot_valid kb (s2 + i)) ->
     (equal_values ka kb s1 s2 m = true <-> forall i, i < m -> slot_valid ka (s1 + i) = true -> Va (s1 + i) = Vb (s2 + i))) ->
  comparable ka kb.
Proof.
  intros Hna Hnb Ra Rb Hrange. split; [exact Hna|]. split; [exact Hnb|].
  split; [exact (reads_visible ka Va Ra)|]. split; [exact (reads_visible kb Vb Rb)|].
  intros s1 s2 m H1 H2. specialize (Hrange s1 s2 m H1 H2).
  assert (Ha : forall i, i < m -> s1 + i < p_len ka) by (intros; lia). assert (Hb : forall i, i < m -> s2 + i < p_len kb) by (intros; lia).
  unfold equal_range. rewrite andb_true_iff, equal_nulls_iff, !window_logical, map_seq_ext_iff by assumption.
  split.
  - intros [Hv He] i Hi. rewrite (proj1 (Ra _ (Ha i Hi))), (proj1 (Rb _ (Hb i Hi))), <- (Hv i Hi).
    destruct (slot_valid ka (s1 + i)) eqn:Hval; [|reflexivity]. now apply (Hrange Hv).
  - intros Hlog.
    assert (Hv : forall i, i < m -> slot_valid ka (s1 + i) = slot_valid kb (s2 + i)).
    { intros i Hi. specialize (Hlog i Hi). destruct (Ra _ (Ha i Hi)) as [Ea Na]. destruct (Rb _ (Hb i Hi)) as [Eb Nb].
      rewrite Ea, Eb in Hlog.
      destruct (slot_valid ka (s1 + i)), (slot_valid kb (s2 + i)); try reflexivity;
        [specialize (Na eq_refl); rewrite Hlog in Na | specialize (Nb eq_refl); rewrite <- Hlog in Nb]; discriminate. }
    split; [exact Hv|]. apply (Hrange Hv). intros i Hi Hval. specialize (Hlog i Hi).
    now rewrite (proj1 (Ra _ (Ha i Hi))), (proj1 (Rb _ (Hb i Hi))), <- (Hv i Hi), Hval in Hlog.
Qed.

(* `==` compares types, lengths and cached null counts, then the whole range *)
Theorem equal_iff_whole a b :
  (p_ty a = p_ty b -> logical a = logical b -> null_count a = null_count b) ->
  (p_ty a = p_ty b -> p_len a = p_len b -> (equal_range a b 0 0 (p_len a) = true <-> logical a = logical b)) ->
  (equal a b = true <-> p_ty a = p_ty b /\ logical a = logical b).
Proof.
  intros Hnc Hwhole. unfold equal, base_equal. rewrite <- andb_assoc. fold (equal_range a b 0 0 (p_len a)).
  rewrite !andb_true_iff, dty_eqb_eq, !Nat.eqb_eq. split.
  - intros [[[Ht Hl] _] He]. split; [exact Ht | now apply (Hwhole Ht Hl)].
  - intros [Ht Hlog]. pose proof (proj1 (proj1 (logical_eq_iff a b) Hlog)) as Hl.
    split; [split; [split; [exact Ht | exact Hl] | now apply Hnc] | now apply (Hwhole Ht Hl)].
Qed.

(* the cached null counts agree because the validity bits do *)
Theorem equal_iff_comparable a b : (p_ty a = p_ty b -> comparable a b) ->
  (equal a b = true <-> p_ty a = p_ty b /\ logical a = logical b).
Proof.
  intros H. apply equal_iff_whole.
  - intros Ht Hlog. destruct (H Ht) as (Hna & Hnb & Hva & Hvb & _). pose proof (proj1 (logical_eq_iff a b) Hlog) as [Hl Hat].
    apply null_count_eq; try assumption. intros i Hi. now rewrite Hva, Hvb, (Hat i Hi) by lia.
  - intros Ht Hl. rewrite (comparable_range a b (H Ht) 0 0 (p_len a)) by lia. cbn [skipn].
    now rewrite !firstn_all2 by (unfold logical; rewrite map_length, seq_length; lia).
Qed.
