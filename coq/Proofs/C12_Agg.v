(* C12 — lane-split aggregation = the fold over the non-null values, for every lane count 2^k,
   every length and every null pattern, for any associative and commutative operation whose start
   value e satisfies e + e = e, used both to accumulate a value and to merge two lanes (the
   accumulators mkacc e op op); instantiated for wrapping sum, min and max.
   sum_checked = left-to-right exact sum with Overflow on the first unrepresentable partial sum. *)
From Coq Require Import List ZArith Lia.
From AV Require Import Base.ListX Model.C12_Int Model.C12_Kernel Model.C12_Agg Proofs.C12_Int Proofs.C12_Kernel.
Import ListNotations.
Local Open Scope Z_scope.
(* for rewriting a reduction away under a sum (wadd_assoc, fold_wadd), as in C12_I256 *)
Local Existing Instances eqm_setoid Zplus_eqm.

Lemma mk_split n : forall (v : list bool) (a : list Z),
  mk v a = mk (firstn n v) (firstn n a) ++ mk (skipn n v) (skipn n a).
Proof. intros v a. unfold mk. now rewrite map2_firstn, map2_skipn, firstn_skipn. Qed.
Lemma valid_values_app l1 l2 : valid_values (l1 ++ l2) = valid_values l1 ++ valid_values l2.
Proof. induction l1 as [|[x|] l1 IH]; cbn [app valid_values]; [reflexivity| |]; now rewrite IH. Qed.

Lemma valid_values_P (P : Z -> Prop) : forall v a, Forall P a -> Forall P (valid_values (mk v a)).
Proof.
  induction v as [|b v IH]; intros [|x a] F; try constructor.
  inversion F; subst. rewrite mk_cons. destruct b; cbn [valid_values]; [constructor|]; auto.
Qed.

Section Lanes.
Variable op : Z -> Z -> Z.
Variable e : Z.
Hypothesis op_assoc : forall a b c, op (op a b) c = op a (op b c).
Hypothesis op_comm : forall a b, op a b = op b a.
Hypothesis e_idem : op e e = e.
Let A := mkacc e op op.
Notation F := (fold_left op).

(* a value folded in first may as well be folded in last *)
Lemma F_op : forall l z y, F l (op z y) = op (F l z) y.
Proof.
  induction l as [|x l IH]; intros z y; [reflexivity|]. cbn [fold_left].
  rewrite <- IH. f_equal. rewrite !op_assoc. f_equal. apply op_comm.
Qed.

(* the lanes taken together: all of them folded into the first *)
Definition lanes (acc : list Z) : Z := match acc with [] => e | a :: t => F t a end.

Lemma chunk_step_length : forall acc vals valid, length (chunk_step A acc vals valid) = length acc.
Proof.
  induction acc as [|a acc IH]; intros [|v vals] [|b valid]; try reflexivity.
  cbn [chunk_step length]. now rewrite IH.
Qed.

Lemma chunk_step_F : forall acc vals valid z, (length vals <= length acc)%nat ->
  F (chunk_step A acc vals valid) z = F (valid_values (mk valid vals)) (F acc z).
Proof.
  induction acc as [|a acc IH]; intros [|v vals] [|b valid] z L; cbn [length] in L; try lia; try reflexivity.
  rewrite mk_cons. cbn [chunk_step fold_left]. rewrite IH by lia.
  destruct b; cbn [accumulate_nullable valid_values fold_left A acc_accumulate]; [|reflexivity].
  now rewrite <- F_op, op_assoc.
Qed.

Lemma chunk_step_lanes acc vals valid : acc <> [] -> (length vals <= length acc)%nat ->
  lanes (chunk_step A acc vals valid) = F (valid_values (mk valid vals)) (lanes acc).
Proof.
  destruct acc as [|a acc]; [congruence|]. intros _ L.
  destruct vals as [|v vals], valid as [|b valid]; try reflexivity.
  cbn [length] in L. rewrite mk_cons. cbn [chunk_step lanes]. rewrite chunk_step_F by lia.
  destruct b; cbn [accumulate_nullable valid_values fold_left A acc_accumulate]; [|reflexivity].
  now rewrite F_op.
Qed.

Lemma lanes_loop_spec L : (0 < L)%nat -> forall fuel acc vals valid,
  (length vals < fuel)%nat -> length acc = L ->
  length (lanes_loop fuel A L acc vals valid) = L /\
  lanes (lanes_loop fuel A L acc vals valid) = F (valid_values (mk valid vals)) (lanes acc).
Proof.
  intros HL. induction fuel as [|k IH]; intros acc vals valid Hf La; [lia|].
  cbn [lanes_loop]. destruct vals as [|v0 vals0].
  - split; [exact La|]. now destruct valid.
  - set (vals := v0 :: vals0) in *. assert (Hne : (0 < length vals)%nat) by (cbn [vals length]; lia).
    destruct (IH (chunk_step A acc (firstn L vals) (firstn L valid)) (skipn L vals) (skipn L valid)) as [L2 B2].
    { rewrite skipn_length. lia. }
    { now rewrite chunk_step_length. }
    split; [exact L2|].
    rewrite B2, chunk_step_lanes, <- fold_left_app, <- valid_values_app, <- mk_split.
    + reflexivity.
    + intros ->. cbn in La. lia.
    + rewrite firstn_length. lia.
Qed.

Lemma F_map2 : forall x y z, length x = length y -> F (map2 op x y) z = F (x ++ y) z.
Proof.
  induction x as [|a x IH]; intros [|b y] z L; cbn [length] in L; try discriminate; [reflexivity|].
  cbn [map2 app fold_left]. rewrite IH, !fold_left_app by lia. cbn [fold_left].
  now rewrite <- F_op, op_assoc.
Qed.
Lemma lanes_map2 x y : length x = length y -> lanes (map2 op x y) = lanes (x ++ y).
Proof.
  destruct x as [|a x], y as [|b y]; intros L; cbn [length] in L; try discriminate; [reflexivity|].
  cbn [map2 app lanes]. rewrite F_map2, !fold_left_app by lia. cbn [fold_left]. now rewrite F_op.
Qed.

Lemma reduce_tree_spec : forall fuel k acc, (k < fuel)%nat -> length acc = (2 ^ k)%nat ->
  reduce_tree fuel A acc = [lanes acc].
Proof.
  induction fuel as [|f IH]; intros k acc Hk L; [lia|].
  cbn [reduce_tree]. destruct k as [|k].
  - cbn in L. now destruct acc as [|x [|? ?]].
  - cbn [Nat.pow] in L. pose proof (Nat.pow_nonzero 2 k ltac:(lia)).
    rewrite (proj2 (Nat.leb_le 2 (length acc))) by lia.
    replace (length acc / 2)%nat with (2 ^ k)%nat by (rewrite L, Nat.mul_comm; symmetry; apply Nat.div_mul; lia).
    set (mid := (2 ^ k)%nat) in *.
    assert (L1 : length (firstn mid acc) = mid) by (rewrite firstn_length; lia).
    assert (L2 : length (skipn mid acc) = mid) by (rewrite skipn_length; lia).
    rewrite (firstn_all2 (skipn mid acc)) by lia. change (acc_merge A) with op.
    rewrite (IH k) by (try rewrite map2_length; lia).
    now rewrite lanes_map2, firstn_skipn by lia.
Qed.

Lemma lanes_repeat n : lanes (repeat e n) = e.
Proof.
  destruct n as [|n]; [reflexivity|]. cbn [repeat lanes].
  induction n as [|n IH]; [reflexivity|]. cbn [repeat fold_left]. now rewrite e_idem.
Qed.

(* nothing is asked of the values; of the start value only e + e = e, because every lane starts
   from it *)
Theorem lanes_eq_fold k vals valid :
  aggregate_nullable_lanes A (2 ^ k) vals valid = F (valid_values (mk valid vals)) e.
Proof.
  unfold aggregate_nullable_lanes. change (acc_default A) with e.
  assert (HL : (0 < 2 ^ k)%nat) by (pose proof (Nat.pow_nonzero 2 k); lia).
  (* the model's fuel: one more round than there are values, one more halving than there are lanes *)
  assert (Fl : (length vals < S (length vals))%nat) by lia.
  assert (Ft : (k < S (2 ^ k))%nat) by (pose proof (Nat.pow_gt_lin_r 2 k); lia).
  destruct (lanes_loop_spec (2 ^ k) HL (S (length vals)) (repeat e (2 ^ k)) vals valid Fl (repeat_length _ _)) as [L B].
  rewrite (reduce_tree_spec (S (2 ^ k)) k _ Ft L).
  cbn [hd]. now rewrite B, lanes_repeat.
Qed.
End Lanes.

Lemma valid_values_count : forall (n : list bool) (a : list Z), length n = length a ->
  (length (valid_values (mk n a)) + count_false n = length a)%nat.
Proof.
  induction n as [|b n IH]; intros [|x a] L; cbn [length] in *; try discriminate; [reflexivity|].
  rewrite mk_cons. cbn [count_false]. specialize (IH a ltac:(lia)).
  destruct b; cbn [valid_values length]; lia.
Qed.
Lemma valid_values_map_Some a : valid_values (map Some a) = a.
Proof. induction a as [|x a IH]; [reflexivity|]. cbn [map valid_values]. now rewrite IH. Qed.

Lemma count_false_le n : (count_false n <= length n)%nat.
Proof. induction n as [|b n IH]; [cbn; lia|]. cbn [count_false length]. destruct b; lia. Qed.


Lemma all_null_iff a : wf a ->
  (null_count a =? arr_len a)%nat = match valid_values (denote a) with [] => true | _ => false end.
Proof.
  intros W. rewrite null_count_vof, denote_mk.
  pose proof (valid_values_count (vof a) (a_vals a) (vof_length a W)) as Cnt. unfold arr_len.
  destruct (valid_values (mk (vof a) (a_vals a))); cbn [length] in Cnt.
  - apply Nat.eqb_eq. lia.
  - apply Nat.eqb_neq. lia.
Qed.

Theorem aggregate_spec op e k a :
  (forall a b c, op (op a b) c = op a (op b c)) -> (forall a b, op a b = op b a) -> op e e = e ->
  wf a ->
  aggregate (mkacc e op op) (2 ^ k) a =
  match valid_values (denote a) with [] => None | vs => Some (fold_left op vs e) end.
Proof.
  intros Ha Hc He W. unfold aggregate. rewrite (all_null_iff a W).
  destruct (valid_values (denote a)) as [|v vs] eqn:Ev; [reflexivity|]. rewrite <- Ev. clear Ev v vs.
  assert (Simple : null_count a = O ->
            aggregate_nonnull_simple (mkacc e op op) (a_vals a) = fold_left op (valid_values (denote a)) e).
  { intros N0. rewrite denote_mk, (vof_no_nulls a W N0). unfold arr_len. now rewrite mk_true, valid_values_map_Some. }
  destruct (a_nulls a) as [n|] eqn:An.
  - destruct (Nat.ltb_spec 0 (null_count a)); f_equal; [|apply Simple; lia].
    rewrite (lanes_eq_fold op e Ha Hc He k (a_vals a) n), denote_mk. unfold vof. now rewrite An.
  - f_equal. apply Simple. unfold null_count. now rewrite An.
Qed.

Definition minop (st v : Z) : Z := if v <? st then v else st.
Definition maxop (st v : Z) : Z := if v >? st then v else st.
Lemma minop_min a b : minop a b = Z.min a b.
Proof. unfold minop. destruct (Z.ltb_spec b a); lia. Qed.
Lemma maxop_max a b : maxop a b = Z.max a b.
Proof. unfold maxop. rewrite Z.gtb_ltb. destruct (Z.ltb_spec a b); lia. Qed.

Lemma valid_values_in (Q : Z -> Prop) a : Forall Q (a_vals a) -> Forall Q (valid_values (denote a)).
Proof. rewrite denote_mk. apply valid_values_P. Qed.

(* min and max: the accumulator agrees with a semilattice operation zop, and on the values of the
   type (P) the start value e is absorbed, so the fold may as well start from the first value *)
Lemma extremum_lanes (op zop : Z -> Z -> Z) e (P : Z -> Prop) k a :
  (forall x y, op x y = zop x y) ->
  (forall x y z, zop (zop x y) z = zop x (zop y z)) -> (forall x y, zop x y = zop y x) ->
  P e -> (forall x, P x -> zop e x = x) ->
  wf a -> Forall P (a_vals a) ->
  aggregate (mkacc e op op) (2 ^ k) a =
  match valid_values (denote a) with [] => None | v :: vs => Some (fold_left zop vs v) end.
Proof.
  intros Eop Ha Hc He Hu W F.
  rewrite (aggregate_spec op e k a) by (try assumption; intros; rewrite !Eop; auto).
  pose proof (valid_values_in P a F) as Fv.
  destruct (valid_values (denote a)) as [|v vs]; [reflexivity|]. f_equal.
  inversion Fv; subst. cbn [fold_left]. rewrite Eop, Hu by assumption.
  clear - Eop. revert v. induction vs as [|x vs IH]; intros v; [reflexivity|]. cbn [fold_left]. now rewrite Eop, IH.
Qed.

Section Width.
Variable H : Z.
Hypothesis Hpos : 0 < H.

Lemma wadd_assoc s a b c : wrapping_add s H (wrapping_add s H a b) c = wrapping_add s H a (wrapping_add s H b c).
Proof.
  unfold wrapping_add. apply wrap_proper. rewrite !(wrap_eqm H Hpos), Z.add_assoc. reflexivity.
Qed.
Lemma wadd_comm s a b : wrapping_add s H a b = wrapping_add s H b a.
Proof. unfold wrapping_add. f_equal. ring. Qed.

Lemma fold_wadd s : forall l a, fold_left (wrapping_add s H) l (wrap s H a) = wrap s H (a + zsum l).
Proof.
  induction l as [|x l IH]; intros a; cbn [fold_left zsum fold_right].
  - now rewrite Z.add_0_r.
  - fold (zsum l). replace (wrapping_add s H (wrap s H a) x) with (wrap s H (a + x)).
    + rewrite IH. f_equal. ring.
    + apply wrap_proper. now rewrite (wrap_eqm H Hpos).
Qed.

Lemma in_range_0 s : in_range s H 0 = true.
Proof. apply in_range_iff. unfold tmin, tmax. destruct s; lia. Qed.

(* the values themselves need not be in range: the sum is reduced into the type anyway *)
Theorem sum_lanes_spec s k a : wf a ->
  aggregate (sum_acc s H) (2 ^ k) a = spec_sum s H (denote a).
Proof.
  intros W. unfold sum_acc, spec_sum.
  rewrite (aggregate_spec (wrapping_add s H) 0 k a (wadd_assoc s) (wadd_comm s) (wrap_small H s 0 (in_range_0 s)) W).
  destruct (valid_values (denote a)) as [|v vs]; [reflexivity|]. f_equal.
  rewrite <- (wrap_small H s 0 (in_range_0 s)) at 1. rewrite fold_wadd. f_equal.
Qed.

Lemma min_op_assoc a b c : (if c <? (if b <? a then b else a) then c else (if b <? a then b else a))
  = (let m := if c <? b then c else b in if m <? a then m else a).
Proof. cbv zeta. destruct (Z.ltb_spec b a), (Z.ltb_spec c b); destruct (Z.ltb_spec c a); try destruct (Z.ltb_spec b a); try lia; reflexivity. Qed.

Theorem min_lanes_spec s k a : wf a -> vals_in_range H s a ->
  aggregate (min_acc s H) (2 ^ k) a = spec_min (denote a).
Proof.
  intros W R. unfold spec_min.
  (* in the model accumulate and merge of min_acc are two lambdas with the same body, minop *)
  change (min_acc s H) with (mkacc (tmax s H) minop minop).
  apply (extremum_lanes minop Z.min (tmax s H) (fun x => x <= tmax s H)).
  - exact minop_min.
  - intros x y z. lia.
  - intros x y. lia.
  - lia.
  - intros x Px. lia.
  - exact W.
  - eapply Forall_impl; [|exact R]. intros x Rx. apply in_range_iff in Rx. lia.
Qed.

Theorem max_lanes_spec s k a : wf a -> vals_in_range H s a ->
  aggregate (max_acc s H) (2 ^ k) a = spec_max (denote a).
Proof.
  intros W R. unfold spec_max.
  (* likewise maxop for both fields of max_acc *)
  change (max_acc s H) with (mkacc (tmin s H) maxop maxop).
  apply (extremum_lanes maxop Z.max (tmin s H) (fun x => tmin s H <= x)).
  - exact maxop_max.
  - intros x y z. lia.
  - intros x y. lia.
  - lia.
  - intros x Px. lia.
  - exact W.
  - eapply Forall_impl; [|exact R]. intros x Rx. apply in_range_iff in Rx. lia.
Qed.

Lemma checked_fold_spec s : forall vals valid st,
  checked_fold s H st vals valid = spec_checked_fold s H st (valid_values (mk valid vals)).
Proof.
  induction vals as [|v vals IH]; intros [|b valid] st; try reflexivity.
  rewrite mk_cons. cbn [checked_fold]. destruct b.
  - cbn [valid_values spec_checked_fold]. rewrite (add_checked_spec H Hpos).
    destruct (in_range s H (st + v)); [apply IH|reflexivity].
  - apply IH.
Qed.

Theorem sum_checked_spec s a : wf a -> sum_checked s H a = spec_sum_checked s H (denote a).
Proof.
  intros W. unfold sum_checked, spec_sum_checked. rewrite (all_null_iff a W), checked_fold_spec.
  change (match a_nulls a with Some n => n | None => repeat true (arr_len a) end) with (vof a).
  rewrite <- denote_mk. destruct (valid_values (denote a)); reflexivity.
Qed.

End Width.

Example ex_sum_lanes :
  aggregate (sum_acc true 128) (2 ^ 2) (mkarr [127; 1; 100; 5; 6; 7] (Some [true; true; false; true; true; true])) = Some (-110).
Proof. vm_compute. reflexivity. Qed.
Example ex_sum_checked_prefix :
  sum_checked true 128 (mkarr [127; 1; -1] None) = inr E_OVERFLOW /\ sum_checked true 128 (mkarr [127; -1; 1] None) = inl (Some 127).
Proof. vm_compute. split; reflexivity. Qed.
