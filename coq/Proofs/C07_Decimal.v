(* C07 — compare_greater_byte_array_decimals is the order of the signed big-endian values when both
   operands have the same length (every FIXED_LEN_BYTE_ARRAY decimal); for different lengths it is
   not (refuted by a concrete pair). *)
From Coq Require Import List ZArith NArith Lia Bool Arith.
From AV Require Import Model.C07_Trunc Model.C07_Stats Model.C07_File Model.C07_Spec Proofs.C07_Trunc.
Import ListNotations.
Local Open Scope Z_scope.

(* the value of a big-endian byte string, unsigned and as two's complement (the lead byte read
   through [i8]); both are 0 on the empty string *)
Fixpoint uval (l : bytes) : Z :=
  match l with [] => 0 | x :: t => Z.of_N x * 256 ^ Z.of_nat (length t) + uval t end.
Definition sval (l : bytes) : Z :=
  match l with [] => 0 | x :: t => i8 x * 256 ^ Z.of_nat (length t) + uval t end.

Lemma pow256_pos n : 0 < 256 ^ Z.of_nat n.
Proof. apply Z.pow_pos_nonneg; lia. Qed.

Lemma pow256_succ n : 256 ^ Z.of_nat (S n) = 256 * 256 ^ Z.of_nat n.
Proof. rewrite Nat2Z.inj_succ. apply Z.pow_succ_r. lia. Qed.

(* big-endian: the leading digit decides *)
Lemma lead_lt p x y u v : 0 <= u -> 0 <= v < p -> x < y -> x * p + v < y * p + u.
Proof. intros Hu Hv L. pose proof (Z.mul_le_mono_nonneg_r (x + 1) y p). lia. Qed.

Lemma uval_bound l : wf l -> 0 <= uval l < 256 ^ Z.of_nat (length l).
Proof.
  induction 1 as [|x l Hx Hl IH]; cbn [uval length]; [cbn; lia|].
  rewrite pow256_succ. pose proof (lead_lt (256 ^ Z.of_nat (length l)) (Z.of_N x) 256 0 (uval l)). lia.
Qed.

Lemma lex_uval a : forall b, length a = length b -> wf a -> wf b -> lex a b = (uval a ?= uval b).
Proof.
  induction a as [|x a IH]; intros [|y b] Hl Wa Wb; try discriminate; [reflexivity|].
  inversion Wa as [|? ? Hx Wa']; inversion Wb as [|? ? Hy Wb']; subst.
  cbn [lex uval length] in *. injection Hl as Hl. rewrite <- Hl.
  pose proof (uval_bound a Wa') as Ba. pose proof (uval_bound b Wb') as Bb. rewrite <- Hl in Bb.
  pose proof (pow256_pos (length a)) as P. set (p := 256 ^ Z.of_nat (length a)) in *.
  destruct (N.compare_spec x y) as [E|L|G].
  - subst y. rewrite (IH b Hl Wa' Wb').
    destruct (Z.compare_spec (uval a) (uval b)); symmetry;
      [apply Z.compare_eq_iff|apply Z.compare_lt_iff|apply Z.compare_gt_iff]; lia.
  - symmetry. apply Z.compare_lt_iff, lead_lt; lia.
  - symmetry. apply Z.compare_gt_iff, lead_lt; lia.
Qed.

Lemma lex_gtb_uval a b : length a = length b -> wf a -> wf b -> lex_gtb a b = (uval b <? uval a).
Proof.
  intros Hl Wa Wb. unfold lex_gtb. rewrite (lex_uval a b Hl Wa Wb).
  destruct (Z.compare_spec (uval a) (uval b)); symmetry; [apply Z.ltb_ge|apply Z.ltb_ge|apply Z.ltb_lt]; lia.
Qed.

Lemma i8_range x : (x <= 255)%N -> -128 <= i8 x <= 127.
Proof. intros H. unfold i8. destruct (N.ltb_spec x 128); lia. Qed.

Theorem gt_decimal_eqlen a b : wf a -> wf b -> length a = length b -> a <> [] ->
  gt_decimal_bytes a b = (sval b <? sval a).
Proof.
  intros Wa Wb Hl Na. destruct a as [|fa ta]; [contradiction|]. destruct b as [|fb tb]; [discriminate|].
  inversion Wa as [|? ? Hfa Wta]; inversion Wb as [|? ? Hfb Wtb]; subst.
  unfold gt_decimal_bytes. rewrite Hl, Nat.eqb_refl. cbn [andb].
  cbn [length] in Hl. injection Hl as Hl.
  cbn [sval]. rewrite <- Hl.
  pose proof (uval_bound ta Wta) as Ba. pose proof (uval_bound tb Wtb) as Bb. rewrite <- Hl in Bb.
  pose proof (pow256_pos (length ta)) as P. set (p := 256 ^ Z.of_nat (length ta)) in *.
  pose proof (i8_range fa Hfa). pose proof (i8_range fb Hfb).
  destruct (N.eqb_spec fa fb) as [E|Ne].
  - subst fb. rewrite !N.eqb_refl. cbn [negb orb].
    rewrite (lex_gtb_uval ta tb Hl Wta Wtb).
    destruct (Z.ltb_spec (uval tb) (uval ta)); symmetry; [apply Z.ltb_lt|apply Z.ltb_ge]; lia.
  - rewrite orb_true_r.
    assert (i8 fa <> i8 fb).
    { unfold i8. destruct (N.ltb_spec fa 128), (N.ltb_spec fb 128); lia. }
    destruct (Z.ltb_spec (i8 fb) (i8 fa)); symmetry; [apply Z.ltb_lt|apply Z.ltb_ge, Z.lt_le_incl]; apply lead_lt; lia.
Qed.

(* for operands of different lengths the function is NOT the value order: 32768 = 00 80 00 is
   reported not greater than 32767 = 7F FF (the tails are compared unaligned) *)
Theorem gt_decimal_unequal_lengths_refuted :
  exists a b, wf a /\ wf b /\ a <> [] /\ b <> [] /\ gt_decimal_bytes a b <> (sval b <? sval a).
Proof.
  exists [0; 128; 0]%N, [127; 255]%N. repeat split; try discriminate.
  - repeat constructor; lia.
  - repeat constructor; lia.
Qed.

(* the specification reads a stored FLBA decimal as [signed_of] of [le_unsigned] of the reversed bytes
   (Model/C07_Spec.sdec at KDF): that reading is [sval] *)
Lemma le_unsigned_rev l : le_unsigned (rev l) = uval l.
Proof.
  assert (A : forall a b, le_unsigned (a ++ b) = le_unsigned a + 256 ^ Z.of_nat (length a) * le_unsigned b).
  { induction a as [|x a IH]; intros b; cbn [app le_unsigned length]; [change (Z.of_nat 0) with 0; rewrite Z.pow_0_r; ring|].
    rewrite IH, pow256_succ. ring. }
  induction l as [|x l IH]; [reflexivity|]. cbn [rev uval]. rewrite A, IH, rev_length. cbn [le_unsigned]. ring.
Qed.

Lemma sdec_decimal_flba l : wf l -> l <> [] -> sdec KDF (length l) l = Some (sval l).
Proof.
  intros W N. unfold sdec. rewrite Nat.eqb_refl. cbn [negb orb].
  destruct l as [|x t]; [contradiction|]. cbn [length Nat.eqb]. f_equal.
  rewrite le_unsigned_rev. unfold signed_of. cbn [uval sval].
  inversion W as [|? ? Hx Wt]; subst. pose proof (uval_bound t Wt) as B. pose proof (pow256_pos (length t)) as P.
  replace (2 ^ (8 * Z.of_nat (S (length t)) - 1)) with (128 * 256 ^ Z.of_nat (length t)).
  2:{ rewrite Nat2Z.inj_succ. replace (8 * Z.succ (Z.of_nat (length t)) - 1) with (7 + 8 * Z.of_nat (length t)) by lia.
      rewrite Z.pow_add_r by lia. rewrite Z.pow_mul_r by lia. reflexivity. }
  replace (2 ^ (8 * Z.of_nat (S (length t)))) with (256 * 256 ^ Z.of_nat (length t)).
  2:{ rewrite Nat2Z.inj_succ. replace (8 * Z.succ (Z.of_nat (length t))) with (8 + 8 * Z.of_nat (length t)) by lia.
      rewrite Z.pow_add_r by lia. rewrite Z.pow_mul_r by lia. reflexivity. }
  set (p := 256 ^ Z.of_nat (length t)) in *. unfold i8.
  pose proof (lead_lt p (Z.of_N x) 128 0 (uval t)). pose proof (Z.mul_le_mono_nonneg_r 128 (Z.of_N x) p).
  destruct (N.ltb_spec x 128); destruct (Z.ltb_spec (Z.of_N x * p + uval t) (128 * p)); lia.
Qed.
