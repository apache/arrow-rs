(* C05 — two's-complement wrapping at an abstract width: range + congruence => unique wrap. *)
From Coq Require Import ZArith Lia.
From AV Require Import Model.C05_Enc.
Local Open Scope Z_scope.

Section Width.
Variable tw : N.
Hypothesis tw_pos : (0 < tw)%N.

(* the modulus 2^tw and its half: a tw-bit signed value lies in [-Hz, Hz) *)
Definition Mz : Z := Z.of_N (2^tw).
Definition Hz : Z := Z.of_N (2^(tw - 1)).

Lemma Mz_2Hz : Mz = 2 * Hz.
Proof.
  unfold Mz, Hz. replace tw with (N.succ (tw - 1)) at 1 by lia. rewrite N.pow_succ_r'. lia.
Qed.
Lemma Hz_pos : 0 < Hz.
Proof. unfold Hz. assert (2^(tw-1) <> 0)%N by (apply N.pow_nonzero; lia). lia. Qed.

Definition in_range (z : Z) : Prop := - Hz <= z < Hz.

Lemma in_range_0 : in_range 0.
Proof. unfold in_range. pose proof Hz_pos. lia. Qed.

Lemma to_unsigned_spec z : Z.of_N (to_unsigned tw z) = z mod Mz.
Proof.
  unfold to_unsigned. fold Mz. pose proof Mz_2Hz. pose proof Hz_pos.
  rewrite Z2N.id; [reflexivity|]. apply Z.mod_pos_bound. lia.
Qed.

Lemma to_signed_spec u : to_signed tw u = if Z.of_N u <? Hz then Z.of_N u else Z.of_N u - Mz.
Proof.
  unfold to_signed. fold Mz. unfold Hz.
  destruct (N.ltb_spec u (2^(tw-1))); destruct (Z.ltb_spec (Z.of_N u) (Z.of_N (2^(tw-1)))); try reflexivity; lia.
Qed.

Lemma wrap_s_spec z : wrap_s tw z = if z mod Mz <? Hz then z mod Mz else z mod Mz - Mz.
Proof. unfold wrap_s. rewrite to_signed_spec, to_unsigned_spec. reflexivity. Qed.

Lemma wrap_s_range z : in_range (wrap_s tw z).
Proof.
  rewrite wrap_s_spec. unfold in_range. pose proof Mz_2Hz as HM. pose proof Hz_pos as HH.
  pose proof (Z.mod_pos_bound z Mz ltac:(lia)).
  destruct (Z.ltb_spec (z mod Mz) Hz); lia.
Qed.

Lemma wrap_s_cong z : exists q, wrap_s tw z = z + q * Mz.
Proof.
  rewrite wrap_s_spec. pose proof Mz_2Hz as HM. pose proof Hz_pos as HH.
  pose proof (Z.div_mod z Mz ltac:(lia)) as E.
  destruct (Z.ltb_spec (z mod Mz) Hz).
  - exists (- (z / Mz)). lia.
  - exists (- (z / Mz) - 1). lia.
Qed.

Lemma range_cong_unique x y q : in_range x -> in_range y -> x = y + q * Mz -> x = y.
Proof.
  unfold in_range. pose proof Mz_2Hz as HM. pose proof Hz_pos as HH. intros Hx Hy E.
  (* x - y is a multiple of Mz that lies strictly between -Mz and Mz *)
  assert (Hq : -1 * Mz < q * Mz < 1 * Mz) by lia. destruct Hq as [Hlo Hhi].
  apply Z.mul_lt_mono_pos_r in Hlo, Hhi; [|lia..]. replace q with 0 in E by lia. lia.
Qed.

Lemma wrap_s_unique z x : in_range x -> (exists q, x = z + q * Mz) -> wrap_s tw z = x.
Proof.
  intros Hx (q & E). destruct (wrap_s_cong z) as (q' & E').
  apply (range_cong_unique _ _ (q' - q)); [apply wrap_s_range|exact Hx|]. lia.
Qed.

Lemma wrap_s_id z : in_range z -> wrap_s tw z = z.
Proof. intros H. apply wrap_s_unique; [exact H|]. exists 0. lia. Qed.

Lemma wrap_s_add_l a b : wrap_s tw (wrap_s tw a + b) = wrap_s tw (a + b).
Proof.
  apply wrap_s_unique; [apply wrap_s_range|].
  destruct (wrap_s_cong (a + b)) as (q & E). destruct (wrap_s_cong a) as (q' & E').
  exists (q - q'). lia.
Qed.

Lemma wrap_s_add_r a b : wrap_s tw (a + wrap_s tw b) = wrap_s tw (a + b).
Proof. rewrite (Z.add_comm a), wrap_s_add_l. f_equal. lia. Qed.

Lemma wrap_s_eq a b q : a = b + q * Mz -> wrap_s tw a = wrap_s tw b.
Proof.
  intros E. apply wrap_s_unique; [apply wrap_s_range|]. destruct (wrap_s_cong b) as (q' & E'). exists (q' - q). lia.
Qed.

Lemma to_unsigned_lt z : (to_unsigned tw z < 2^tw)%N.
Proof.
  apply N2Z.inj_lt. rewrite to_unsigned_spec. apply Z.mod_pos_bound.
  pose proof Mz_2Hz. pose proof Hz_pos. lia.
Qed.

Lemma to_unsigned_diff a b : in_range a -> in_range b -> b <= a -> Z.of_N (to_unsigned tw (a - b)) = a - b.
Proof.
  unfold in_range. pose proof Mz_2Hz as HM. pose proof Hz_pos as HH. intros Ha Hb Hle.
  rewrite to_unsigned_spec. apply Z.mod_small. lia.
Qed.

End Width.
