(* C20 — the LIKE matcher, in this order: the three list predicates of the specification as statements about
   decompositions; the byte-level kernels are these predicates; the reference matcher on the pattern shapes the
   classifier picks out (plain / lit% / %lit / %lit%) is one of them too; the regex_like translation computes the
   reference matcher, by induction over the grammar of patterns; the flagged regex semantics with flags "s". *)
From Coq Require Import List NArith Arith Lia Bool.
From AV Require Import Model.C20_Like.
Import ListNotations.
Local Open Scope N_scope.

Lemma exists_tail_unfold f s :
  exists_tail f s = if f s then true else match s with [] => false | _ :: s' => exists_tail f s' end.
Proof. destruct s; reflexivity. Qed.

Lemma exists_tail_iff f h : exists_tail f h = true <-> exists l t, h = l ++ t /\ f t = true.
Proof.
  split.
  - induction h as [|x h IH]; rewrite exists_tail_unfold; destruct (f _) eqn:E.
    + intros _. now exists [], [].
    + discriminate.
    + intros _. now exists [], (x :: h).
    + intros H. destruct (IH H) as (l & t & -> & Ft). exists (x :: l), t. auto.
  - intros (l & t & -> & Ft). induction l as [|y l IH]; cbn [app]; rewrite exists_tail_unfold; [now rewrite Ft|].
    now destruct (f (y :: l ++ t)).
Qed.

Lemma exists_tail_ext f g s : (forall t, f t = g t) -> exists_tail f s = exists_tail g s.
Proof.
  intros H. induction s as [|x s IH]; rewrite (exists_tail_unfold f), (exists_tail_unfold g), H; [reflexivity|].
  now rewrite IH.
Qed.

Lemma exists_tail_nil f s : f [] = true -> exists_tail f s = true.
Proof. intros H. apply exists_tail_iff. exists s, []. now rewrite app_nil_r. Qed.

(* the '%' loop of the matcher and the ".*" loop of the regex semantics are exists_tail *)
Lemma star_exists_tail (f : list N -> bool) s :
  (fix star (s : list N) : bool := if f s then true else match s with [] => false | _ :: s' => star s' end) s
  = exists_tail f s.
Proof. induction s as [|x s IH]; rewrite exists_tail_unfold; [reflexivity|]. now rewrite <- IH. Qed.

Section Gen.
Variable eqc : N -> N -> bool.
Notation R := (fun x y => eqc x y = true).

Lemma eqlist_by_iff a b : eqlist_by eqc a b = true <-> Forall2 R a b.
Proof.
  split.
  - revert b. induction a as [|x a IH]; intros [|y b]; cbn [eqlist_by]; try discriminate; [constructor|].
    destruct (eqc x y) eqn:E; [|discriminate]. intros H. constructor; auto.
  - induction 1 as [|x y a b E _ IH]; cbn [eqlist_by]; [reflexivity|]. now rewrite E.
Qed.

Lemma prefix_by_iff n h : prefix_by eqc n h = true <-> exists h1 h2, h = h1 ++ h2 /\ Forall2 R h1 n.
Proof.
  split.
  - revert h. induction n as [|c n IH]; intros h; [exists [], h; split; [reflexivity|constructor]|].
    destruct h as [|x h]; cbn [prefix_by]; [discriminate|]. destruct (eqc x c) eqn:E; [|discriminate].
    intros H. destruct (IH h H) as (h1 & h2 & -> & F). exists (x :: h1), h2. split; [reflexivity|now constructor].
  - intros (h1 & h2 & -> & F). induction F as [|x c h1 n E _ IH]; cbn [app prefix_by]; [reflexivity|]. now rewrite E.
Qed.

Lemma Forall2_rev_R a b : Forall2 R a b -> Forall2 R (rev a) (rev b).
Proof.
  induction 1 as [|x y a b Hxy _ IH]; [constructor|]. cbn. apply Forall2_app; [exact IH|]. now repeat constructor.
Qed.
Lemma Forall2_rev_iff a b : Forall2 R (rev a) (rev b) <-> Forall2 R a b.
Proof.
  split; [|apply Forall2_rev_R]. intros H. apply Forall2_rev_R in H. now rewrite !rev_involutive in H.
Qed.

Lemma bytes_starts_with_prefix h n : bytes_starts_with eqc h n = prefix_by eqc n h.
Proof.
  unfold bytes_starts_with. revert h. induction n as [|c n IH]; intros h.
  - cbn. destruct h; reflexivity.
  - destruct h as [|x h]; [reflexivity|].
    cbn [length prefix_by zip_all]. change (S (length h) <? S (length n))%nat with (length h <? length n)%nat.
    specialize (IH h). destruct (length h <? length n)%nat.
    + rewrite <- IH. now destruct (eqc x c).
    + now rewrite IH.
Qed.

Lemma bytes_ends_with_rev h n : bytes_ends_with eqc h n = bytes_starts_with eqc (rev h) (rev n).
Proof. unfold bytes_ends_with, bytes_starts_with. now rewrite !rev_length. Qed.

Lemma bytes_ends_with_iff h n :
  bytes_ends_with eqc h n = true <-> exists h1 h2, h = h1 ++ h2 /\ Forall2 R h2 n.
Proof.
  rewrite bytes_ends_with_rev, bytes_starts_with_prefix, prefix_by_iff. split.
  - intros (h1 & h2 & Eh & F). apply (f_equal (@rev N)) in Eh. rewrite rev_involutive, rev_app_distr in Eh.
    exists (rev h2), (rev h1). split; [exact Eh|]. apply Forall2_rev_R in F. now rewrite rev_involutive in F.
  - intros (h1 & h2 & -> & F). exists (rev h2), (rev h1). rewrite rev_app_distr. split; [reflexivity|].
    now apply Forall2_rev_R.
Qed.

Lemma ends_with_by_iff h n :
  exists_tail (fun t => eqlist_by eqc t n) h = true <-> exists h1 h2, h = h1 ++ h2 /\ Forall2 R h2 n.
Proof.
  rewrite exists_tail_iff. split; intros (l & t & E & F); exists l, t; (split; [exact E|]); now apply eqlist_by_iff.
Qed.

Lemma bytes_ends_with_suffix h n : bytes_ends_with eqc h n = exists_tail (fun t => eqlist_by eqc t n) h.
Proof. apply Bool.eq_true_iff_eq. now rewrite bytes_ends_with_iff, ends_with_by_iff. Qed.

Lemma equals_bytes_eqlist a b : equals_bytes eqc a b = eqlist_by eqc a b.
Proof.
  unfold equals_bytes. revert b. induction a as [|x a IH]; intros [|y b]; try reflexivity.
  cbn [length Nat.eqb zip_all eqlist_by]. rewrite <- IH. now destruct (eqc x y), (length a =? length b)%nat.
Qed.

Lemma zip_all_firstn : forall b a, zip_all eqc (firstn (length b) a) b = zip_all eqc a b.
Proof. induction b as [|y b IH]; intros [|x a]; cbn; try reflexivity. now rewrite IH. Qed.

Lemma view_prefix_path h v : equals_bytes eqc (view_prefix (length v) h) v = bytes_starts_with eqc h v.
Proof.
  unfold equals_bytes, view_prefix, bytes_starts_with. destruct (Nat.ltb_spec (length h) (length v)) as [L|L].
  - cbn [length]. destruct (Nat.eqb_spec 0 (length v)); [lia|reflexivity].
  - rewrite firstn_length_le, Nat.eqb_refl by assumption. apply zip_all_firstn.
Qed.

(* the suffix path is the prefix path on the reversed strings *)
Lemma equals_bytes_rev a b : equals_bytes eqc (rev a) (rev b) = equals_bytes eqc a b.
Proof. apply Bool.eq_true_iff_eq. rewrite !equals_bytes_eqlist, !eqlist_by_iff. exact (Forall2_rev_iff a b). Qed.
Lemma view_suffix_rev n h : view_suffix n h = rev (view_prefix n (rev h)).
Proof.
  unfold view_suffix, view_prefix. rewrite rev_length. destruct (length h <? n)%nat; [reflexivity|].
  now rewrite firstn_rev, rev_involutive.
Qed.
Lemma view_suffix_path h v : equals_bytes eqc (view_suffix (length v) h) v = bytes_ends_with eqc h v.
Proof.
  rewrite bytes_ends_with_rev, <- view_prefix_path, <- (equals_bytes_rev (view_prefix _ _)).
  now rewrite rev_involutive, rev_length, view_suffix_rev.
Qed.

(* what the classifier tests: the two ends of the pattern, and the absence of special characters *)
Lemma first_is_inv b (l : list N) : first_is b l = true -> l = b :: tl l.
Proof. destruct l as [|x l]; [discriminate|]. cbn. intros E. apply N.eqb_eq in E. now subst. Qed.
Lemma last_is_inv b l : last_is b l = true -> l = removelast l ++ [b].
Proof.
  unfold last_is. destruct l as [|x l _] using rev_ind; [discriminate|]. rewrite rev_unit, removelast_last.
  intros E. apply N.eqb_eq in E. now subst x.
Qed.

Definition plain (p : list N) : Prop := existsb is_special p = false.

Lemma plain_cons c p : plain (c :: p) -> is_special c = false /\ plain p.
Proof. apply orb_false_iff. Qed.
Lemma plain_nil : plain [].
Proof. reflexivity. Qed.

Lemma like_gen_lit c p s : is_special c = false ->
  like_gen eqc (c :: p) s = match s with [] => false | x :: s' => if eqc x c then like_gen eqc p s' else false end.
Proof.
  unfold is_special. rewrite !orb_false_iff. intros [[E1 E2] E3]. cbn [like_gen]. rewrite E1, E2, E3. now destruct s.
Qed.

Lemma like_pct_star p s : like_gen eqc (PCT :: p) s = exists_tail (like_gen eqc p) s.
Proof. exact (star_exists_tail (like_gen eqc p) s). Qed.
Lemma like_gen_und p s : like_gen eqc (UND :: p) s = match s with [] => false | _ :: s' => like_gen eqc p s' end.
Proof. now destruct s. Qed.
Lemma like_gen_esc e p s :
  like_gen eqc (BSL :: e :: p) s = match s with [] => false | x :: s' => if eqc x e then like_gen eqc p s' else false end.
Proof. now destruct s. Qed.
Lemma like_gen_bsl s : like_gen eqc [BSL] s = match s with [x] => eqc x BSL | _ => false end.
Proof. now destruct s. Qed.

(* no wildcard, no escape: equality (Predicate::Eq) *)
Lemma like_plain lit : plain lit -> forall s, like_gen eqc lit s = eqlist_by eqc s lit.
Proof.
  induction lit as [|c lit IH]; intros Hp s.
  - destruct s; reflexivity.
  - apply plain_cons in Hp as (Hc & Hp). rewrite like_gen_lit by assumption.
    destruct s as [|x s]; [reflexivity|]. cbn [eqlist_by]. now rewrite IH.
Qed.

Lemma like_pct_any s : like_gen eqc [PCT] s = true.
Proof. rewrite like_pct_star. now apply exists_tail_nil. Qed.

(* lit% : prefix (Predicate::StartsWith) *)
Lemma like_prefix lit : plain lit -> forall s, like_gen eqc (lit ++ [PCT]) s = prefix_by eqc lit s.
Proof.
  induction lit as [|c lit IH]; intros Hp s.
  - cbn [app prefix_by]. apply like_pct_any.
  - apply plain_cons in Hp as (Hc & Hp). cbn [app]. rewrite like_gen_lit by assumption.
    destruct s as [|x s]; [reflexivity|]. cbn [prefix_by]. now rewrite IH.
Qed.

(* %lit : suffix (Predicate::EndsWith) *)
Lemma like_suffix lit : plain lit -> forall s,
  like_gen eqc (PCT :: lit) s = exists_tail (fun t => eqlist_by eqc t lit) s.
Proof. intros Hp s. rewrite like_pct_star. apply exists_tail_ext. intros t. now apply like_plain. Qed.

(* %lit% : infix (Predicate::Contains) *)
Lemma like_infix lit : plain lit -> forall s,
  like_gen eqc (PCT :: lit ++ [PCT]) s = exists_tail (prefix_by eqc lit) s.
Proof. intros Hp s. rewrite like_pct_star. apply exists_tail_ext. intros t. now apply like_prefix. Qed.

Lemma rx_dotstar_star t aend s : rx_match eqc (TDotStar :: t) aend s = exists_tail (rx_match eqc t aend) s.
Proof. exact (star_exists_tail (rx_match eqc t aend) s). Qed.

(* the grammar of LIKE patterns as like_gen and regex_toks read it; an escape takes two characters at once, so P is shown
   for a pattern and for its extensions by one character together *)
Lemma like_pattern_ind (P : list N -> Prop) :
  P [] -> P [BSL] -> (forall e p, P p -> P (BSL :: e :: p)) ->
  (forall p, P p -> P (PCT :: p)) -> (forall p, P p -> P (UND :: p)) ->
  (forall c p, is_special c = false -> P p -> P (c :: p)) ->
  forall p, P p.
Proof.
  intros Hnil Hbs Hesc Hpct Hund Hlit.
  assert (step : forall c t, P t -> P (BSL :: t) -> P (c :: t)).
  { intros c t Ht Hb. unfold is_special in Hlit.
    destruct (N.eqb_spec c PCT) as [->|Np]; [now apply Hpct|].
    destruct (N.eqb_spec c UND) as [->|Nu]; [now apply Hund|].
    destruct (N.eqb_spec c BSL) as [->|Nb]; [exact Hb|].
    apply Hlit; [|exact Ht]. now rewrite !(proj2 (N.eqb_neq c _)). }
  assert (H : forall p, P p /\ forall c, P (c :: p)); [|intros p; apply H].
  induction p as [|d p [IH1 IH2]].
  - split; [exact Hnil|]. intros c. apply step; [exact Hnil|exact Hbs].
  - split; [apply IH2|]. intros c. apply step; [apply IH2|]. apply Hesc, IH1.
Qed.

Lemma regex_toks_lit c p : is_special c = false -> regex_toks (c :: p) = TLit c :: regex_toks p.
Proof. unfold is_special. rewrite !orb_false_iff. intros [[E1 E2] E3]. cbn [regex_toks]. now rewrite E1, E2, E3. Qed.

Lemma regex_toks_sound p : forall s, rx_match eqc (regex_toks p) true s = like_gen eqc p s.
Proof.
  induction p as [| |e p IH|p IH|p IH|c p Hc IH] using like_pattern_ind; intros s.
  - destruct s; reflexivity.
  - (* a trailing backslash matches the one-character haystack "\\" *)
    change (regex_toks [BSL]) with [TLit BSL]. rewrite like_gen_bsl.
    destruct s as [|x [|y s']]; cbn [rx_match]; [reflexivity|now destruct (eqc x BSL)..].
  - change (regex_toks (BSL :: e :: p)) with (TLit e :: regex_toks p). rewrite like_gen_esc.
    destruct s as [|x s']; [reflexivity|]. cbn [rx_match]. now rewrite IH.
  - change (regex_toks (PCT :: p)) with (TDotStar :: regex_toks p).
    rewrite rx_dotstar_star, like_pct_star. now apply exists_tail_ext.
  - change (regex_toks (UND :: p)) with (TDot :: regex_toks p). rewrite like_gen_und.
    destruct s as [|x s']; [reflexivity|]. cbn [rx_match]. apply IH.
  - rewrite regex_toks_lit, like_gen_lit by assumption. destruct s as [|x s']; [reflexivity|]. cbn [rx_match]. now rewrite IH.
Qed.

(* dropping a trailing ".*" together with the "$" *)
Lemma rx_trailing_dotstar t : forall s, rx_match eqc (t ++ [TDotStar]) true s = rx_match eqc t false s.
Proof.
  induction t as [|x t IH]; intros s.
  - cbn [app]. rewrite rx_dotstar_star. now apply exists_tail_nil.
  - destruct x; cbn [app].
    + cbn [rx_match]. destruct s as [|y s]; [reflexivity|]. now rewrite IH.
    + cbn [rx_match]. destruct s as [|y s]; [reflexivity|]. apply IH.
    + rewrite !rx_dotstar_star. now apply exists_tail_ext.
Qed.
End Gen.

(* the textual test `result.ends_with(".*")` sees exactly a trailing '%' token; 46 and 42 are '.' and '*', as the
   model's render_tok and text_ends_dotstar write them *)
Lemma text_ends_dotstar_spec astart ts :
  text_ends_dotstar (render astart ts) = match rev ts with TDotStar :: _ => true | _ => false end.
Proof.
  unfold text_ends_dotstar, render.
  destruct ts as [|x ts _] using rev_ind; [destruct astart; reflexivity|].
  rewrite rev_unit, flat_map_app. cbn [flat_map]. rewrite app_nil_r, app_assoc, rev_app_distr.
  destruct x as [c| |]; cbn [render_tok].
  - destruct (is_meta c) eqn:Em.
    + cbn. reflexivity.
    + assert (Hc : (c =? 42) = false).
      { destruct (N.eqb_spec c 42) as [->|]; [|reflexivity]. discriminate Em. }
      cbn. rewrite Hc. destruct (rev _) as [|z ?]; [reflexivity|]. now rewrite andb_false_r.
  - cbn. destruct (rev _) as [|z ?]; [reflexivity|]. now rewrite andb_false_r.
  - reflexivity.
Qed.

Theorem regex_like_sound eqc p s : rx_is_match eqc (regex_like p) s = like_gen eqc p s.
Proof.
  unfold regex_like. rewrite text_ends_dotstar_spec.
  set (astart := negb (first_is PCT p)). set (body := if astart then p else tl p).
  assert (Hbody : like_gen eqc p s =
                  if astart then rx_match eqc (regex_toks body) true s
                  else exists_tail (rx_match eqc (regex_toks body) true) s).
  { subst astart body. destruct p as [|c r]; [reflexivity|]. cbn [first_is].
    destruct (N.eqb_spec c PCT) as [->|Hc]; cbn [negb tl].
    - rewrite like_pct_star. apply exists_tail_ext. intros t. symmetry. apply regex_toks_sound.
    - symmetry. apply regex_toks_sound. }
  rewrite Hbody. clear Hbody.
  destruct (regex_toks body) as [|x ts _] using rev_ind; [reflexivity|]. rewrite rev_unit.
  destruct x; unfold rx_is_match; cbn [rx_astart rx_toks rx_aend]; try reflexivity.
  rewrite removelast_last.
  destruct astart; [symmetry; apply rx_trailing_dotstar|].
  apply exists_tail_ext. intros t. symmetry. apply rx_trailing_dotstar.
Qed.

(* the flagged semantics with s set and m clear is the reference semantics used for LIKE *)
Lemma rx_match_f_s eqc ts aend : forall s, rx_match_f eqc true false ts aend s = rx_match eqc ts aend s.
Proof.
  induction ts as [|x t IH]; intros s.
  - cbn. destruct aend; [destruct s; reflexivity|reflexivity].
  - destruct x.
    + cbn [rx_match_f rx_match]. destruct s as [|y s]; [reflexivity|]. now rewrite IH.
    + cbn [rx_match_f rx_match dot_ok]. destruct s as [|y s]; [reflexivity|]. apply IH.
    + (* with s set, `if dot_ok true x then star s' else false` inside the flagged ".*" loop computes to `star s'`,
         so that loop is convertible with the one star_exists_tail speaks of *)
      transitivity (exists_tail (rx_match_f eqc true false t aend) s); [exact (star_exists_tail _ s)|].
      rewrite rx_dotstar_star. now apply exists_tail_ext.
Qed.
Lemma rx_search_f_unanchored f ml : forall s b, rx_search_f f false ml b s = exists_tail f s.
Proof.
  induction s as [|x s IH]; intros b; rewrite exists_tail_unfold; cbn [rx_search_f]; [reflexivity|]. now rewrite IH.
Qed.
Lemma rx_search_f_anchored_off f : forall s, rx_search_f f true false false s = false.
Proof. induction s as [|x s IH]; cbn [rx_search_f]; [reflexivity|exact IH]. Qed.
Theorem rx_flags_s_is_reference eqc r s : rx_is_match_f eqc true false r s = rx_is_match eqc r s.
Proof.
  unfold rx_is_match_f, rx_is_match. destruct (rx_astart r).
  - destruct s as [|x s]; cbn [rx_search_f]; rewrite rx_match_f_s.
    + now destruct (rx_match eqc (rx_toks r) (rx_aend r) []).
    + rewrite rx_search_f_anchored_off. now destruct (rx_match eqc (rx_toks r) (rx_aend r) (x :: s)).
  - rewrite rx_search_f_unanchored. apply exists_tail_ext. intros t. apply rx_match_f_s.
Qed.
