(* C06 — scan_ranges never prunes a page that holds a selected row. *)
From Coq Require Import List Arith Lia Bool.
From AV Require Import Model.C06_RowSel Proofs.C06_Construct.
Import ListNotations.

Definition cur_page (pages : list (nat * nat)) : option nat :=
  match pages with (pi, _) :: _ => Some pi | [] => None end.

(* invariant of the scan loop: a selected row of the remaining selectors lies in a page that is
   pushed later, or in the current page when that has already been pushed *)
Lemma scan_go_cover fuel : forall sels pages row_offset incl j p,
  length sels + length pages < fuel ->
  nth j (dens sels) false = true ->
  page_of pages (row_offset + j) = Some p ->
  In p (scan_go fuel sels pages row_offset incl) \/ (incl = true /\ cur_page pages = Some p).
Proof.
  induction fuel as [|fuel IH]; intros sels pages row_offset incl j p Hf Hsel Hpage; [lia|].
  cbn [scan_go].
  destruct sels as [|[sk c] sels']; [destruct j; discriminate|].
  destruct pages as [|[pi pf] pages']; [discriminate|].
  cbn [length] in Hf. cbn [cur_page].
  (* one step deals with the first k rows of the head run, those that lie in the current page *)
  set (k := match pages' with (_, nf) :: _ => Nat.min c (nf - row_offset) | [] => c end).
  assert (Hk : k <= c) by (unfold k; destruct pages' as [|[? ?] ?]; lia).
  rewrite (dens_split_head sk c k sels' Hk), nth_repeat_app in Hsel.
  destruct (Nat.ltb_spec j k) as [Hj|Hj].
  - (* a selected row among them: the run selects, so the page is pushed unless it was before *)
    assert (p = pi) as ->.
    { cbn [page_of] in Hpage. unfold k in Hj. destruct pages' as [|[ni nf] pages'']; [congruence|].
      destruct (Nat.ltb_spec (row_offset + j) nf); [congruence|lia]. }
    destruct sk; [discriminate|]. destruct incl; cbn [orb negb app]; [right; now split|left; now left].
  - (* a later row: the remaining steps push its page, unless it is the current page again, and
       that is pushed by now *)
    assert (Hlater : forall tl, In p tl \/ (incl || negb (sk || incl) = true /\ Some pi = Some p) ->
              In p ((if negb (sk || incl) then [pi] else []) ++ tl) \/ (incl = true /\ Some pi = Some p)).
    { intros tl [Hin|[Hi Hp]]; [left; apply in_or_app; now right|].
      destruct incl; [right; now split|]. cbn [orb] in Hi. rewrite Hi. left. left. now injection Hp. }
    apply Hlater. unfold k in *. clear k Hlater.
    (* after a step to the next page nothing is included yet, so the page is among those pushed *)
    assert (Hfresh : forall sels0 pages0 ro0 j0, length sels0 + length pages0 < fuel ->
              nth j0 (dens sels0) false = true -> page_of pages0 (ro0 + j0) = Some p ->
              In p (scan_go fuel sels0 pages0 ro0 false)).
    { intros sels0 pages0 ro0 j0 H1 H2 H3.
      destruct (IH sels0 pages0 ro0 false j0 p H1 H2 H3) as [Hi|[Hi _]]; [exact Hi|discriminate]. }
    destruct pages' as [|[ni nf] pages''].
    + rewrite Nat.sub_diag in Hsel.
      apply (IH sels' [(pi, pf)] row_offset _ (j - c) p); [cbn [length] in *; lia|exact Hsel|exact Hpage].
    + assert (Hnext : nf <= row_offset + j -> page_of ((ni, nf) :: pages'') (row_offset + j) = Some p).
      { intros H. cbn [page_of] in Hpage. destruct (Nat.ltb_spec (row_offset + j) nf); [lia|exact Hpage]. }
      destruct (Nat.ltb_spec nf (row_offset + c)) as [Hcross|Hnocross].
      * replace (Nat.min c (nf - row_offset)) with (nf - row_offset) in * by lia. left.
        apply (Hfresh _ _ _ (j - (nf - row_offset))); [cbn [length] in *; lia|exact Hsel|].
        replace (row_offset + (nf - row_offset) + (j - (nf - row_offset))) with (row_offset + j) by lia.
        apply Hnext. lia.
      * replace (Nat.min c (nf - row_offset)) with c in * by lia. rewrite Nat.sub_diag in Hsel.
        destruct (Nat.eqb_spec (row_offset + c) nf) as [Heq|Hneq].
        -- left. apply (Hfresh _ _ _ (j - c)); [cbn [length] in *; lia|exact Hsel|].
           replace (row_offset + c + (j - c)) with (row_offset + j) by lia. apply Hnext. lia.
        -- apply (IH sels' ((pi, pf) :: (ni, nf) :: pages'') (row_offset + c) _ (j - c) p);
             [cbn [length] in *; lia|exact Hsel|].
           replace (row_offset + c + (j - c)) with (row_offset + j) by lia. exact Hpage.
Qed.

Theorem scan_ranges_cover s first_rows i p :
  nth i (den s) false = true ->
  page_of (combine (seq 0 (length first_rows)) first_rows) i = Some p ->
  In p (scan_ranges s first_rows).
Proof.
  intros Hsel Hpage. unfold scan_ranges.
  rewrite <- dens_selectors_of in Hsel.
  destruct (scan_go_cover (length (selectors_of s) + length first_rows + 1) (selectors_of s)
              (combine (seq 0 (length first_rows)) first_rows) 0 false i p) as [H|[H _]];
    [rewrite combine_length, seq_length; lia|exact Hsel|exact Hpage|exact H|discriminate].
Qed.

Example scan_ranges_cover_example :
  nth 6 (den (Sels [(true, 5); (false, 3); (true, 4)])) false = true
  /\ page_of (combine (seq 0 3) [0; 4; 9]) 6 = Some 1
  /\ scan_ranges (Sels [(true, 5); (false, 3); (true, 4)]) [0; 4; 9] = [1].
Proof. repeat split. Qed.
