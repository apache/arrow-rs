(* C07 — split-block bloom filter: no false negatives, and folding a filter of 2^k * n blocks k times
   (n any positive number) preserves every positive answer.  Three layers: what a block covers, for
   any mask and any position; the arithmetic of hash_to_block_index; the theorems about hashes. *)
From Coq Require Import List NArith Arith Lia Bool.
From AV Require Import Base.ListX Model.C07_Bloom.
Import ListNotations.
Local Open Scope N_scope.

Lemma mask_word_nonzero x s : mask_word x s <> 0.
Proof. unfold mask_word. apply N.pow_nonzero. discriminate. Qed.

Lemma land_lor_keep a b m : N.land a m <> 0 -> N.land (N.lor a b) m <> 0.
Proof. rewrite N.land_lor_distr_l, N.lor_eq_0_iff. tauto. Qed.

Lemma nonzero_iff x : negb (x =? 0) = true <-> x <> 0.
Proof. now rewrite negb_true_iff, N.eqb_neq. Qed.

(* Block::check for any mask: nothing below depends on how a mask is made from a hash *)
Definition covers (b m : block) : bool := forallb (fun x => negb (x =? 0)) (map2 N.land b m).

Lemma block_check_covers b h : block_check b h = covers b (mask h).
Proof. reflexivity. Qed.

Lemma block_or_comm a b : block_or a b = block_or b a.
Proof.
  unfold block_or. revert b; induction a as [|x a IH]; intros [|y b]; cbn [map2]; try reflexivity.
  now rewrite N.lor_comm, IH.
Qed.

Lemma covers_or_l a b m : covers a m = true -> covers (block_or a b) m = true.
Proof.
  unfold covers, block_or. revert b m; induction a as [|x a IH]; intros [|y b] [|z m]; cbn [map2 forallb]; auto.
  intros H. apply andb_true_iff in H as [H1 H2]. apply andb_true_iff. split; [|now apply IH].
  apply nonzero_iff, land_lor_keep. now apply nonzero_iff.
Qed.

Lemma covers_or_r a b m : covers b m = true -> covers (block_or a b) m = true.
Proof. rewrite block_or_comm. apply covers_or_l. Qed.

Lemma covers_self m : Forall (fun x => x <> 0) m -> covers m m = true.
Proof.
  unfold covers. induction 1 as [|x m Hx _ IH]; cbn [map2 forallb]; [reflexivity|].
  now rewrite N.land_diag, IH, (proj2 (nonzero_iff x)).
Qed.

Lemma mask_nonzero h : Forall (fun x => x <> 0) (mask h).
Proof. unfold mask. apply Forall_forall. intros x Hx. apply in_map_iff in Hx as [s [<- _]]. apply mask_word_nonzero. Qed.

Lemma block_check_insert b h : block_check (block_insert b h) h = true.
Proof. rewrite block_check_covers. apply covers_or_r, covers_self, mask_nonzero. Qed.

Lemma block_check_insert_mono b h h' : block_check b h = true -> block_check (block_insert b h') h = true.
Proof. rewrite !block_check_covers. apply covers_or_l. Qed.

Lemma upd_length {A} (l : list A) i f : length (upd l i f) = length l.
Proof. revert i; induction l as [|x l IH]; intros [|i]; cbn [upd length]; auto. Qed.

Lemma nth_upd_same {A} (l : list A) i f d : (i < length l)%nat -> nth i (upd l i f) d = f (nth i l d).
Proof. revert i; induction l as [|x l IH]; intros [|i] H; cbn [upd nth length] in *; try lia; auto. apply IH. lia. Qed.

Lemma nth_upd_other {A} (l : list A) i j f d : i <> j -> nth j (upd l i f) d = nth j l d.
Proof. revert i j; induction l as [|x l IH]; intros [|i] [|j] H; cbn [upd nth]; auto; try congruence. Qed.

(* or-ing a mask into block i: every block still covers what it covered, and block i now covers the mask *)
Lemma upd_or_mono (f : sbbf) i j m m' : covers (nth j f []) m = true ->
  covers (nth j (upd f i (fun b => block_or b m')) []) m = true.
Proof.
  intros H. destruct (Nat.eq_dec i j) as [<-|E]; [|now rewrite nth_upd_other].
  destruct (Nat.lt_ge_cases i (length f)) as [L|L].
  - rewrite nth_upd_same by exact L. now apply covers_or_l.
  - now rewrite nth_overflow by (rewrite upd_length; exact L).
Qed.

Lemma upd_or_self (f : sbbf) i m : (i < length f)%nat -> Forall (fun x => x <> 0) m ->
  covers (nth i (upd f i (fun b => block_or b m)) []) m = true.
Proof. intros L Hm. rewrite nth_upd_same by exact L. now apply covers_or_r, covers_self. Qed.

Lemma or_all_acc acc l m : covers acc m = true -> covers (or_all acc l) m = true.
Proof. revert acc; induction l as [|b l IH]; intros acc H; cbn [or_all]; [exact H|]. now apply IH, covers_or_l. Qed.

Lemma or_all_in acc l b m : In b l -> covers b m = true -> covers (or_all acc l) m = true.
Proof.
  revert acc; induction l as [|x l IH]; intros acc Hin H; [destruct Hin|].
  cbn [or_all]. destruct Hin as [->|Hin].
  - now apply or_all_acc, covers_or_r.
  - now apply IH.
Qed.

Lemma or_group_in g b m : In b g -> covers b m = true -> covers (or_group g) m = true.
Proof.
  destruct g as [|x g]; intros Hin H; [destruct Hin|]. cbn [or_group].
  destruct Hin as [->|Hin]; [now apply or_all_acc|eapply or_all_in; eauto].
Qed.

Lemma fold_groups_length n g f : length (fold_groups n g f) = n.
Proof. revert f; induction n as [|n IH]; intros f; cbn [fold_groups length]; auto. Qed.

Lemma fold_groups_nth n g : forall f j d, (j < n)%nat ->
  nth j (fold_groups n g f) d = or_group (firstn g (skipn (j * g) f)).
Proof.
  induction n as [|n IH]; intros f j d H; [lia|].
  cbn [fold_groups]. destruct j as [|j]; cbn [nth]; [reflexivity|].
  rewrite IH by lia. now rewrite skipn_skipn.
Qed.

Lemma nth_in_group {A} (f : list A) g i d : g <> 0%nat -> (i < length f)%nat ->
  In (nth i f d) (firstn g (skipn (i / g * g) f)).
Proof.
  intros Hg Hi. pose proof (Nat.div_mod i g Hg) as Dm. pose proof (Nat.mod_upper_bound i g Hg) as Hm.
  revert Dm Hm. generalize (i / g)%nat, (i mod g)%nat. intros q r Dm Hm.
  replace (nth i f d) with (nth r (firstn g (skipn (q * g) f)) d).
  - apply nth_In. rewrite firstn_length, skipn_length. lia.
  - rewrite nth_firstn, nth_skipn by exact Hm. f_equal. lia.
Qed.

Lemma fold_n_groups k n f : length f = (2^k * n)%nat -> fold_n k f = fold_groups n (2^k) f.
Proof.
  intros H. unfold fold_n. rewrite H, Nat.mul_comm, Nat.div_mul; [reflexivity|].
  apply Nat.pow_nonzero. discriminate.
Qed.

(* merging groups of g adjacent blocks: block i goes into block i / g, which covers whatever block i
   covered.  Nothing here knows how a hash finds its block, nor that g is a power of two. *)
Lemma fold_groups_covers g n f i m : length f = (g * n)%nat -> (i < length f)%nat ->
  covers (nth i f []) m = true -> covers (nth (i / g) (fold_groups n g f) []) m = true.
Proof.
  intros Hlen Hi Hc. assert (Hg : g <> 0%nat) by (intros ->; cbn in Hlen; lia).
  rewrite fold_groups_nth by (apply Nat.div_lt_upper_bound; lia).
  eapply or_group_in; [|exact Hc]. now apply nth_in_group.
Qed.

(* hash_to_block_index: the index stays inside the filter, and with at most 2^32 blocks (no
   saturation) the index in a filter folded k times is the index before folding divided by 2^k *)
Lemma sat_mul64_exact a n : a < 2^32 -> n <= 2^32 -> sat_mul64 a n = a * n.
Proof.
  intros Ha Hn. unfold sat_mul64. apply N.min_l.
  apply (N.le_trans _ ((2^32 - 1) * 2^32)); [apply N.mul_le_mono; lia|discriminate].
Qed.

Lemma hi32_lt h : h < 2^64 -> h / 2^32 < 2^32.
Proof. intros H. apply N.div_lt_upper_bound; [discriminate|]. exact H. Qed.

(* the index never leaves the filter (so the Rust indexing does not panic) *)
Lemma block_index_lt n h : (0 < n)%nat -> h < 2^64 -> (block_index n h < n)%nat.
Proof.
  intros Hn Hh. unfold block_index.
  enough (sat_mul64 (h / 2^32) (N.of_nat n) / 2^32 < N.of_nat n) as H by (revert H; generalize (sat_mul64 (h / 2^32) (N.of_nat n) / 2^32); lia).
  apply N.div_lt_upper_bound; [discriminate|].
  unfold sat_mul64. eapply N.le_lt_trans; [apply N.le_min_l|].
  apply N.mul_lt_mono_pos_r; [lia|now apply hi32_lt].
Qed.

(* block_index without the saturation, in N *)
Definition idx (n h : N) : N := ((h / 2^32) * n) / 2^32.

Lemma idx_pow k n h : idx (2^k * n) h / 2^k = idx n h.
Proof.
  unfold idx. assert (P : 2^k <> 0) by (apply N.pow_nonzero; discriminate).
  rewrite N.div_div, (N.mul_comm (2^k) n), N.mul_assoc by (discriminate || exact P).
  apply N.div_mul_cancel_r; (discriminate || exact P).
Qed.

Lemma block_index_idx n h : h < 2^64 -> N.of_nat n <= 2^32 -> block_index n h = N.to_nat (idx (N.of_nat n) h).
Proof.
  intros Hh Hn. unfold block_index, idx. now rewrite sat_mul64_exact by (exact Hn || apply hi32_lt, Hh).
Qed.

Lemma block_index_fold k n h : h < 2^64 -> N.of_nat (2^k * n) <= 2^32 ->
  block_index n h = (block_index (2^k * n) h / 2^k)%nat.
Proof.
  intros Hh Hsz.
  assert (Hn : N.of_nat n <= 2^32).
  { pose proof (Nat.pow_nonzero 2 k) as P. pose proof (Nat.mul_le_mono_r 1 (2^k) n). lia. }
  rewrite !block_index_idx by assumption.
  rewrite <- (idx_pow (N.of_nat k) (N.of_nat n) h), Nat2N.inj_mul, Nat2N.inj_pow.
  now rewrite N2Nat.inj_div, N2Nat.inj_pow, Nat2N.id.
Qed.

Lemma insert_hash_length f h : length (insert_hash f h) = length f.
Proof. apply upd_length. Qed.

Lemma check_insert_same f h : (0 < length f)%nat -> h < 2^64 -> check_hash (insert_hash f h) h = true.
Proof.
  intros Hn Hh. unfold check_hash. rewrite insert_hash_length, block_check_covers.
  apply upd_or_self; [now apply block_index_lt|apply mask_nonzero].
Qed.

Lemma check_insert_mono f h h' : check_hash f h = true -> check_hash (insert_hash f h') h = true.
Proof. unfold check_hash. rewrite insert_hash_length, !block_check_covers. apply upd_or_mono. Qed.

Lemma fold_insert_mono hs : forall f h, check_hash f h = true -> check_hash (fold_left insert_hash hs f) h = true.
Proof. induction hs as [|x hs IH]; intros f h H; cbn [fold_left]; [exact H|]. apply IH. now apply check_insert_mono. Qed.

Lemma fold_insert_length hs : forall f, length (fold_left insert_hash hs f) = length f.
Proof. induction hs as [|x hs IH]; intros f; cbn [fold_left]; [reflexivity|]. now rewrite IH, insert_hash_length. Qed.

Theorem no_false_negative hs : forall f h, (0 < length f)%nat -> Forall (fun x => x < 2^64) hs ->
  In h hs -> check_hash (fold_left insert_hash hs f) h = true.
Proof.
  induction hs as [|x hs IH]; intros f h Hn F Hin; [destruct Hin|].
  inversion F as [|? ? Hx Fr]; subst. cbn [fold_left]. destruct Hin as [->|Hin].
  - apply fold_insert_mono. now apply check_insert_same.
  - apply IH; [now rewrite insert_hash_length|exact Fr|exact Hin].
Qed.

Lemma fold_n_length k n f : length f = (2^k * n)%nat -> length (fold_n k f) = n.
Proof. intros H. rewrite (fold_n_groups k n f H). apply fold_groups_length. Qed.

(* The power of two is needed by the index alone (block_index_fold), and so is the bound on the size:
   with at most 2^32 blocks sat_mul64 does not saturate (arrow-rs caps the bitset at 128 MiB = 2^22 blocks). *)
Theorem fold_preserves k n f h : (0 < n)%nat -> length f = (2^k * n)%nat -> N.of_nat (length f) <= 2^32 ->
  h < 2^64 -> check_hash f h = true -> check_hash (fold_n k f) h = true.
Proof.
  intros Hn Hlen Hsz Hh Hc. unfold check_hash in *. rewrite (fold_n_groups k n f Hlen), fold_groups_length.
  rewrite Hlen in Hsz. rewrite (block_index_fold k n h Hh Hsz), <- Hlen. rewrite block_check_covers in *.
  apply fold_groups_covers; [exact Hlen| |exact Hc].
  apply block_index_lt; [|exact Hh]. rewrite Hlen. apply Nat.mul_pos_pos; [|exact Hn].
  pose proof (Nat.pow_nonzero 2 k). lia.
Qed.
