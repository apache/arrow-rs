(* C13 — column combinators: safe (unary_opt) and strict (try_unary) runs of one per-value function agree
   row by row, strict fails exactly when a VALID slot fails (try_unary_spec); refines: a run is the
   specification cast; the kernels with a value_fn (duality, refinement); computes: what an arm does on a
   set of raw values, read off for one value (computes_value) and for a column (computes_refines). *)
From Coq Require Import List ZArith.
From AV Require Import Model.C13_Num Model.C13_Cast.
Local Open Scope Z_scope.

Lemma in_logical : forall c v, In (Some v) (logical c) <-> In (true, v) c.
Proof.
  intros c v. unfold logical. rewrite in_map_iff. split.
  - intros ([b x] & E & Hi). cbn [fst snd] in E. destruct b; [|discriminate]. inversion E; subst. assumption.
  - intros Hi. exists (true, v). split; [reflexivity|assumption].
Qed.

Lemma spec_fails_iff : forall conv xs,
  spec_fails conv xs = true <-> exists v, In (Some v) xs /\ conv v = None.
Proof.
  intros conv xs. unfold spec_fails. rewrite existsb_exists. split.
  - intros ([v|] & Hi & Hv); [|discriminate]. exists v. split; [assumption|]. destruct (conv v); [discriminate|reflexivity].
  - intros (v & Hi & Hv). exists (Some v). rewrite Hv. split; [assumption|reflexivity].
Qed.

Lemma fails_logical : forall f c,
  spec_fails f (logical c) = true <-> exists v, In (true, v) c /\ f v = None.
Proof.
  intros f c. rewrite spec_fails_iff.
  split; intros (v & Hi & Hv); exists v; (split; [apply in_logical; assumption|assumption]).
Qed.

Lemma spec_fails_total : forall (g : Z -> Z) xs, spec_fails (fun v => Some (g v)) xs = false.
Proof. intros g xs. unfold spec_fails. induction xs as [|[v|] r IH]; cbn; [reflexivity|exact IH|exact IH]. Qed.

Theorem spec_strict_safe_dual : forall conv xs,
  (spec_strict conv xs = None <-> exists v, In (Some v) xs /\ conv v = None)
  /\ (forall ys, spec_strict conv xs = Some ys -> ys = spec_safe conv xs)
  /\ (forall i, nth_error xs i = Some None -> nth_error (spec_safe conv xs) i = Some None).
Proof.
  intros conv xs. unfold spec_strict. split; [|split].
  - rewrite <- spec_fails_iff. destruct (spec_fails conv xs); split; congruence.
  - intros ys. destruct (spec_fails conv xs); congruence.
  - intros i H. unfold spec_safe. rewrite nth_error_map, H. reflexivity.
Qed.

Lemma spec_safe_ext : forall f g xs, (forall v, In (Some v) xs -> f v = g v) -> spec_safe f xs = spec_safe g xs.
Proof.
  intros f g xs H. unfold spec_safe. apply map_ext_in. intros [v|] Hi; [apply H; assumption|reflexivity].
Qed.
Lemma spec_fails_ext : forall f g xs, (forall v, In (Some v) xs -> f v = g v) -> spec_fails f xs = spec_fails g xs.
Proof.
  intros f g xs H. unfold spec_fails. induction xs as [|x r IH]; [reflexivity|]. cbn [existsb].
  rewrite IH by (intros v Hv; apply H; right; assumption). destruct x as [v|]; [|reflexivity].
  rewrite (H v) by (left; reflexivity). reflexivity.
Qed.
Lemma spec_cast_ext : forall f g safe xs, (forall v, In (Some v) xs -> f v = g v) -> spec_cast f safe xs = spec_cast g safe xs.
Proof.
  intros f g safe xs H. unfold spec_cast, spec_strict.
  rewrite (spec_safe_ext f g xs H), (spec_fails_ext f g xs H). reflexivity.
Qed.

Lemma unary_opt_logical : forall f c, logical (unary_opt f c) = spec_safe f (logical c).
Proof.
  intros f c. unfold logical, unary_opt, spec_safe. rewrite !map_map. apply map_ext.
  intros [b v]. cbn [fst snd]. destruct b; [destruct (f v)|]; reflexivity.
Qed.

Lemma unary_logical : forall g c, logical (unary g c) = spec_safe (fun v => Some (g v)) (logical c).
Proof.
  intros g c. unfold logical, unary, spec_safe. rewrite !map_map. apply map_ext.
  intros [b v]. cbn [fst snd]. destruct b; reflexivity.
Qed.

(* the strict run is the safe run guarded by the specification's failure test *)
Lemma try_unary_spec : forall f c,
  try_unary f c = if spec_fails f (logical c) then None else Some (unary_opt f c).
Proof.
  intros f c. unfold spec_fails, logical, unary_opt.
  induction c as [|[[|] v] r IH]; cbn [try_unary map existsb fst snd]; [reflexivity| |]; rewrite IH.
  - destruct (f v); [|reflexivity]. cbn [is_some negb orb]. destruct (existsb _ _); reflexivity.
  - cbn [orb]. destruct (existsb _ _); reflexivity.
Qed.

Lemma try_unary_none : forall f c,
  try_unary f c = None <-> exists v, In (true, v) c /\ f v = None.
Proof.
  intros f c. rewrite try_unary_spec, <- fails_logical. destruct (spec_fails f (logical c)); split; congruence.
Qed.

Lemma try_unary_some : forall f c r, try_unary f c = Some r -> r = unary_opt f c.
Proof. intros f c r. rewrite try_unary_spec. destruct (spec_fails f (logical c)); congruence. Qed.

(* what every whole-column statement says of a run: it is the specification cast with conversion conv *)
Definition refines (res : res) (conv : Z -> option Z) (safe : bool) (c : column) : Prop :=
  match res with
  | ROk r => spec_cast conv safe (logical c) = Some (logical r)
  | RErr => spec_cast conv safe (logical c) = None
  | RPanic => False
  end.

Lemma refines_ext : forall res f g safe c, (forall v, In (true, v) c -> f v = g v) ->
  refines res f safe c -> refines res g safe c.
Proof.
  intros res f g safe c H. unfold refines.
  rewrite (spec_cast_ext f g safe (logical c)) by (intros v Hi; apply H, in_logical, Hi). trivial.
Qed.

Lemma opt_refines : forall f safe c, refines (run_kernel (KOpt f) safe c) f safe c.
Proof.
  intros f safe c. unfold refines, spec_cast, spec_strict. cbn [run_kernel]. rewrite try_unary_spec.
  destruct safe; [|destruct (spec_fails f (logical c))]; rewrite ?unary_opt_logical; reflexivity.
Qed.

Lemma total_refines : forall g safe c, refines (ROk (unary g c)) (fun v => Some (g v)) safe c.
Proof.
  intros g safe c. unfold refines, spec_cast, spec_strict. rewrite spec_fails_total, unary_logical.
  destruct safe; reflexivity.
Qed.

Lemma kernel_value_fn : forall k f v, value_fn k = Some f -> kernel_value k v = Some (f v).
Proof. intros k f v Hk. destruct k; cbn in Hk; inversion Hk; reflexivity. Qed.

(* the safe and the strict reading of refines side by side, for the arm's own function *)
Theorem run_kernel_dual : forall k f c, value_fn k = Some f ->
  exists r, run_kernel k true c = ROk r
    /\ logical r = spec_safe f (logical c)
    /\ (run_kernel k false c = RErr <-> exists v, In (true, v) c /\ f v = None)
    /\ (forall r', run_kernel k false c = ROk r' -> logical r' = logical r).
Proof.
  intros k f c Hk. destruct k as [f0|g| | | |]; cbn in Hk; inversion Hk; subst f; cbn [run_kernel].
  - exists (unary_opt f0 c). rewrite try_unary_spec, <- fails_logical.
    split; [reflexivity|]. split; [apply unary_opt_logical|].
    destruct (spec_fails f0 (logical c)); (split; [split|]); congruence.
  - exists (unary g c). split; [reflexivity|]. split; [apply unary_logical|]. split.
    + split; [discriminate|]. intros (v & _ & H). discriminate.
    + intros r' H. inversion H. reflexivity.
Qed.

Theorem cast_strict_safe_dual : forall a b f c, value_fn (kernel_of a b) = Some f ->
  exists r, cast_model a b true c = ROk r
    /\ logical r = spec_safe f (logical c)
    /\ (cast_model a b false c = RErr <-> exists v, In (true, v) c /\ f v = None)
    /\ (forall r', cast_model a b false c = ROk r' -> logical r' = logical r).
Proof. intros a b. exact (run_kernel_dual (kernel_of a b)). Qed.

Theorem run_kernel_refines_fn : forall k f conv safe c, value_fn k = Some f ->
  (forall v, In (true, v) c -> f v = conv v) -> refines (run_kernel k safe c) conv safe c.
Proof.
  intros k f conv safe c Hk Hv. apply (refines_ext _ f); [assumption|].
  destruct k; cbn in Hk; inversion Hk; subst f; [apply opt_refines|apply total_refines].
Qed.

(* refines (cast_model a b safe c) conv safe c, written out *)
Theorem cast_model_refines_spec : forall a b f conv safe c,
  value_fn (kernel_of a b) = Some f ->
  (forall v, In (true, v) c -> f v = conv v) ->
  match cast_model a b safe c with
  | ROk r => spec_cast conv safe (logical c) = Some (logical r)
  | RErr => spec_cast conv safe (logical c) = None
  | RPanic => False
  end.
Proof. intros a b. exact (run_kernel_refines_fn (kernel_of a b)). Qed.

(* k computes conv on the raw values in P.  One constructor per shape of kernel that succeeds on an
   empty column: a fallible closure under unary_opt / try_unary, an infallible closure under unary, and
   the unchecked fast path unary(|x| f(x).unwrap()), which panics where the first would null or err and
   so may not fail anywhere in P.  KTry has none: it errs in safe mode too, which the specification cast
   never does.
   Of the three per-value readings of a kernel, computes says what an arm does, for values and columns;
   value_fn (Model/C13_Num.v; its lemmas stand above) serves statements that assume the VALID slots alone without knowing
   the arm; kernel_value equations are read off either. *)
Inductive computes (P : Z -> Prop) (conv : Z -> option Z) : kernel -> Prop :=
| computes_opt f : (forall v, P v -> f v = conv v) -> computes P conv (KOpt f)
| computes_total g : (forall v, P v -> Some (g v) = conv v) -> computes P conv (KTotal g)
| computes_unwrap f : (forall v, P v -> f v = conv v /\ is_some (f v) = true) -> computes P conv (KUnwrap f).

Lemma computes_value : forall P conv k v, computes P conv k -> P v -> kernel_value k v = Some (conv v).
Proof.
  intros P conv k v [f H|g H|f H] Hv; cbn [kernel_value].
  - rewrite (H v Hv). reflexivity.
  - rewrite (H v Hv). reflexivity.
  - destruct (H v Hv) as [<- S]. destruct (f v); [reflexivity|discriminate].
Qed.

(* the unchecked shape applies its closure under nulls too, so there P has to hold of every raw slot *)
Definition reads_nulls (k : kernel) : Prop := match k with KUnwrap _ => True | _ => False end.

Theorem computes_refines : forall P conv k safe c, computes P conv k ->
  (forall b v, In (b, v) c -> b = true \/ reads_nulls k -> P v) ->
  refines (run_kernel k safe c) conv safe c.
Proof.
  intros P conv k safe c [f H|g H|f H] Hc.
  - apply (run_kernel_refines_fn (KOpt f) f); [reflexivity|]. intros v Hi. apply H, (Hc true v Hi). left. reflexivity.
  - apply (run_kernel_refines_fn (KTotal g) (fun v => Some (g v))); [reflexivity|].
    intros v Hi. apply H, (Hc true v Hi). left. reflexivity.
  - (* unary (unwrap . f): no slot fails, null or not, so it is the unary run of a total function *)
    set (g := fun v => match f v with Some r => r | None => 0 end).
    assert (Hs : forall b v, In (b, v) c -> is_some (f v) = true /\ Some (g v) = conv v).
    { intros b v Hi. destruct (H v (Hc b v Hi (or_intror I))) as [<- S]. unfold g. destruct (f v); [split; reflexivity|discriminate]. }
    cbn [run_kernel]. unfold unary_unwrap.
    rewrite (proj2 (forallb_forall _ c)) by (intros [b v] Hi; apply (Hs b v Hi)).
    apply (refines_ext _ (fun v => Some (g v))); [intros v Hi; apply (Hs true v Hi)|apply (total_refines g)].
Qed.
