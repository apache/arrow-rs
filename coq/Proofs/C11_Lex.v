(* C11 — the notion every C11 proof file rests on.  An encoder is *strong* for a comparison when comparing two
   encodings, each followed by anything, is decided by the comparison and falls through to what
   follows exactly on Eq: order preservation, injectivity and prefix-freeness at once.  Strong
   encoders are closed under a constant prefix, concatenation (strong_pair; the products over
   fields, elements and rows in the later files take the same step over their own list functions),
   composition with an encoder strong for the byte order and, because they are prefix-free, under the bitwise complement, which
   reverses the comparison (descending columns).  Before that: the byte order [lex], which is
   Base.Order.lexc at N.compare (C07_Trunc has the same facts for its copy of lex, the same way),
   and complemented bytes. *)
From Coq Require Import List NArith Lia.
From AV Require Import Base.Order Model.C11_Row.
Import ListNotations.
Local Open Scope N_scope.

(* lex is [lexc N.compare], by computation: a total order because N.compare is one *)
Lemma lex_ord a : ord_at lex a.
Proof. apply (lexc_ord N.compare), Forall_forall. intros p _. apply ord_Ncompare. Qed.

Lemma lex_refl a : lex a a = Eq.
Proof. apply lex_ord. Qed.
Lemma lex_opp a b : lex b a = CompOpp (lex a b).
Proof. apply lex_ord. Qed.
Lemma lex_eq a b : lex a b = Eq -> a = b.
Proof. apply lex_ord. Qed.
Lemma lex_eq_iff a b : lex a b = Eq <-> a = b.
Proof. split; [apply lex_eq | intros ->; apply lex_refl]. Qed.

Lemma lex_app_same_len a b x y : length a = length b ->
  lex (a ++ x) (b ++ y) = match lex a b with Eq => lex x y | c => c end.
Proof. exact (lexc_app_same_len N.compare a b x y). Qed.

Lemma lex_app_same a x y : lex (a ++ x) (a ++ y) = lex x y.
Proof. rewrite lex_app_same_len by reflexivity. now rewrite lex_refl. Qed.

Lemma lex_cons_same p x y : lex (p :: x) (p :: y) = lex x y.
Proof. cbn [lex]. now rewrite N.compare_refl. Qed.

Lemma lex_cons_lt p q x y : p < q -> lex (p :: x) (q :: y) = Lt.
Proof. intros H. cbn [lex]. apply N.compare_lt_iff in H. now rewrite H. Qed.

Lemma lex_cons_gt p q x y : q < p -> lex (p :: x) (q :: y) = Gt.
Proof. intros H. cbn [lex]. apply N.compare_gt_iff in H. now rewrite H. Qed.

Lemma lex_snoc_gt l z : lex (l ++ [z]) l = Gt.
Proof. induction l as [|p l IH]; [reflexivity|]. cbn [app]. now rewrite lex_cons_same. Qed.

Definition wf_bytes (l : list N) := Forall wf_byte l.

Lemma not8_lt p q : p < 256 -> q < 256 -> p < q -> not8 q < not8 p.
Proof. unfold not8. lia. Qed.

Lemma not8_wf p : wf_byte (not8 p).
Proof. unfold wf_byte, not8. lia. Qed.

Lemma not8_invol p : p < 256 -> not8 (not8 p) = p.
Proof. unfold not8. lia. Qed.

Lemma invert_invol l : wf_bytes l -> invert (invert l) = l.
Proof.
  induction 1 as [|p l Hp Hl IH]; [reflexivity|]. cbn [invert map]. f_equal; [now apply not8_invol | exact IH].
Qed.

Lemma invert_app a b : invert (a ++ b) = invert a ++ invert b.
Proof. apply map_app. Qed.

Lemma invert_length a : length (invert a) = length a.
Proof. apply map_length. Qed.

Lemma invert_wf l : wf_bytes (invert l).
Proof. induction l; constructor; [apply not8_wf | assumption]. Qed.

Lemma repeat0_wf n : wf_bytes (repeat 0 n).
Proof. apply Forall_forall. intros z Hz. apply repeat_spec in Hz. subst. unfold wf_byte. lia. Qed.

Lemma inv_if_length d l : length (inv_if d l) = length l.
Proof. destruct d; [apply invert_length | reflexivity]. Qed.

Lemma inv_if_wf d l : wf_bytes l -> wf_bytes (inv_if d l).
Proof. intros H. destruct d; [apply invert_wf | exact H]. Qed.

(* [inv_if] on one byte: the sentinels and markers of a descending column are compared inverted *)
Definition ib (d : bool) (b : N) : N := if d then not8 b else b.

Lemma inv_if_cons d x l : inv_if d (x :: l) = ib d x :: inv_if d l.
Proof. destruct d; reflexivity. Qed.
Lemma inv_if_app d a b : inv_if d (a ++ b) = inv_if d a ++ inv_if d b.
Proof. destruct d; [apply invert_app | reflexivity]. Qed.
Lemma inv_if_nil d : inv_if d [] = [].
Proof. destruct d; reflexivity. Qed.
Lemma inv_if_invol d l : wf_bytes l -> inv_if d (inv_if d l) = l.
Proof. intros H. destruct d; [now apply invert_invol | reflexivity]. Qed.
Lemma ib_inj d a b : a < 256 -> b < 256 -> ib d a = ib d b -> a = b.
Proof. unfold ib, not8. destruct d; lia. Qed.
Lemma ib_invol (d : bool) (a : N) : a < 256 -> ib d (ib d a) = a.
Proof. unfold ib, not8. destruct d; lia. Qed.

(* An encoder e is *strong* for the comparison c on the domain P when comparing two encodings
   followed by arbitrary bytes is decided by c, and falls through to the followers exactly on Eq.
   This packs order preservation, injectivity up to c-equality, and prefix-freeness. *)
Definition strong {A} (P : A -> Prop) (e : A -> list N) (c : A -> A -> comparison) : Prop :=
  forall a b x y, P a -> P b ->
    lex (e a ++ x) (e b ++ y) = match c a b with Eq => lex x y | r => r end.

Lemma strong_order {A} (P : A -> Prop) e c : strong P e c ->
  forall a b, P a -> P b -> lex (e a) (e b) = c a b.
Proof.
  intros H a b Pa Pb. specialize (H a b [] [] Pa Pb). rewrite !app_nil_r in H. rewrite H.
  now destruct (c a b).
Qed.

Lemma strong_eq {A} (P : A -> Prop) e c : strong P e c ->
  forall a b, P a -> P b -> c a b = Eq -> e a = e b.
Proof. intros H a b Pa Pb E. apply lex_eq. now rewrite (strong_order P e c H a b Pa Pb). Qed.

Lemma strong_of_same_len {A} (P : A -> Prop) e c :
  (forall a b, P a -> P b -> length (e a) = length (e b)) ->
  (forall a b, P a -> P b -> lex (e a) (e b) = c a b) ->
  strong P e c.
Proof. intros Hl Hc a b x y Pa Pb. rewrite lex_app_same_len by now apply Hl. now rewrite Hc. Qed.

Lemma strong_prefix {A} (P : A -> Prop) e c (p : list N) : strong P e c -> strong P (fun a => p ++ e a) c.
Proof. intros H a b x y Pa Pb. rewrite <- !app_assoc, lex_app_same. now apply H. Qed.

Lemma strong_pair {A B} (P : A -> Prop) (Q : B -> Prop) e1 c1 e2 c2 :
  strong P e1 c1 -> strong Q e2 c2 ->
  strong (fun ab : A * B => P (fst ab) /\ Q (snd ab)) (fun ab => e1 (fst ab) ++ e2 (snd ab))
         (fun x y => match c1 (fst x) (fst y) with Eq => c2 (snd x) (snd y) | r => r end).
Proof.
  intros H1 H2 [a1 a2] [b1 b2] x y [Pa Qa] [Pb Qb]. cbn [fst snd] in *.
  rewrite <- !app_assoc, (H1 a1 b1 _ _ Pa Pb). destruct (c1 a1 b1); try reflexivity. now apply H2.
Qed.

(* strong encoders compose when the outer one is strong for the byte order *)
Lemma strong_comp {A} (P : A -> Prop) (Q : list N -> Prop) f g c :
  strong Q f lex -> (forall a, P a -> Q (g a)) -> strong P g c -> strong P (fun a => f (g a)) c.
Proof.
  intros Hf HQ Hg a b x y Pa Pb. rewrite (Hf (g a) (g b) x y (HQ a Pa) (HQ b Pb)).
  now rewrite (strong_order P g c Hg a b Pa Pb).
Qed.

(* a is below b at a differing byte, not by being a prefix: the form of Lt that the complement
   turns into Gt whatever follows, and the only form a strong encoder produces *)
Definition diverge (a b : list N) : Prop :=
  exists p u v ra rb, a = p ++ u :: ra /\ b = p ++ v :: rb /\ u < v.

Lemma always_lt_diverge a b : (forall x y, lex (a ++ x) (b ++ y) = Lt) -> diverge a b.
Proof.
  revert b; induction a as [|u a IH]; intros b H.
  - specialize (H (b ++ [0]) []). rewrite app_nil_r in H. cbn [app] in H. rewrite lex_snoc_gt in H. discriminate.
  - destruct b as [|v b].
    + specialize (H [] []). discriminate.
    + destruct (N.compare_spec u v) as [E|L|G].
      * subst v. destruct (IH b) as (p & u' & v' & ra & rb & Ea & Eb & Huv).
        { intros x y. specialize (H x y). cbn [app] in H. now rewrite lex_cons_same in H. }
        exists (u :: p), u', v', ra, rb. subst. repeat split; assumption.
      * exists [], u, v, a, b. repeat split; assumption.
      * specialize (H [] []). cbn [app] in H. rewrite lex_cons_gt in H by assumption. discriminate.
Qed.

Lemma diverge_invert a b : wf_bytes a -> wf_bytes b -> diverge a b ->
  forall x y, lex (invert a ++ x) (invert b ++ y) = Gt.
Proof.
  intros Wa Wb (p & u & v & ra & rb & -> & -> & Huv) x y.
  rewrite !invert_app, <- !app_assoc, lex_app_same. cbn [invert map app].
  apply lex_cons_gt. apply Forall_app in Wa as [_ Wa]. apply Forall_app in Wb as [_ Wb].
  inversion Wa; inversion Wb; subst. apply not8_lt; assumption.
Qed.

Lemma diverge_lt a b : diverge a b -> forall x y, lex (a ++ x) (b ++ y) = Lt.
Proof.
  intros (p & u & v & ra & rb & -> & -> & Huv) x y.
  rewrite <- !app_assoc, lex_app_same. cbn [app]. now apply lex_cons_lt.
Qed.

(* DESCENDING: the bitwise complement of a strong encoder is strong for the reversed comparison.
   (Prefix-freeness, which strength includes, is exactly what makes this sound.) *)
Theorem strong_invert {A} (P : A -> Prop) e c :
  (forall a, P a -> wf_bytes (e a)) ->
  strong P e c -> strong P (fun a => invert (e a)) (fun a b => CompOpp (c a b)).
Proof.
  intros W H a b x y Pa Pb.
  destruct (c a b) eqn:E; cbn [CompOpp].
  - rewrite (strong_eq P e c H a b Pa Pb E). apply lex_app_same.
  - apply diverge_invert; [now apply W | now apply W |].
    apply always_lt_diverge. intros x' y'. rewrite (H a b x' y' Pa Pb), E. reflexivity.
  - rewrite lex_opp.
    rewrite (diverge_invert (e b) (e a)); [reflexivity | now apply W | now apply W |].
    apply always_lt_diverge. intros x' y'. rewrite lex_opp, (H a b y' x' Pa Pb), E. reflexivity.
Qed.

Definition dir (d : bool) (c : comparison) : comparison := if d then CompOpp c else c.

Lemma strong_inv_if {A} (P : A -> Prop) e c (d : bool) :
  (forall a, P a -> wf_bytes (e a)) ->
  strong P e c -> strong P (fun a => inv_if d (e a)) (fun a b => dir d (c a b)).
Proof. intros W H. destruct d; [now apply strong_invert | exact H]. Qed.

Lemma strong_ext {A} (P : A -> Prop) e e' c c' :
  (forall a, P a -> e a = e' a) -> (forall a b, P a -> P b -> c a b = c' a b) ->
  strong P e c -> strong P e' c'.
Proof. intros He Hc H a b x y Pa Pb. rewrite <- (He a Pa), <- (He b Pb), <- (Hc a b Pa Pb). now apply H. Qed.
