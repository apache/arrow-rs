(* C14 — IPC StreamDecoder: the chunk-level loop (zero-copy / scratch paths, one batch per call,
   documented driver) computes exactly the byte-at-a-time automaton on the concatenated input. *)
From Coq Require Import List ZArith Bool Lia.
From AV Require Import Base.ListX Base.Bytes Model.C14_Ipc.
Import ListNotations.

Section P.
Variable orc : nat -> list N -> minfo.
(* From here on these names stand for the model's functions at orc; the constants themselves, which cbn and unfold
   want, are C14_Ipc.run1 and so on. *)
Notation run1 := (run1 orc).
Notation step1 := (step1 orc).
Notation eps := (eps orc).
Notation consume := (consume orc).
Notation complete := (complete orc).
Notation after_message := (after_message orc).
Notation decode := (decode orc).
Notation feed := (feed orc).
Notation run := (run orc).

Lemma run1_app s a b : run1 s (a ++ b) =
  let '(s1, e1) := run1 s a in let '(s2, e2) := run1 s1 b in (s2, e1 ++ e2).
Proof.
  revert s; induction a as [|x a IH]; intros s; cbn [app C14_Ipc.run1].
  - destruct (run1 s b). reflexivity.
  - destruct (step1 s x) as [s1 e1]. rewrite IH.
    destruct (run1 s1 a) as [s2 e2]. destruct (run1 s2 b) as [s3 e3]. now rewrite app_assoc.
Qed.

Lemma run1_failed k rest : run1 (k, SFailed) rest = ((k, SFailed), []).
Proof.
  induction rest as [|b r IH]; cbn [C14_Ipc.run1]; [reflexivity|].
  unfold C14_Ipc.step1; cbn [C14_Ipc.eps C14_Ipc.consume app]. now rewrite IH.
Qed.

Definition emit (e : list event) (r : sstate * list event) : sstate * list event :=
  let '(s, e') := r in (s, e ++ e').
Definition then_run (r : sstate * list event) (bs : list N) : sstate * list event :=
  let '(s, e) := r in emit e (run1 s bs).

Lemma emit_nil r : emit [] r = r.
Proof. now destruct r. Qed.
Lemma emit_emit e1 e2 r : emit e1 (emit e2 r) = emit (e1 ++ e2) r.
Proof. destruct r. cbn [emit]. now rewrite app_assoc. Qed.

Lemma eps_complete k meta body : eps (fst (complete k meta body)) = (fst (complete k meta body), []).
Proof. unfold C14_Ipc.complete. destruct (mi_out (orc k meta)); reflexivity. Qed.

Lemma eps_idem s : eps (fst (eps s)) = (fst (eps s), []).
Proof.
  destruct s as [k ph]. destruct ph as [buf c|size acc|meta acc| |]; try reflexivity.
  cbn [C14_Ipc.eps]. destruct (Nat.eqb_spec (length acc) (mi_body (orc k meta))) as [E|NE].
  - apply eps_complete.
  - cbn [fst C14_Ipc.eps]. destruct (Nat.eqb_spec (length acc) (mi_body (orc k meta))); [contradiction|reflexivity].
Qed.

Lemma run1_eps_absorb s rest : rest <> [] -> run1 s rest = then_run (eps s) rest.
Proof.
  destruct rest as [|b r]; [congruence|intros _].
  pose proof (eps_idem s) as Hi. cbn [C14_Ipc.run1]. unfold C14_Ipc.step1, then_run.
  destruct (eps s) as [s1 e1]. cbn [fst C14_Ipc.run1] in *. unfold C14_Ipc.step1. rewrite Hi.
  destruct (consume s1 b) as [s2 e2]. destruct (run1 s2 r) as [s3 e3]. cbn [app emit]. now rewrite app_assoc.
Qed.

(* what is held is short of the field; a body may also hold nothing while nothing is wanted (bodyLength = 0): that
   body is pending until the next byte arrives *)
Definition wf (d : dec) : Prop :=
  match d_st d with
  | DHeader buf _ => length buf < 4 /\ d_buf d = []
  | DMessage size => length (d_buf d) < size
  | DBody meta => length (d_buf d) < mi_body (orc (d_k d) meta) \/ d_buf d = []
  | DFinished => True
  end.

(* 1 + the number of loop iterations ahead that consume no byte: a pending zero-length body is completed by one.
   The measure of the loop is 2 * |buffer| + slack, since each byte consumed can leave one such iteration behind. *)
Definition slack (d : dec) : nat :=
  match d_st d with
  | DBody meta => if is_nil (d_buf d) && (mi_body (orc (d_k d) meta) =? 0) then 2 else 1
  | _ => 1
  end.
Lemma slack_bounds d : 1 <= slack d <= 2.
Proof. unfold slack. destruct (d_st d); try lia. destruct (_ && _); lia. Qed.
Lemma slack_step d d1 (q buffer : list N) :
  length q < length buffer -> 2 * length q + slack d1 < 2 * length buffer + slack d.
Proof. pose proof (slack_bounds d). pose proof (slack_bounds d1). lia. Qed.

(* One decode call against the automaton's run over the whole buffer ([target]), not over the consumed
   prefix: a zero-length body the call leaves pending then needs no special case, the automaton completes
   it on the first byte of the rest as the next call does.  A call returns without a batch only when it has used up
   the buffer (rest = []); after a batch the driver calls again on rest, and m bounds the measure 2 * |rest| + slack
   of that next call, which is what feed_spec's induction descends on. *)
Definition returns (r : dout) (target : sstate * list event) (m : nat) : Prop :=
  let '(d', rest, res, ev) := r in
  match res with
  | RErr => target = ((d_k d', SFailed), ev)
  | RNone => target = emit ev (run1 (abs d') rest) /\ wf d' /\ rest = []
  | RBatch _ => target = emit ev (run1 (abs d') rest) /\ wf d' /\ 2 * length rest + slack d' < m
  end.

Lemma returns_pre e r s q m : returns r (then_run (s, []) q) m -> returns (pre e r) (then_run (s, e) q) m.
Proof.
  destruct r as [[[d' rest] res] ev]. cbn [pre returns then_run]. rewrite emit_nil.
  destruct res as [|tag|].
  - intros (-> & H). now rewrite emit_emit.
  - intros (-> & H). now rewrite emit_emit.
  - intros ->. reflexivity.
Qed.

Lemma returns_le r target m m' : m <= m' -> returns r target m -> returns r target m'.
Proof.
  intros Hm. destruct r as [[[d' rest] res] ev]. cbn [returns]. destruct res as [|tag|]; [exact id| |exact id].
  intros (E & W & H). repeat split; [exact E|exact W|lia].
Qed.

Lemma is_nil_true {A} (l : list A) : is_nil l = true -> l = [].
Proof. destruct l; [reflexivity|discriminate]. Qed.

(* A phase [mk acc] that collects bytes until it has [want] of them, then does [fin]: first the automaton over such
   bytes, then the arm of the decode loop for such a phase, with the loop's recursive call ([call]) and what the arm
   returns once the field is complete ([done]) left abstract.  [mkd acc] is the decoder in that phase holding acc. *)
Section Fill.
Variables (k : nat) (mk : list N -> phase) (want : nat) (fin : list N -> sstate * list event).
Variable mkd : list N -> dec.
Variables (call : dec -> list N -> dout) (buffer : list N) (m : nat).
Hypothesis step_fill : forall acc b, length acc < want ->
  step1 (k, mk acc) b = if length (acc ++ [b]) =? want then fin (acc ++ [b]) else ((k, mk (acc ++ [b])), []).
Hypothesis abs_mkd : forall acc, abs (mkd acc) = (k, mk acc).
Hypothesis wf_mkd : forall acc, length acc < want -> wf (mkd acc).
Hypothesis Hcall : forall d q, wf d -> length q < length buffer -> returns (call d q) (then_run (abs d, []) q) m.

Lemma run1_fill : forall p acc q, length acc < want -> length acc + length p <= want ->
  run1 (k, mk acc) (p ++ q) =
  then_run (if length (acc ++ p) =? want then fin (acc ++ p) else ((k, mk (acc ++ p)), [])) q.
Proof.
  induction p as [|b p IH]; intros acc q Ha Hp; cbn [app length] in *.
  - rewrite app_nil_r. destruct (Nat.eqb_spec (length acc) want); [lia|]. cbn [then_run]. now rewrite emit_nil.
  - cbn [C14_Ipc.run1]. rewrite step_fill by exact Ha. change (acc ++ b :: p) with (acc ++ [b] ++ p).
    rewrite app_assoc. pose proof (app_length acc [b]) as L. cbn [length] in L.
    destruct (Nat.eqb_spec (length (acc ++ [b])) want) as [E|NE].
    + (* the last byte wanted, so p is empty *)
      destruct p; [|cbn [length] in Hp; lia]. now rewrite app_nil_r, E, Nat.eqb_refl.
    + etransitivity; [exact (emit_nil _)|]. apply IH; lia.
Qed.

(* The scratch path: min(|buffer|, want - |acc|) bytes are appended to acc.  [apply (fill_arm k mk want fin mkd)] asks,
   in this order, for step_fill, abs_mkd, wf_mkd, Hcall, then for the premises below. *)
Lemma fill_arm (done : dout) acc : length acc < want -> buffer <> [] ->
  let n := Nat.min (length buffer) (want - length acc) in
  (length (acc ++ firstn n buffer) = want -> length (skipn n buffer) < length buffer ->
   returns done (then_run (fin (acc ++ firstn n buffer)) (skipn n buffer)) m) ->
  returns (if length (acc ++ firstn n buffer) =? want then done else call (mkd (acc ++ firstn n buffer)) (skipn n buffer))
          (run1 (k, mk acc) buffer) m.
Proof.
  intros Ha Hne n. subst n. assert (0 < length buffer) by (destruct buffer; [congruence|cbn [length]; lia]).
  destruct (cut_at (Nat.min (length buffer) (want - length acc)) buffer) as (p & q & Ep & Lp & Lq & -> & ->); [lia|].
  intros Hdone. rewrite Ep. rewrite run1_fill by lia.
  destruct (Nat.eqb_spec (length (acc ++ p)) want) as [E|NE].
  - apply Hdone; assumption.
  - rewrite app_length in NE. rewrite <- abs_mkd. apply Hcall; [apply wf_mkd; rewrite app_length; lia|exact Lq].
Qed.

(* The zero-copy path: nothing collected yet and the whole field is in the buffer.  [apply (zero_copy_arm k mk want fin)]
   asks for step_fill, then for the premises below. *)
Lemma zero_copy_arm (done : dout) : 0 < want <= length buffer ->
  (length (skipn want buffer) < length buffer -> returns done (then_run (fin (firstn want buffer)) (skipn want buffer)) m) ->
  returns done (run1 (k, mk []) buffer) m.
Proof.
  intros Hw. destruct (cut_at want buffer) as (p & q & Ep & Lp & Lq & -> & ->); [exact Hw|].
  intros Hdone. rewrite Ep. rewrite run1_fill by (cbn [length]; lia).
  cbn [app]. rewrite Lp, Nat.eqb_refl. apply Hdone; assumption.
Qed.
End Fill.

(* step_fill for the three collecting phases *)
Lemma step_header k cont acc b :
  step1 (k, SHeader acc cont) b =
  if length (acc ++ [b]) =? 4 then after_header k (acc ++ [b]) cont else ((k, SHeader (acc ++ [b]) cont), []).
Proof. unfold C14_Ipc.step1. cbn [C14_Ipc.eps C14_Ipc.consume]. exact (emit_nil _). Qed.
Lemma step_message k size acc b :
  step1 (k, SMessage size acc) b =
  if length (acc ++ [b]) =? size then after_message k (acc ++ [b]) else ((k, SMessage size (acc ++ [b])), []).
Proof. unfold C14_Ipc.step1. cbn [C14_Ipc.eps C14_Ipc.consume]. exact (emit_nil _). Qed.
(* an incomplete body has no pending epsilon move *)
Lemma step_body k meta acc b : length acc < mi_body (orc k meta) ->
  step1 (k, SBody meta acc) b =
  if length (acc ++ [b]) =? mi_body (orc k meta) then complete k meta (acc ++ [b]) else ((k, SBody meta (acc ++ [b])), []).
Proof.
  intros Ha. unfold C14_Ipc.step1. cbn [C14_Ipc.eps].
  destruct (Nat.eqb_spec (length acc) (mi_body (orc k meta))); [lia|].
  cbn [C14_Ipc.consume]. exact (emit_nil _).
Qed.

Theorem decode_spec : forall fuel d buffer, wf d -> 2 * length buffer + slack d <= fuel ->
  returns (decode fuel d buffer) (run1 (abs d) buffer) (2 * length buffer + slack d).
Proof.
  induction fuel as [|fuel IH]; intros d buffer Hwf Hf; [pose proof (slack_bounds d); lia|].
  destruct buffer as [|b0 buffer0].
  { cbn [C14_Ipc.decode returns C14_Ipc.run1 emit app]. auto. }
  cbn [C14_Ipc.decode]. remember (b0 :: buffer0) as buffer eqn:Eb.
  assert (Hne : buffer <> []) by (rewrite Eb; discriminate).
  destruct d as [st sb k]. set (m := 2 * length buffer + slack (MkDec st sb k)) in *.
  assert (Step : forall d1 q, length q < length buffer -> 2 * length q + slack d1 < m) by (intros; now apply slack_step).
  assert (Loop' : forall d1 q, wf d1 -> 2 * length q + slack d1 < m ->
            returns (decode fuel d1 q) (then_run (abs d1, []) q) m).
  { intros d1 q W Hq. cbn [then_run]. rewrite emit_nil.
    apply returns_le with (m := 2 * length q + slack d1); [lia|]. apply IH; [exact W|lia]. }
  assert (Loop : forall d1 q, wf d1 -> length q < length buffer ->
            returns (decode fuel d1 q) (then_run (abs d1, []) q) m) by (intros; now apply Loop', Step).
  set (next := MkDec (DHeader [] false) [] (S k)).
  assert (Body : forall meta body q, 2 * length q + slack next < m ->
            returns (match mi_out (orc k meta) with
                     | ONone => pre [EMsg k meta body] (decode fuel next q)
                     | OBatch => (next, q, RBatch (mi_tag (orc k meta)), [EMsg k meta body])
                     | OErr => (MkDec (DBody meta) [] k, q, RErr, [EMsg k meta body; EErr])
                     end) (then_run (complete k meta body) q) m).
  { intros meta body q Hq. unfold C14_Ipc.complete.
    assert (W : wf next) by (split; [cbn; lia|reflexivity]).
    destruct (mi_out (orc k meta)).
    - apply returns_pre, Loop'; [exact W|exact Hq].
    - cbn [returns then_run]. auto.
    - cbn [returns then_run d_k]. now rewrite run1_failed. }
  (* a complete metadata block: on to the body if it is valid; the two paths leave different decoders behind an Err *)
  assert (Meta : forall d0 q0 full q, d_k d0 = k -> length q < length buffer ->
            returns (if mi_valid (orc k full) then decode fuel (MkDec (DBody full) [] k) q else (d0, q0, RErr, [EErr]))
                    (then_run (after_message k full) q) m).
  { intros d0 q0 full q Ek Lq. unfold C14_Ipc.after_message. destruct (mi_valid (orc k full)).
    - apply Loop; [right; reflexivity|exact Lq].
    - cbn [returns then_run]. now rewrite Ek, run1_failed. }
  unfold wf in Hwf. cbn [d_st d_buf d_k] in Hwf.
  destruct st as [buf cont|size|meta|]; unfold abs; cbn [d_st d_buf d_k].
  - (* Header *)
    destruct Hwf as [Hbuf ->].
    apply (fill_arm k (fun x => SHeader x cont) 4 (fun x => after_header k x cont) (fun x => MkDec (DHeader x cont) [] k)).
    + (* step_fill *) intros acc b _. apply step_header.
    + (* abs_mkd *) reflexivity.
    + (* wf_mkd *) intros acc Ha. split; [exact Ha|reflexivity].
    + (* Hcall *) exact Loop.
    + (* what is held is short *) exact Hbuf.
    + exact Hne.
    + (* the four bytes are there: a continuation marker, the end of the stream, or a length *)
      intros _ Lq. unfold after_header. destruct (negb cont && is_marker _).
      * apply Loop; [split; [cbn; lia|reflexivity]|exact Lq].
      * destruct (Nat.eqb_spec (N.to_nat (le_val (buf ++ firstn (Nat.min (length buffer) (4 - length buf)) buffer))) 0).
        -- apply returns_pre, Loop; [exact I|exact Lq].
        -- apply Loop; [unfold wf; cbn [d_st d_buf d_k length]; lia|exact Lq].
  - (* Message *)
    destruct (is_nil sb && (size <? length buffer)) eqn:Ezc.
    + (* zero copy *)
      apply andb_prop in Ezc. destruct Ezc as [-> % is_nil_true Elt % Nat.ltb_lt]. cbn [length] in Hwf.
      apply (zero_copy_arm k (SMessage size) size (after_message k)).
      * (* step_fill *) intros acc b _. apply step_message.
      * (* the metadata is in the buffer *) lia.
      * intros Lq. apply Meta; [reflexivity|exact Lq].
    + (* scratch *)
      apply (fill_arm k (SMessage size) size (after_message k) (fun x => MkDec (DMessage size) x k)).
      * (* step_fill *) intros acc b _. apply step_message.
      * (* abs_mkd *) reflexivity.
      * (* wf_mkd *) intros acc Ha. exact Ha.
      * (* Hcall *) exact Loop.
      * (* what is held is short *) exact Hwf.
      * exact Hne.
      * intros _ Lq. apply Meta; [reflexivity|exact Lq].
  - (* Body *)
    specialize (Body meta). set (bl := mi_body (orc k meta)) in *.
    destruct (is_nil sb && (bl <=? length buffer)) eqn:Ezc.
    + (* zero copy *)
      apply andb_prop in Ezc. destruct Ezc as [-> % is_nil_true Ele % Nat.leb_le].
      destruct (Nat.eq_dec bl 0) as [Z|NZ].
      * (* a zero-length body, completed now that a byte has arrived *)
        rewrite Z. cbn [firstn skipn]. rewrite run1_eps_absorb by exact Hne.
        cbn [C14_Ipc.eps length]. fold bl. rewrite Z. apply Body.
        subst m. unfold slack. cbn [d_st d_buf d_k is_nil andb]. fold bl. rewrite Z. cbn. lia.
      * apply (zero_copy_arm k (SBody meta) bl (complete k meta)).
        -- (* step_fill *) apply step_body.
        -- (* the body is in the buffer *) lia.
        -- intros Lq. apply Body, Step, Lq.
    + (* scratch *)
      assert (Hlt : length sb < bl).
      { destruct Hwf as [Hl| ->]; [exact Hl|]. cbn [is_nil andb] in Ezc. apply Nat.leb_gt in Ezc. cbn [length]. lia. }
      apply (fill_arm k (SBody meta) bl (complete k meta) (fun x => MkDec (DBody meta) x k)).
      * (* step_fill *) apply step_body.
      * (* abs_mkd *) reflexivity.
      * (* wf_mkd *) intros acc Ha. left. exact Ha.
      * (* Hcall *) exact Loop.
      * (* what is held is short *) exact Hlt.
      * exact Hne.
      * intros _ Lq. apply Body, Step, Lq.
  - (* Finished *)
    rewrite Eb. cbn [returns d_k C14_Ipc.run1]. unfold C14_Ipc.step1.
    cbn [C14_Ipc.eps C14_Ipc.consume app]. now rewrite run1_failed.
Qed.

(* what feed and run hand back: the decoder d', whether an Err was returned (e), the events; wf only without Err *)
Definition ends (target : sstate * list event) (d' : dec) (e : bool) (ev : list event) : Prop :=
  target = (abs_after d' e, ev) /\ (e = false -> wf d').

Lemma ends_emit target d' e ev ev0 : ends target d' e ev -> ends (emit ev0 target) d' e (ev0 ++ ev).
Proof. intros [-> H]. split; [reflexivity|exact H]. Qed.

Lemma feed_nil fuel d : feed fuel d [] = (d, [], false, []).
Proof. destruct fuel; reflexivity. Qed.

Theorem feed_spec : forall fuel d x, wf d -> 2 * length x + slack d <= fuel ->
  let '(d', _, e, ev) := feed fuel d x in ends (run1 (abs d) x) d' e ev.
Proof.
  induction fuel as [|fuel IH]; intros d x Hwf Hf; [pose proof (slack_bounds d); lia|].
  destruct x as [|b0 x0]; [split; [reflexivity|auto]|].
  cbn [C14_Ipc.feed]. remember (b0 :: x0) as x eqn:Ex.
  assert (Hd : 2 * length x + slack d <= decode_fuel x) by (unfold decode_fuel; pose proof (slack_bounds d); lia).
  apply (decode_spec _ d x Hwf) in Hd. destruct (decode (decode_fuel x) d x) as [[[d1 x'] res] ev1].
  cbn [returns] in Hd. destruct res as [|tag|].
  - destruct Hd as (-> & Hwf1 & ->). rewrite feed_nil. now apply ends_emit.
  - destruct Hd as (-> & Hwf1 & Hs). specialize (IH d1 x' Hwf1 ltac:(lia)).
    destruct (feed fuel d1 x') as [[[d2 cs] e] ev2]. now apply ends_emit.
  - split; [exact Hd|discriminate].
Qed.

Theorem run_spec : forall chunks d, wf d ->
  let '(d', _, e, ev) := run d chunks in ends (run1 (abs d) (concat chunks)) d' e ev.
Proof.
  induction chunks as [|x rest IH]; intros d Hwf; [split; [reflexivity|auto]|].
  cbn [C14_Ipc.run concat].
  assert (Hf : 2 * length x + slack d <= feed_fuel x) by (unfold feed_fuel; pose proof (slack_bounds d); lia).
  apply (feed_spec _ d x Hwf) in Hf. destruct (feed (feed_fuel x) d x) as [[[d1 cs] e] ev1].
  destruct Hf as [Hx Hwf1]. rewrite run1_app, Hx. destruct e.
  - cbn [abs_after]. rewrite run1_failed, app_nil_r. split; [reflexivity|discriminate].
  - specialize (IH d1 (Hwf1 eq_refl)). destruct (run d1 rest) as [[[d2 css] e2] ev2].
    apply (ends_emit _ _ _ _ ev1) in IH. exact IH.
Qed.

Lemma finish_abs d : finish d = sfinish (abs d).
Proof. destruct d as [st sb k]. destruct st as [buf c|size|meta|]; reflexivity. Qed.

Theorem run_is_run1 : forall d chunks, wf d ->
  obs (run d chunks) = obs1 (run1 (abs d) (concat chunks)).
Proof.
  intros d chunks Hwf. pose proof (run_spec chunks d Hwf) as H.
  destruct (run d chunks) as [[[d' css] e] ev]. destruct H as [-> _]. cbn [obs obs1]. destruct e.
  - reflexivity.
  - rewrite finish_abs. unfold abs_after, abs, sfinish. cbn [snd]. destruct (d_st d'); reflexivity.
Qed.

Corollary chunk_independent : forall d c1 c2, wf d -> concat c1 = concat c2 ->
  obs (run d c1) = obs (run d c2).
Proof. intros d c1 c2 Hwf E. rewrite !run_is_run1 by exact Hwf. now rewrite E. Qed.

Lemma wf_dec0 : wf dec0.
Proof. unfold wf; cbn. split; [lia|reflexivity]. Qed.

End P.

(* non-vacuity: a concrete stream (schema with empty body, one batch with a 2-byte body, EOS) cut
   inside the continuation marker with an empty chunk in between *)
Example ipc_nonvacuous :
  let orc := fun (k : nat) (_ : list N) => match k with O => MkInfo true 0 ONone 0%Z | _ => MkInfo true 2 OBatch 7%Z end in
  let stream := [255; 255; 255; 255; 1; 0; 0; 0; 9;
                 255; 255; 255; 255; 2; 0; 0; 0; 8; 8; 5; 6;
                 255; 255; 255; 255; 0; 0; 0; 0]%N in
  obs (run orc dec0 [firstn 3 stream; []; skipn 3 stream]) = obs (run orc dec0 [stream]) /\
  obs (run orc dec0 [stream]) = ([EMsg 0 [9%N] []; EMsg 1 [8; 8]%N [5; 6]%N; EEos], false, true) /\
  wf orc dec0.
Proof. cbv zeta. split; [vm_compute; reflexivity|split; [vm_compute; reflexivity|apply wf_dec0]]. Qed.
