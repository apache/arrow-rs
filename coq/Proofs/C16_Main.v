(* C16 — what the property theorems instantiate.  For any state with the invariant: release exactly once,
   no use after release, a live node keeps what it refers to alive; for one more operation: a changed
   region was held by the acting object alone, hence every other object, and the memory a live node
   holds, show what they showed.  Then three computed histories, and the export / import round trip of an
   Int32 array without validity (a computation on the two helpers, independent of the invariant).
   A lemma named like a property theorem with the suffix _l is what that theorem is at [run ops init]. *)
From Coq Require Import List ZArith Lia.
From AV Require Import Model.C16_Own Proofs.C16_Inv Proofs.C16_Ops Proofs.C16_Mut Proofs.C16_Exec.
Import ListNotations.

Lemma reach ops : Inv (run ops init) /\ Excl (run ops init).
Proof. apply run_inv_excl; [apply init_inv|apply init_excl]. Qed.
Lemma reach_inv ops : Inv (run ops init).
Proof. exact (proj1 (reach ops)). Qed.
Lemma reach_excl ops : Excl (run ops init).
Proof. exact (proj2 (reach ops)). Qed.

Lemma release_exactly_once_l s id n : Inv s -> node_at s id n ->
  node_rel n <= 1 /\ (node_rel n = 1 <-> cnt s id = 0).
Proof.
  intros I Hn. pose proof (inv2 _ I id n Hn) as H2. split; [exact H2|]. split.
  - intros H1. destruct (cnt s id) eqn:C; [reflexivity|].
    assert (Hin : In id (all_refs s)) by (apply in_refs_cnt; lia).
    destruct (inv1 _ I id Hin) as (m & Hm & Hr). unfold node_at in *. rewrite Hn in Hm. injection Hm as <-. lia.
  - intros C. destruct (node_rel n) as [|[|k]] eqn:R; [|reflexivity|lia].
    pose proof (inv3 _ I id n Hn R) as Hin. apply in_refs_cnt in Hin. lia.
Qed.

Lemma no_use_after_release_l s i o h : Inv s -> get_slot s i = Some o -> In h (ohs o) ->
  exists n, node_at s (hreg h) n /\ node_rel n = 0.
Proof. intros I Hs Hh. apply (inv1 _ I). eapply get_slot_refs; eauto. unfold obj_refs. apply in_map. exact Hh. Qed.

(* a live node keeps everything it refers to alive: an imported region its exported structure,
   an exported structure the exporter's buffers *)
Lemma keeps_alive_l s id n r : Inv s -> node_at s id n -> In r (node_refs n) ->
  r < id /\ exists m, node_at s r m /\ node_rel m = 0.
Proof.
  intros I Hn Hr. split; [apply (inv_dag _ I id n r Hn Hr)|].
  apply (inv1 _ I). unfold all_refs. apply in_or_app. right. eapply in_flat_map_nth; eauto.
Qed.

(* a release never lowers the release counter of a node, so the settle pass does not either *)
Lemma release_rel_mono j s id n : nth_error (nodes s) id = Some n ->
  exists n', nth_error (nodes (release j s)) id = Some n' /\ node_rel n <= node_rel n'.
Proof.
  intros Hn. destruct (Nat.eq_dec id j) as [<-|Hne]; [|exists n; rewrite release_node_at_ne by exact Hne; auto].
  destruct (release_nodes s id n Hn) as (Hns & _). exists (fst (release_node n)).
  rewrite Hns, nth_error_upd_nth_eq by (eapply node_at_lt; exact Hn). rewrite release_node_rel. auto.
Qed.
Lemma settle_from_rel_mono k pre cur id n : nth_error (nodes cur) id = Some n ->
  exists n', nth_error (nodes (settle_from k pre cur)) id = Some n' /\ node_rel n <= node_rel n'.
Proof.
  revert n. apply (settle_from_rel (fun a b => forall n, nth_error (nodes a) id = Some n ->
                                      exists n', nth_error (nodes b) id = Some n' /\ node_rel n <= node_rel n')).
  - intros c n Hn. exists n. auto.
  - intros a b c Hab Hbc n Hn. destruct (Hab n Hn) as (m & Hm & L1). destruct (Hbc m Hm) as (n' & Hn' & L2).
    exists n'. split; [exact Hn'|lia].
  - intros j c n. apply release_rel_mono.
Qed.

(* a region whose content an operation changes is referenced only by the object the operation acts on *)
Theorem mutation_requires_unique_l s p id : Inv s -> Excl s -> id < length (nodes s) ->
  reg_bytes (step s p) id <> reg_bytes s id -> Uniq s (o_a p) id.
Proof.
  intros I X Hid Hne. unfold step in Hne. rewrite settle_reg_bytes in Hne.
  destruct (w_bytes _ _ _ (eff_wr (exec_eff s p I X)) id Hid) as [H|H]; [contradiction|exact H].
Qed.

(* ... so a region with a holder other than that object keeps its content *)
Lemma shared_region_immutable s p id : Inv s -> Excl s ->
  count_occ Nat.eq_dec (acts s (o_a p)) id < cnt s id -> reg_bytes (step s p) id = reg_bytes s id.
Proof.
  intros I X Hlt.
  destruct (list_eq_dec Z.eq_dec (reg_bytes (step s p) id) (reg_bytes s id)) as [E|E]; [exact E|exfalso].
  assert (Hid : id < length (nodes s)) by (apply (ref_lt s id I), in_refs_cnt; lia).
  destruct (mutation_requires_unique_l s p id I X Hid E) as [_ Hc]. lia.
Qed.

(* IMMUTABILITY: an operation does not change what any live object other than the one it acts on shows *)
Theorem immutability_l s p j o : Inv s -> Excl s -> get_slot s j = Some o -> j <> o_a p ->
  view (step s p) o = view s o.
Proof.
  intros I X Hs Hne. apply view_ext. intros id Hin. apply shared_region_immutable; [exact I|exact X|].
  pose proof (count_two_slots s (o_a p) j id (not_eq_sym Hne)) as H2.
  rewrite (get_slot_acts _ _ _ Hs) in H2. apply (count_occ_In Nat.eq_dec) in Hin. lia.
Qed.

(* memory referenced by a live exported structure / imported region never changes *)
Lemma node_held_immutable s p id n r : Inv s -> Excl s -> node_at s id n -> In r (node_refs n) ->
  reg_bytes (step s p) r = reg_bytes s r.
Proof.
  intros I X Hn Hr. apply shared_region_immutable; [exact I|exact X|].
  (* the node's own reference is not one of the acting object's *)
  assert (Hnode : 0 < count_occ Nat.eq_dec (flat_map node_refs (nodes s)) r).
  { apply (count_occ_In Nat.eq_dec). exact (in_flat_map_nth node_refs (nodes s) id n r Hn Hr). }
  pose proof (acts_le_slots s (o_a p) r) as Hslots. unfold cnt, all_refs. rewrite count_occ_app. lia.
Qed.

(* the object an operation does NOT act on also stays in its slot, except the validity slot that the
   array constructors (11, 13) consume *)
Lemma other_slots_stay s p j : Inv s -> Excl s ->
  j <> o_a p -> (o_code p = 11 \/ o_code p = 13 -> j <> o_b p) -> j < length (slots s) ->
  nth_error (slots (step s p)) j = nth_error (slots s) j.
Proof.
  intros I X Ha Hb Hlt. unfold step. rewrite settle_slots.
  apply (ra_slots _ _ _ _ (eff_rawA (exec_eff s p I X))); [|exact Hlt].
  intros HT. apply in_opT in HT as [->|[-> Hc]]; [apply Ha|apply (Hb Hc)]; reflexivity.
Qed.

Definition ex_ops : list op :=
  [ mkOp 1 0 0 0 0 [1;2;3;4;5;6;7;8]%Z 0 0;      (* custom region, slot 0 *)
    mkOp 3 0 0 0 0 [] 0 0;                        (* clone -> slot 1 *)
    mkOp 11 0 0 0 0 [] 0 0;                       (* slot 0 becomes an Int32Array *)
    mkOp 20 0 0 0 0 [] 0 0;                       (* export -> slot 2 *)
    mkOp 21 2 0 0 0 [] 0 0;                       (* import: slot 2 is the imported array *)
    mkOp 5 0 0 0 0 [] 0 0; mkOp 5 1 0 0 0 [] 0 0 ]%Z.

(* after dropping the original array and its clone, the imported array still keeps the custom owner alive *)
Example ex_alive : cust_counters (run ex_ops init) = [0%Z] /\ exp_counters (run ex_ops init) = [0%Z]
                   /\ slot_view (run ex_ops init) (nth 2 (slots (run ex_ops init)) None) = Some [1;2;3;4;5;6;7;8]%Z.
Proof. vm_compute. auto. Qed.
(* dropping the imported array releases the structure and then the owner, once each *)
Example ex_released : cust_counters (run (ex_ops ++ [mkOp 5 2 0 0 0 [] 0%Z 0%Z]) init) = [1%Z]
                      /\ exp_counters (run (ex_ops ++ [mkOp 5 2 0 0 0 [] 0%Z 0%Z]) init) = [1%Z].
Proof. vm_compute. auto. Qed.
(* a unique standard buffer can be mutated in place, a shared one cannot *)
Example ex_mutation :
  let ops := [ mkOp 0 1 0 0 0 [9;9;9;9]%Z 0%Z 0%Z; mkOp 3 0 0 0 0 [] 0%Z 0%Z; mkOp 6 0 0 0 0 [] 0%Z 0%Z;
               mkOp 5 1 0 0 0 [] 0%Z 0%Z; mkOp 6 0 0 0 0 [] 0%Z 0%Z; mkOp 8 0 2 7 0 [] 2%Z 7%Z ] in
  step_flag (run (firstn 2 ops) init) (nth 2 ops (mkOp 99 0 0 0 0 [] 0%Z 0%Z)) = 2%Z
  /\ step_flag (run (firstn 4 ops) init) (nth 4 ops (mkOp 99 0 0 0 0 [] 0%Z 0%Z)) = 1%Z
  /\ reg_bytes (run ops init) 0 = [9;9;7;9]%Z.
Proof. vm_compute. auto. Qed.

Lemma import_arr_no_nulls s e ex v : get_exp s e = Some ex -> e_kind ex = 4 -> e_bufs ex = [v] ->
  import_arr s e =
  if 4 * e_len ex =? 0
  then (add_node (NReg (fresh_region [] (OStd 64) 0 true)) s, Some (mkO 4 [mkH (next_id s) 0 0 0 0] []))
  else (add_node (NReg (fresh_region (firstn (4 * e_len ex) (skipn (hoff v) (reg_bytes s (hreg v)))) (OImp e) (4 * e_len ex) true)) s,
        Some (mkO 4 [mkH (next_id s) 0 (4 * e_len ex) 0 0] [])).
Proof.
  intros Hg Hk Hb. unfold import_arr. rewrite Hg, Hk, Hb. cbn [Nat.eqb].
  destruct (4 * e_len ex =? 0); reflexivity.
Qed.

Lemma roundtrip_no_nulls s c v :
  hreg v < length (nodes s) -> hlen v mod 4 = 0 ->
  exists o, snd (import_arr (fst (export_arr s 4 c [v])) (snd (export_arr s 4 c [v]))) = Some o /\ okind o = 4 /\
            view (fst (import_arr (fst (export_arr s 4 c [v])) (snd (export_arr s 4 c [v])))) o = view s (mkO 4 [v] []).
Proof.
  intros Hlt Hmod. unfold export_arr. cbn [filter_nulls Nat.eqb fst snd].
  set (ex := mkE 4 (hlen v / 4) 0 [mkH (hreg v) (hoff v) (hlen v) 0 0] c 0).
  rewrite (import_arr_no_nulls _ _ ex (mkH (hreg v) (hoff v) (hlen v) 0 0) (get_exp_last s ex) eq_refl eq_refl).
  cbn [e_len ex hreg hoff].
  assert (Hlen : 4 * (hlen v / 4) = hlen v).
  { pose proof (Nat.div_mod (hlen v) 4 ltac:(lia)). lia. }
  assert (Hb : reg_bytes (add_node (NExp ex) s) (hreg v) = reg_bytes s (hreg v)) by (apply rb_add_node; exact Hlt).
  destruct (4 * (hlen v / 4) =? 0) eqn:Ez; cbn [fst snd]; eexists; (split; [reflexivity|]); (split; [reflexivity|]);
    unfold view; cbn [okind ohs]; unfold hbytes; cbn [hlen hoff hreg].
  - apply Nat.eqb_eq in Ez. assert (H0 : hlen v = 0) by lia. rewrite H0. reflexivity.
  - rewrite reg_bytes_last. cbn [fresh_region r_bytes skipn]. rewrite Hb, Hlen, firstn_firstn, Nat.min_id. reflexivity.
Qed.
