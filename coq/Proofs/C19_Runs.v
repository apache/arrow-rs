(* C19 — the list-of-bool specifications of the two mask iterators, [positions] (BitIndexIterator) and
   [runs] (BitSliceIterator): which indices they hold, that the runs span exactly the positions, and that
   consuming a mask run by run is consuming it bit by bit. *)
From Coq Require Import List Arith Lia.
From AV Require Import Base.ListX Model.C19_Bits.
Import ListNotations.

Lemma count_true_cons b l : count_true (b :: l) = (if b then 1 else 0) + count_true l.
Proof. unfold count_true. cbn. destruct b; reflexivity. Qed.

Lemma count_true_le f : count_true f <= length f.
Proof. unfold count_true. apply filter_length_le. Qed.

Lemma positions_from_map_seq (f : nat -> bool) n : forall a,
  positions_from a (map f (seq a n)) = filter f (seq a n).
Proof.
  induction n as [|n IH]; intros a; [reflexivity|].
  cbn [seq map positions_from filter]. rewrite IH. now destruct (f a).
Qed.

Lemma positions_from_app l1 : forall l2 s,
  positions_from s (l1 ++ l2) = positions_from s l1 ++ positions_from (s + length l1) l2.
Proof.
  induction l1 as [|b l1 IH]; intros l2 s; cbn [app positions_from length].
  - now rewrite Nat.add_0_r.
  - rewrite IH, <- app_assoc. replace (s + S (length l1)) with (S s + length l1) by lia. reflexivity.
Qed.

Lemma positions_from_shift l : forall s, positions_from s l = map (fun i => s + i) (positions_from 0 l).
Proof.
  induction l as [|b l IH]; intros s; [reflexivity|]. cbn [positions_from].
  rewrite (IH (S s)), (IH 1), map_app, map_map.
  destruct b; cbn [app map]; [rewrite Nat.add_0_r; f_equal|]; apply map_ext; intros a; cbv beta; lia.
Qed.

Lemma positions_cons b l : positions (b :: l) = (if b then [0] else []) ++ map S (positions l).
Proof. unfold positions. cbn [positions_from]. now rewrite (positions_from_shift l 1). Qed.

Lemma In_positions_from l : forall s j, In j (positions_from s l) <-> (s <= j < s + length l /\ nth (j - s) l false = true).
Proof.
  induction l as [|b r IH]; intros s j; cbn [positions_from length].
  - split; [intros [] | lia].
  - rewrite in_app_iff, IH. split.
    + intros [H|[H1 H2]].
      * destruct b; [|destruct H]. destruct H as [<-|[]]. split; [lia|]. now rewrite Nat.sub_diag.
      * split; [lia|]. replace (j - s) with (S (j - S s)) by lia. exact H2.
    + intros [H1 H2]. destruct (Nat.eq_dec j s) as [->|Hne].
      * left. rewrite Nat.sub_diag in H2. cbn [nth] in H2. subst b. now left.
      * right. split; [lia|]. replace (j - s) with (S (j - S s)) in H2 by lia. exact H2.
Qed.
Lemma In_positions l j : In j (positions l) <-> (j < length l /\ nth j l false = true).
Proof. unfold positions. rewrite In_positions_from, Nat.sub_0_r. cbn [Nat.add]. split; intros [H1 H2]; (split; [lia | exact H2]). Qed.

Definition span (r : nat * nat) : list nat := seq (fst r) (snd r - fst r).

(* A consumer of the runs only, copying a range [g (p, q)] per run: if copying is additive, run by run is position by
   position. *)
Section RunMap.
Context {X : Type} (g : nat * nat -> list X).
Hypothesis g_cat : forall p q r, p <= q -> q <= r -> g (p, q) ++ g (q, r) = g (p, r).

Lemma runs_from_flat_map l : forall i open, (match open with Some s => s <= i | None => True end) ->
  flat_map g (runs_from i open l)
  = (match open with Some s => g (s, i) | None => [] end) ++ flat_map (fun k => g (k, S k)) (positions_from i l).
Proof.
  induction l as [|[|] r IH]; intros i open Hinv; cbn [runs_from positions_from].
  - destruct open as [s|]; cbn [flat_map]; now rewrite ?app_nil_r.
  - rewrite IH by (destruct open; lia). cbn [app flat_map]. destruct open as [s|].
    + now rewrite app_assoc, g_cat by lia.
    + reflexivity.
  - destruct open as [s|]; cbn [flat_map app]; rewrite (IH (S i) None I); reflexivity.
Qed.

Lemma runs_flat_map l : flat_map g (runs l) = flat_map (fun k => g (k, S k)) (positions l).
Proof. exact (runs_from_flat_map l 0 None I). Qed.
End RunMap.

Lemma flat_map_unit {A B} (h : A -> B) l : flat_map (fun k => [h k]) l = map h l.
Proof. induction l; cbn; congruence. Qed.

Lemma flat_map_ext_In {A B} (g h : A -> list B) l : (forall a, In a l -> g a = h a) -> flat_map g l = flat_map h l.
Proof. intros E. rewrite !flat_map_concat_map. f_equal. now apply map_ext_in. Qed.

Lemma runs_spans l : flat_map span (runs l) = positions l.
Proof.
  rewrite (runs_flat_map span).
  - rewrite <- (map_id (positions l)) at 2. rewrite <- flat_map_unit. apply flat_map_ext. intros k.
    unfold span; cbn [fst snd]. now replace (S k - k) with 1 by lia.
  - intros p q r H1 H2. unfold span; cbn [fst snd].
    replace (r - p) with ((q - p) + (r - q)) by lia. rewrite seq_app. do 2 f_equal. lia.
Qed.

(* a property of the positions the runs span, run by run *)
Lemma forall_spans rs (C : nat -> Prop) :
  (forall s e, In (s, e) rs -> forall i, i < e - s -> C (s + i)) <-> (forall j, In j (flat_map span rs) -> C j).
Proof.
  split.
  - intros H j Hj. apply in_flat_map in Hj as ([s e] & Hin & Hj). apply in_seq in Hj. cbn [fst snd] in Hj.
    replace j with (s + (j - s)) by lia. apply (H s e Hin). lia.
  - intros H s e Hin i Hi. apply H, in_flat_map. exists (s, e). split; [exact Hin | apply in_seq; cbn [fst snd]; lia].
Qed.

Lemma runs_from_bound l : forall i open s e,
  (match open with Some s0 => s0 <= i | None => True end) ->
  In (s, e) (runs_from i open l) -> e <= i + length l /\ s <= e /\ (match open with Some s0 => s0 <= s | None => i <= s end).
Proof.
  induction l as [|b r IH]; intros i open s e Hinv Hin.
  - cbn [runs_from length] in *. destruct open as [s0|]; [|contradiction].
    destruct Hin as [E|[]]. injection E as <- <-. lia.
  - destruct b; cbn [runs_from length] in *.
    + apply IH in Hin; [|destruct open; lia]. destruct open; lia.
    + destruct open as [s0|].
      * destruct Hin as [E|Hin]; [injection E as <- <-; lia|].
        apply IH in Hin; [|exact I]. lia.
      * apply IH in Hin; [|exact I]. lia.
Qed.
Lemma runs_bound l s e : In (s, e) (runs l) -> e <= length l /\ s <= e.
Proof. intros H. apply (runs_from_bound l 0 None s e I) in H. lia. Qed.

(* the first run reaches the end of the mask exactly when no bit is clear (contains_nulls in arrow-data) *)
Lemma runs_from_open_head l : forall i s,
  exists e rest, runs_from i (Some s) l = (s, e) :: rest /\ (e = i + length l <-> existsb negb l = false).
Proof.
  induction l as [|[|] r IH]; intros i s; cbn [runs_from length existsb negb orb].
  - exists i, []. split; [reflexivity | split; [reflexivity | lia]].
  - destruct (IH (S i) s) as (e & rest & E & He). exists e, rest. split; [exact E|]. rewrite <- He. lia.
  - exists i, (runs_from (S i) None r). split; [reflexivity | split; [lia | discriminate]].
Qed.

(* The SlicesIterator idiom: for each run, first the gap of unselected positions before it, then the run; after the
   last run, the tail.  [act b p q] consumes positions p .. q-1, all carrying mask bit b.  The two laws ask nothing
   about lengths: a consumer that copies rows with firstn/skipn, or repeats a scalar, satisfies them outright
   (firstn (a + b) l = firstn a l ++ firstn b (skipn a l) whatever the length of l), so the state may carry offsets
   that depend on the bits seen so far, and bounds on what is copied from are needed only in the bit-by-bit walk. *)
Section RunFold.
Context {St : Type}.
Variable act : bool -> nat -> nat -> St -> St.
Hypothesis act_nil : forall b p x, act b p p x = x.
Hypothesis act_cat : forall b p q r x, p <= q -> q <= r -> act b q r (act b p q x) = act b p r x.

(* state: what was consumed, and up to where *)
Definition run_step (st : St * nat) (se : nat * nat) : St * nat :=
  (act true (fst se) (snd se) (act false (snd st) (fst se) (fst st)), snd se).

Definition run_close (len : nat) (st : St * nat) : St := act false (snd st) len (fst st).

Fixpoint bit_walk (k : nat) (m : list bool) (x : St) : St :=
  match m with [] => x | b :: m' => bit_walk (S k) m' (act b k (S k) x) end.

(* inside a run opened at s the gap up to s and the run s .. k-1 are still owed *)
Definition run_owed (open : option nat) (k : nat) (st : St * nat) : St :=
  match open with
  | Some s => act true s k (act false (snd st) s (fst st))
  | None => act false (snd st) k (fst st)
  end.

Lemma runs_from_fold m : forall k open st,
  (match open with Some s => snd st <= s <= k | None => snd st <= k end) ->
  run_close (k + length m) (fold_left run_step (runs_from k open m) st) = bit_walk k m (run_owed open k st).
Proof.
  induction m as [|b m IH]; intros k open st H; cbn [runs_from length bit_walk].
  - rewrite Nat.add_0_r. destruct open as [s|]; [apply act_nil|reflexivity].
  - rewrite <- Nat.add_succ_comm.
    destruct b, open as [s|]; cbn [fold_left]; rewrite IH by (cbn; lia); unfold run_owed, run_step; cbn [fst snd].
    + (* a set bit inside a run: the run grows *) now rewrite act_cat by lia.
    + (* a set bit after a gap opens a run *) reflexivity.
    + (* a clear bit closes the run *) reflexivity.
    + (* a clear bit in a gap: the gap grows *) now rewrite act_cat by lia.
Qed.

(* [step] is the consumer's own loop body on its own state; [view] reads that state as (consumed, up to where) *)
Theorem runs_fold {C} (step : C -> nat * nat -> C) (view : C -> St * nat)
  (Hstep : forall c se, view (step c se) = run_step (view c) se) m c0 : snd (view c0) = 0 ->
  run_close (length m) (view (fold_left step (runs m) c0)) = bit_walk 0 m (fst (view c0)).
Proof.
  intros H0. assert (E : forall l c, view (fold_left step l c) = fold_left run_step l (view c)).
  { induction l as [|se l IH]; intros c; cbn [fold_left]; [reflexivity|]. now rewrite IH, Hstep. }
  pose proof (runs_from_fold m 0 None (view c0)) as R. unfold run_owed in R. rewrite H0, act_nil in R.
  rewrite E. apply R, le_n.
Qed.
End RunFold.
Arguments runs_fold {St act} act_nil act_cat {C} step view Hstep m c0 _.
