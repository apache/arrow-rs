(* C03 — what the other C03 proofs stand on, then filter.  In order: [map2]; the row reading of a physical column
   ([logical], [wf_col]); filtering by a plain bool mask ([bfilter], of which [count_true] rows survive), which is what
   the index iterator and the slice iterator both compute; filter: every iteration strategy computes filter_spec; the
   slices are maximal runs.
   [map2] is Model.C03_Select.map2 (imported after Base.ListX, whose map2 it shadows).  Base.ListX has a second constant of the same name and body; its
   lemmas map2_length, map2_firstn, map2_skipn are about that one and apply here because the two are convertible. *)
From Coq Require Import List Arith Bool Lia.
From AV Require Import Base.ListX Model.C03_Select Proofs.C19_Runs.
Import ListNotations.

Lemma map2_app {X Y Z} (f : X -> Y -> Z) xs xs' ys ys' : length xs = length ys ->
  map2 f (xs ++ xs') (ys ++ ys') = map2 f xs ys ++ map2 f xs' ys'.
Proof.
  revert ys; induction xs as [|x xs IH]; intros [|y ys] H; cbn in *; try discriminate; [reflexivity|].
  f_equal. apply IH. lia.
Qed.

Lemma nth_error_map2 {X Y Z} (f : X -> Y -> Z) xs ys k : length xs = length ys ->
  nth_error (map2 f xs ys) k =
  match nth_error xs k, nth_error ys k with Some x, Some y => Some (f x y) | _, _ => None end.
Proof.
  revert ys k; induction xs as [|x xs IH]; intros [|y ys] k H; cbn in *; try discriminate.
  - destruct k; reflexivity.
  - destruct k as [|k]; [reflexivity|]. cbn. apply IH. lia.
Qed.

Lemma map2_repeat_true {T} (l : list T) n : length l <= n -> map2 mk_row l (repeat true n) = map Some l.
Proof. revert n; induction l as [|x l IH]; intros [|n] H; cbn in *; try lia; auto. f_equal. apply IH. lia. Qed.

Lemma all_true_repeat l : all_true l = true -> l = repeat true (length l).
Proof.
  induction l as [|b l IH]; [reflexivity|]. unfold all_true in *. cbn. destruct b; [|discriminate].
  cbn. intros H. f_equal. auto.
Qed.

(* [logical] and [wf_col] are used through the lemmas from here to [prep_mask_length]; only the kernels whose code
   branches on the validity buffer unfold [logical] themselves, once per branch. *)
Lemma logical_length {T} (c : pcol T) : wf_col c -> length (logical c) = length (fst c).
Proof.
  destruct c as [v [n|]]; unfold wf_col, logical; cbn; intros H.
  - rewrite map2_length. lia.
  - now rewrite map_length.
Qed.

(* [logical (v, Some l)] with all of [l] set; [l] may be longer than [v], map2 stops at the shorter list *)
Lemma logical_all_true {T} (v : list T) l : length v <= length l -> all_true l = true ->
  map2 mk_row v l = map Some v.
Proof. intros H E. rewrite (all_true_repeat l E). now apply map2_repeat_true. Qed.

(* the kernels test [has_nulls] before they look at the validity: after this rewrite the two agree syntactically *)
Lemma logical_norm {T} (c : pcol T) : wf_col c -> logical c = logical (fst c, has_nulls (snd c)).
Proof.
  destruct c as [v [l|]]; [|reflexivity]. unfold wf_col, has_nulls, logical; cbn. intros H.
  destruct (all_true l) eqn:E; [|reflexivity]. apply logical_all_true; [lia|exact E].
Qed.

Lemma logical_nulls_or_true {T} (c : pcol T) : wf_col c -> map2 mk_row (fst c) (nulls_or_true c) = logical c.
Proof.
  destruct c as [v [n|]]; unfold wf_col, nulls_or_true, logical; cbn; intros H; [reflexivity|].
  apply map2_repeat_true. lia.
Qed.

Lemma nulls_or_true_length {T} (c : pcol T) : wf_col c -> length (nulls_or_true c) = length (fst c).
Proof. destruct c as [v [n|]]; unfold wf_col, nulls_or_true; cbn; intros H; [exact H|apply repeat_length]. Qed.

Lemma nth_error_logical {T} (c : pcol T) i : wf_col c ->
  nth_error (logical c) i = option_map (fun v => mk_row v (is_valid_at c i)) (nth_error (fst c) i).
Proof.
  destruct c as [v [n|]]; unfold wf_col, logical, is_valid_at; cbn [fst snd]; intros H.
  - rewrite nth_error_map2 by lia. destruct (nth_error v i) as [x|] eqn:E1; [|reflexivity].
    assert (Hi : i < length n) by (rewrite H; apply nth_error_Some; congruence).
    now rewrite (nth_error_nth' n false Hi).
  - rewrite nth_error_map. now destruct (nth_error v i).
Qed.

Lemma valid_if_no_nulls {T} (c : pcol T) i v : wf_col c -> has_nulls (snd c) = None ->
  nth_error (fst c) i = Some v -> is_valid_at c i = true.
Proof.
  destruct c as [vs [n|]]; unfold wf_col, has_nulls, is_valid_at; cbn [fst snd]; intros Hw Hn Hi; [|reflexivity].
  destruct (all_true n) eqn:E; [|discriminate].
  assert (i < length vs) by (apply nth_error_Some; congruence).
  unfold all_true in E. rewrite forallb_forall in E. apply (E (nth i n false)), nth_In. lia.
Qed.

Lemma logical_map {X Y} (g : X -> Y) (v : list X) n : logical (map g v, n) = map (option_map g) (logical (v, n)).
Proof.
  unfold logical; cbn [fst snd]. destruct n as [n|].
  - revert n; induction v as [|x v IH]; intros [|b n]; cbn; auto. f_equal; [now destruct b|apply IH].
  - rewrite !map_map. reflexivity.
Qed.

Lemma logical_all_null {T} (v : list T) : logical (v, Some (repeat false (length v))) = repeat None (length v).
Proof. unfold logical; cbn [fst snd]. induction v; cbn; [reflexivity|]. now f_equal. Qed.

Lemma sel_mk_row v b : sel (mk_row v b) = v && b.
Proof. destruct v, b; reflexivity. Qed.

Lemma map_sel_some mask : map sel (map Some mask) = mask.
Proof. rewrite map_map. induction mask as [|[] m IH]; cbn; f_equal; auto. Qed.

Lemma map_sel_logical (m : pcol bool) : wf_col m -> map sel (logical_mask m) = prep_mask m.
Proof.
  destruct m as [v [n|]]; unfold wf_col, logical_mask, logical, prep_mask, has_nulls; cbn; intros H.
  - destruct (all_true n) eqn:E.
    + rewrite logical_all_true by (try lia; exact E). apply map_sel_some.
    + clear E. revert n H; induction v as [|a v IH]; intros [|b n] H; cbn in *; try discriminate; auto.
      f_equal; [apply sel_mk_row|]. apply IH. lia.
  - apply map_sel_some.
Qed.

Lemma prep_mask_length (m : pcol bool) : wf_col m -> length (prep_mask m) = length (fst m).
Proof.
  destruct m as [v [n|]]; unfold wf_col, prep_mask, has_nulls; cbn; intros H; [|reflexivity].
  destruct (all_true n); [reflexivity|]. rewrite map2_length. lia.
Qed.

Fixpoint bfilter {T} (l : list T) (f : list bool) : list T :=
  match l, f with
  | x :: l', b :: f' => if b then x :: bfilter l' f' else bfilter l' f'
  | _, _ => []
  end.

Lemma bfilter_map2 {X Y Z} (g : X -> Y -> Z) xs ys f :
  bfilter (map2 g xs ys) f = map2 g (bfilter xs f) (bfilter ys f).
Proof.
  revert ys f; induction xs as [|x xs IH]; intros ys f.
  - destruct ys; destruct f; reflexivity.
  - destruct ys as [|y ys]; destruct f as [|b f]; cbn; try reflexivity.
    + destruct (bfilter xs f); [|]; destruct b; reflexivity.
    + destruct b; cbn; now rewrite IH.
Qed.

Lemma bfilter_map {X Y} (g : X -> Y) xs f : bfilter (map g xs) f = map g (bfilter xs f).
Proof. revert f; induction xs as [|x xs IH]; intros [|b f]; cbn; auto. destruct b; cbn; now rewrite IH. Qed.

Lemma bfilter_length_count {T} (l : list T) f : length f <= length l -> length (bfilter l f) = count_true f.
Proof.
  revert f; induction l as [|x l IH]; intros [|b f] H; cbn [bfilter length] in *; try lia; try reflexivity.
  rewrite count_true_cons. destruct b; cbn [length]; rewrite IH by lia; reflexivity.
Qed.

Lemma count_true_zero_bfilter {T} (l : list T) f : count_true f = 0 -> bfilter l f = [].
Proof.
  revert f; induction l as [|x l IH]; intros [|b f]; cbn [bfilter]; auto.
  rewrite count_true_cons. destruct b; [discriminate|]. apply IH.
Qed.

Lemma count_true_full_bfilter {T} (l : list T) f : count_true f = length f -> length f <= length l ->
  bfilter l f = firstn (length f) l.
Proof.
  revert f; induction l as [|x l IH]; intros [|b f]; cbn [bfilter length firstn]; auto; try lia.
  rewrite count_true_cons. pose proof (count_true_le f) as Hc. destruct b; intros H Hl; [|lia].
  f_equal. apply IH; lia.
Qed.

Lemma bfilter_firstn_mask {T} (l : list T) f : bfilter l f = bfilter (firstn (length f) l) f.
Proof. revert f; induction l as [|x l IH]; intros [|b f]; cbn; auto. destruct b; now rewrite <- IH. Qed.

Lemma pick_positions {T} (d : T) f : forall l : list T, length f <= length l ->
  map (fun i => nth i l d) (positions f) = bfilter l f.
Proof.
  induction f as [|b f IH]; intros [|x l] H; try reflexivity; [cbn in H; lia|].
  rewrite positions_cons, map_app, map_map. cbn [nth bfilter]. rewrite IH by (cbn in H; lia). now destruct b.
Qed.

Lemma copy_range_cat {T} (l : list T) p q r : p <= q -> q <= r ->
  copy_range l (p, q) ++ copy_range l (q, r) = copy_range l (p, r).
Proof.
  intros H1 H2. unfold copy_range; cbn [fst snd].
  replace (r - p) with ((q - p) + (r - q)) by lia. rewrite firstn_plus, skipn_skipn.
  now replace (p + (q - p)) with q by lia.
Qed.

Lemma copy_range_one {T} (d : T) (l : list T) k : k < length l -> copy_range l (k, S k) = [nth k l d].
Proof.
  intros H. unfold copy_range; cbn [fst snd]. rewrite (skipn_nth_cons k l d H).
  now replace (S k - k) with 1 by lia.
Qed.

Lemma copy_runs {T} (d : T) (l : list T) f : length f <= length l ->
  flat_map (copy_range l) (runs f) = bfilter l f.
Proof.
  intros H. rewrite (runs_flat_map (copy_range l)) by apply copy_range_cat.
  rewrite <- (pick_positions d f l H), <- flat_map_unit.
  apply flat_map_ext_In. intros k Hk. apply copy_range_one. apply In_positions in Hk. lia.
Qed.

Lemma filter_spec_bfilter {R} (xs : list R) (m : list (option bool)) :
  filter_spec xs m = bfilter xs (map sel m).
Proof. revert m; induction xs as [|x xs IH]; intros [|b m]; cbn; auto. destruct (sel b); now rewrite IH. Qed.

Definition iterating (p : predicate) : Prop := p_strategy p = SSlices \/ p_strategy p = SIndices.

Lemma filter_native_bfilter {T} (d : T) (l : list T) p : iterating p -> length (p_filter p) <= length l ->
  filter_native d l p = bfilter l (p_filter p).
Proof.
  intros [E|E] H; unfold filter_native; rewrite E.
  - now apply (copy_runs d).
  - now apply pick_positions.
Qed.

(* [v]: rows of any kind; only the validity is filtered by the kernel's own code here.  Its two [all_true] tests drop
   a bitmap, before and after filtering it, exactly when [logical] reads the same rows without it. *)
Lemma filter_selective {R} (v : list R) nl p : iterating p -> wf_col (v, nl) -> length (p_filter p) <= length v ->
  logical (bfilter v (p_filter p), filter_nulls p nl) = bfilter (logical (v, nl)) (p_filter p).
Proof.
  intros Hs Hc Hf. destruct nl as [n|]; [|unfold logical; cbn; now rewrite bfilter_map].
  unfold wf_col in Hc; cbn [fst snd] in Hc. unfold filter_nulls, logical; cbn [fst snd].
  assert (Hlen : length (bfilter v (p_filter p)) <= length (bfilter n (p_filter p)))
    by (rewrite !bfilter_length_count by lia; lia).
  destruct (all_true n) eqn:E.
  - cbn. rewrite (logical_all_true v n) by (try lia; exact E). now rewrite bfilter_map.
  - rewrite filter_native_bfilter by (try exact Hs; lia).
    destruct (all_true (bfilter n (p_filter p))) eqn:E2; cbn.
    + rewrite bfilter_map2. now rewrite (logical_all_true _ _ Hlen E2).
    + now rewrite bfilter_map2.
Qed.

(* every strategy computes [bfilter]; SNone and SAll are admissible exactly when [bfilter] is [] / a prefix *)
Lemma filter_array_spec {T} (d : T) (s : strategy) (c : pcol T) (m : pcol bool) :
  wf_col c -> wf_col m -> length (fst m) <= length (fst c) -> strategy_ok s (prep_mask m) ->
  logical (filter_with s d c m) = filter_spec (logical c) (logical_mask m).
Proof.
  intros Hc Hm Hlen Hok.
  rewrite filter_spec_bfilter, map_sel_logical by exact Hm.
  pose proof (prep_mask_length m Hm) as HL.
  set (f := prep_mask m) in *.
  unfold filter_with, with_strategy, build_predicate, filter_array. cbn [p_strategy p_filter p_count]. fold f.
  destruct c as [v nl]. cbn [fst snd] in *. unfold wf_col in Hc; cbn in Hc.
  assert (HLl : length (logical (v, nl)) = length v) by (apply logical_length; exact Hc).
  destruct s; cbn in Hok.
  - (* SNone *) rewrite count_true_zero_bfilter by exact Hok. reflexivity.
  - (* SAll *) rewrite count_true_full_bfilter by (try exact Hok; lia).
    rewrite Hok. destruct nl as [n|]; unfold logical; cbn [fst snd option_map].
    + apply map2_firstn.
    + now rewrite firstn_map.
  - (* SSlices *) rewrite filter_native_bfilter; [|now left|cbn; lia].
    apply filter_selective; [now left|exact Hc|cbn; lia].
  - (* SIndices *) rewrite filter_native_bfilter; [|now right|cbn; lia].
    apply filter_selective; [now right|exact Hc|cbn; lia].
Qed.

Lemma default_strategy_ok f : strategy_ok (default_strategy (length f) (count_true f)) f.
Proof.
  unfold default_strategy.
  destruct (Nat.eqb_spec (length f) 0) as [E0|N0]; cbn [orb].
  - cbn. pose proof (count_true_le f). lia.
  - destruct (Nat.eqb_spec (count_true f) 0) as [E1|N1]; [exact E1|].
    destruct (Nat.eqb_spec (count_true f) (length f)) as [E2|N2]; [exact E2|].
    destruct (Nat.ltb (4 * length f) (5 * count_true f)); exact I.
Qed.

Lemma filter_M_spec {T} (d : T) (c : pcol T) (m : pcol bool) :
  wf_col c -> wf_col m -> length (fst m) <= length (fst c) ->
  logical (filter_M d c m) = filter_spec (logical c) (logical_mask m).
Proof.
  intros Hc Hm Hl.
  exact (filter_array_spec d (p_strategy (build_predicate m)) c m Hc Hm Hl (default_strategy_ok _)).
Qed.

Lemma filter_strategy_irrelevant {T} (d : T) (s1 s2 : strategy) (c : pcol T) (m : pcol bool) :
  wf_col c -> wf_col m -> length (fst m) <= length (fst c) ->
  strategy_ok s1 (prep_mask m) -> strategy_ok s2 (prep_mask m) ->
  logical (filter_with s1 d c m) = logical (filter_with s2 d c m).
Proof. intros Hc Hm Hl H1 H2. now rewrite !filter_array_spec. Qed.

(* the ranges are non-empty, increasing and separated by at least one unselected row (maximal runs) *)
Fixpoint separated (lo : nat) (rs : list (nat * nat)) : Prop :=
  match rs with
  | [] => True
  | (s, e) :: r => lo <= s /\ s < e /\ separated (S e) r
  end.

Lemma separated_mono lo lo' rs : lo' <= lo -> separated lo rs -> separated lo' rs.
Proof. destruct rs as [|[s e] r]; cbn; [auto|]. intros Hl (A1 & A2 & A3). repeat split; auto; lia. Qed.

(* inside a run opened at s < k the first range starts at s *)
Lemma runs_from_separated f : forall k open, (match open with Some s => s < k | None => True end) ->
  separated (match open with Some s => s | None => k end) (C19_Bits.runs_from k open f).
Proof.
  induction f as [|b f IH]; intros k open H; cbn [C19_Bits.runs_from].
  - destruct open as [s|]; cbn; [lia|exact I].
  - destruct b, open as [s|].
    + (* a set bit inside a run *) apply (IH (S k) (Some s)). lia.
    + (* a set bit opens a run at k *) apply (IH (S k) (Some k)). lia.
    + (* a clear bit closes the run (s, k) *) cbn. repeat split; [lia|exact H|exact (IH (S k) None I)].
    + (* a clear bit in a gap *) apply (separated_mono (S k)); [lia|exact (IH (S k) None I)].
Qed.

Lemma runs_are_separated f : separated 0 (runs f).
Proof. exact (runs_from_separated f 0 None I). Qed.
