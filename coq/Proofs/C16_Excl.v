(* C16 — objects that own their memory by type (MutableBuffer, Vec, PrimitiveBuilder) are the only
   reference to it: [settle] keeps that, an operation has to establish it only for the slots it touches
   ([TBJ], and the ways there are of establishing it: nothing moved, shared kinds only - the slot phase
   [Sl] -, an object over regions the acting slot owned, an object over new regions), the other slots
   follow from its footprint. *)
From Coq Require Import List ZArith Bool Lia.
From AV Require Import Model.C16_Own Proofs.C16_Inv Proofs.C16_Ops Proofs.C16_Mut.
Import ListNotations.

Lemma excl_settle pre cur : Excl cur -> Excl (settle pre cur).
Proof.
  intros X j o id Hs Hk Hin.
  assert (Hs' : get_slot cur j = Some o) by (rewrite <- Hs; symmetry; apply get_slot_ext, settle_slots).
  pose proof (X j o id Hs' Hk Hin) as H1.
  pose proof (settle_from_cnt_le (length (nodes cur)) pre cur id) as Hle. fold (settle pre cur) in Hle.
  assert (0 < cnt (settle pre cur) id).
  { apply in_refs_cnt. eapply get_slot_refs; eauto. }
  lia.
Qed.

(* an object of exclusive kind holds every reference to each of its regions *)
Lemma excl_uniq s i k hs h : Excl s -> is_excl_kind k = true -> slot_k s i k = Some hs -> In h hs -> Uniq s i (hreg h).
Proof.
  intros X Hk E Hh. pose proof (slot_k_acts _ _ _ _ E) as Ha. apply slot_k_some in E as (o & Ho & Hko & Eo).
  apply uniq_of_cnt1; [rewrite Ha; apply in_map; exact Hh|].
  apply (X i o (hreg h) Ho); [rewrite Hko; exact Hk|]. unfold obj_refs. rewrite Eo. apply in_map. exact Hh.
Qed.

(* in [s1], every object of exclusive kind that sits in a slot of [J], or in a slot that [s] did not have, holds the only
   reference to each of its regions: the part of [Excl s1] that an operation has to establish itself *)
Definition TBJ (s : state) (J : nat -> Prop) (s1 : state) : Prop :=
  forall j o id, J j \/ length (slots s) <= j -> get_slot s1 j = Some o ->
                 is_excl_kind (okind o) = true -> In id (obj_refs o) -> cnt s1 id = 1.

Lemma tbj_of_excl s J s1 : Excl s1 -> TBJ s J s1.
Proof. intros X j o id _ H Hk Hin. eapply X; eauto. Qed.

Lemma tbj_shared s (J : nat -> Prop) s1 :
  (forall j o, J j \/ length (slots s) <= j -> get_slot s1 j = Some o -> is_excl_kind (okind o) = false) -> TBJ s J s1.
Proof. intros H j o id HJ Hs Hk. rewrite (H j o HJ Hs) in Hk. discriminate. Qed.

Lemma excl_same s s1 : Excl s -> slots s1 = slots s -> (forall id, cnt s1 id = cnt s id) -> Excl s1.
Proof. intros X Hs Hc j o id H Hk Hin. rewrite (get_slot_ext _ _ _ Hs) in H. rewrite Hc. eapply X; eauto. Qed.

Lemma excl_na1 s : Excl s -> Excl (push_slot None s).
Proof.
  intros X j o id H Hk Hin. apply gs_push_cases in H as [[_ H]|[_ H]]; [|discriminate].
  rewrite cnt_push. cbn. rewrite Nat.add_0_r. eapply X; eauto.
Qed.

(* the other slots keep their objects, and an object of exclusive kind among them shares no region
   with the objects the operation reads, so the counts of its regions did not grow *)
Lemma excl_assemble s p s1 : Inv s -> Excl s -> RawA s (opA s p) (opT p) s1 ->
  TBJ s (fun j => In j (opR p)) s1 -> Excl s1.
Proof.
  intros I X R T j o id Hs Hk Hin.
  destruct (in_dec Nat.eq_dec j (opR p)) as [HR|HnR]; [apply (T j o id); auto|].
  destruct (Nat.lt_ge_cases j (length (slots s))) as [Hlt|Hge]; [|apply (T j o id); auto].
  assert (Hs0 : get_slot s j = Some o).
  { unfold get_slot in *. rewrite <- (ra_slots _ _ _ _ R j (fun H => HnR (opT_opR p j H)) Hlt). exact Hs. }
  pose proof (X j o id Hs0 Hk Hin) as H1.
  pose proof (ref_lt s id I (get_slot_refs _ _ _ _ Hs0 Hin)) as Hidlt.
  assert (HnA : ~ In id (opA s p)).
  { intros HA. apply in_flat_map in HA as (t & Ht & Hidt).
    assert (Hne : t <> j) by (intros ->; exact (HnR Ht)).
    pose proof (count_two_slots s t j id Hne). apply (count_occ_In Nat.eq_dec) in Hidt.
    rewrite (get_slot_acts _ _ _ Hs0) in H. apply (count_occ_In Nat.eq_dec) in Hin. lia. }
  pose proof (ra_cnt _ _ _ _ R id Hidlt HnA) as Hle.
  assert (0 < cnt s1 id) by (apply in_refs_cnt; eapply get_slot_refs; eauto).
  lia.
Qed.

Lemma shared_not_excl k : is_shared_kind k = true -> is_excl_kind k = false.
Proof.
  (* a kind that is 1, 4, 5 or 6 is none of 2, 3, 7 *)
  unfold is_shared_kind, is_excl_kind. intros H. repeat (apply orb_true_iff in H as [H|H]);
    apply Nat.eqb_eq in H; rewrite H; reflexivity.
Qed.

Definition shared_opt (o' : option obj) : Prop := forall o, o' = Some o -> is_excl_kind (okind o) = false.
Lemma shared_none : shared_opt None.
Proof. intros o [=]. Qed.
Lemma shared_obj k hs aux : is_excl_kind k = false -> shared_opt (Some (mkO k hs aux)).
Proof. intros H o [= <-]. exact H. Qed.

Lemma import_arr_kind s0 e : shared_opt (snd (import_arr s0 e)).
Proof.
  unfold import_arr. destruct (get_exp s0 e) as [ex|]; [|apply shared_none]. destruct (e_bufs ex) as [|v rest]; [apply shared_none|].
  destruct (if _ =? 0 then _ else _) as [s1 hv]. destruct rest as [|n rest]; [|destruct (import_buf s1 e n _) as [s2 hn]];
    cbn [snd]; apply shared_obj; destruct (e_kind ex =? 6); reflexivity.
Qed.

Lemma slot_k_kind s i k hs oi : slot_k s i k = Some hs -> get_slot s i = Some oi -> okind oi = k.
Proof. intros H E. apply slot_k_some in H as (o0 & Ho & Hk & _). congruence. Qed.

Section Sl.
  Variables (s : state) (A T : list nat).
  (* the state after the node phase *)
  Variable s0 : state.
  Hypothesis Hs0 : slots s0 = slots s.

  (* What an operation that builds no object of exclusive kind may do to the slots: overwrite slots of [T]
     (a consumed operand becomes [None]) and append slots, each time with an object of a shared kind over
     regions it may refer to.  Index: the slots overwritten so far. *)
  Inductive Sl : list nat -> state -> Prop :=
  | sl_base : Sl [] s0
  | sl_set L j o' s1 : Sl L s1 -> In j T -> shared_opt o' -> OkL s A s1 (slot_refs o') -> Sl (j :: L) (set_slot j o' s1)
  | sl_push L o' s1 : Sl L s1 -> shared_opt o' -> OkL s A s1 (slot_refs o') -> Sl L (push_slot o' s1).

  (* a slot holds what it held in [s], or an object of a shared kind *)
  Lemma sl_slot L s1 : Sl L s1 -> length (slots s) <= length (slots s1) /\
    forall j o, get_slot s1 j = Some o ->
      (~ In j L /\ j < length (slots s) /\ get_slot s j = Some o) \/ is_excl_kind (okind o) = false.
  Proof.
    induction 1 as [|L j o' s1 _ [Len IH] Hj Hk _|L o' s1 _ [Len IH] Hk _].
    - split; [rewrite Hs0; apply le_n|]. intros j o H. left.
      rewrite (get_slot_ext _ _ _ Hs0) in H. split; [intros []|]. split; [eapply get_slot_lt; eauto|exact H].
    - split; [cbn [set_slot slots]; rewrite upd_nth_length; exact Len|]. intros x o H.
      apply gs_set_cases in H as [[Hne H]|(-> & _ & H)]; [|right; exact (Hk o H)].
      destruct (IH x o H) as [(HL & Hlt & H0)|Hs]; [left|right; exact Hs].
      split; [intros [E|HL']; [exact (Hne (eq_sym E))|exact (HL HL')]|auto].
    - split; [cbn [push_slot slots]; rewrite app_length; lia|]. intros x o H.
      apply gs_push_cases in H as [[_ H]|[_ H]]; [exact (IH x o H)|right; exact (Hk o H)].
  Qed.

  (* every slot of [J] was overwritten, or held a shared kind before *)
  Lemma sl_tbj L (J : nat -> Prop) s1 : Sl L s1 ->
    (forall j o, J j -> ~ In j L -> get_slot s j = Some o -> is_excl_kind (okind o) = false) -> TBJ s J s1.
  Proof.
    intros S HJ. destruct (sl_slot _ _ S) as [_ H]. apply tbj_shared. intros j o Hj Hg.
    destruct (H j o Hg) as [(HL & Hlt & H0)|Hs]; [|exact Hs].
    destruct Hj as [Hj|Hge]; [exact (HJ j o Hj HL H0)|lia].
  Qed.
End Sl.

(* a stream is a new shared object over the regions of the batches it is made of *)
Lemma stream_new_sl s A T i a b : incl (acts s i) A -> (b = 1 -> incl (acts s a) A) ->
  fst (ex_stream_new s i a b) = fst (na1 s) \/
  (Sl s A T s [] (fst (ex_stream_new s i a b)) /\
   forall j o, In j (slots2 i a b) -> get_slot s j = Some o -> is_excl_kind (okind o) = false).
Proof.
  intros Hi Ha. unfold slots2.
  assert (K4 : forall t hs o, slot_k s t 4 = Some hs -> get_slot s t = Some o -> is_excl_kind (okind o) = false).
  { intros t hs' o H Ho. rewrite (slot_k_kind _ _ _ _ _ H Ho). reflexivity. }
  unfold ex_stream_new. destruct (slot_k s i 4) as [hs|] eqn:E; [|left; reflexivity].
  destruct (Nat.eqb_spec b 1) as [Eb|Eb].
  - destruct (slot_k s a 4) as [hs2|] eqn:E2; [|left; reflexivity]. right. cbn [fst]. split.
    + apply sl_push; [apply sl_base|apply shared_obj; reflexivity|]. apply OkL_A. unfold slot_refs, obj_refs. cbn [ohs].
      rewrite map_app. apply incl_app; [rewrite <- (slot_k_acts _ _ _ _ E); exact Hi|rewrite <- (slot_k_acts _ _ _ _ E2); exact (Ha Eb)].
    + intros j o [<-|[<-|[]]] H; [exact (K4 _ _ _ E H)|exact (K4 _ _ _ E2 H)].
  - right. cbn [fst]. split.
    + apply sl_push; [apply sl_base|apply shared_obj; reflexivity|]. apply OkL_A.
      unfold slot_refs, obj_refs. cbn [ohs]. rewrite <- (slot_k_acts _ _ _ _ E). exact Hi.
    + intros j o [<-|[]] H. exact (K4 _ _ _ E H).
Qed.

Section TB.
  Variable s : state.
  Hypothesis I : Inv s.
  Hypothesis X : Excl s.

  Lemma tb_na1 J : TBJ s J (fst (na1 s)). Proof. apply tbj_of_excl, excl_na1, X. Qed.

  (* an appended object over distinct regions created by the operation, when no count has moved, is the only
     reference to them, and every older object keeps its counts: whatever the kinds *)
  Lemma tb_push_fresh (J : nat -> Prop) s1 o' : slots s1 = slots s -> (forall id, cnt s1 id = cnt s id) ->
    NoDup (obj_refs o') -> (forall r, In r (obj_refs o') -> Fresh s s1 r) -> TBJ s J (push_slot (Some o') s1).
  Proof.
    intros Hs Hc ND Hf j o id _ Hg Hk Hin. rewrite cnt_push, Hc. cbn [slot_refs].
    apply gs_push_cases in Hg as [[_ Hg]|[_ Hg]].
    - rewrite (get_slot_ext _ _ _ Hs) in Hg. rewrite (X j o id Hg Hk Hin).
      pose proof (ref_lt s id I (get_slot_refs _ _ _ _ Hg Hin)) as Hlt.
      rewrite (proj1 (count_occ_not_In Nat.eq_dec _ _)); [lia|]. intros Hi. destruct (Hf id Hi) as [Hge _]. lia.
    - injection Hg as <-. rewrite (cnt_fresh_zero s id I (proj1 (Hf id Hin))).
      apply (NoDup_count_occ' Nat.eq_dec); assumption.
  Qed.

  Variable i : nat.
  Let J := fun j => j = i.

  Lemma slot_1_kind k h oi : slot_1 s i k = Some h -> get_slot s i = Some oi -> okind oi = k.
  Proof. intros H. eapply slot_k_kind, slot_1_k, H. Qed.

  (* the touched slot gets an object of any kind all of whose regions it alone refers to, once:
     either they are new or the old object held every reference to them *)
  Lemma tb_set_excl s' o' : slots s' = slots s -> (forall id, cnt s' id = cnt s id) ->
    (forall id, In id (obj_refs o') ->
       cnt s id = count_occ Nat.eq_dec (acts s i) id /\ count_occ Nat.eq_dec (obj_refs o') id = 1) ->
    TBJ s (fun j => In j [i]) (set_slot i (Some o') s').
  Proof.
    intros Hs Hc H j o id HJ Hg Hk Hin. apply gs_set_cases in Hg as [[Hne Hg]|(-> & Hlt & Hg)].
    - destruct HJ as [[<-|[]]|Hge]; [congruence|]. apply get_slot_lt in Hg. rewrite Hs in Hg. lia.
    - injection Hg as <-. destruct (H id Hin) as [Hb H1]. pose proof (cnt_set i (Some o') s' id Hlt) as E.
      rewrite (acts_ext s s' i Hs), Hc in E. cbn [slot_refs] in E. lia.
  Qed.

  Lemma tb_stream_new a b : TBJ s J (fst (ex_stream_new s i a b)).
  Proof.
    destruct (stream_new_sl s (all_refs s) [] i a b (acts_incl s i) (fun _ => acts_incl s a)) as [->|[S HK]];
      [apply tb_na1|exact (sl_tbj s _ _ s eq_refl [] _ _ S (fun j o Hj _ => HK j o (or_introl (eq_sym Hj))))].
  Qed.
End TB.

