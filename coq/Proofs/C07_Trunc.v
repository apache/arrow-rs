(* C07 — proofs about byte-wise truncation: order facts of [lex]; [increment], from its two computation
   rules, is above every extension of its argument; [cut], the filter / and_then / map /
   unwrap_or_else chain that truncate_min_value and truncate_max_value share (mod.rs:1244, 1275). *)
From Coq Require Import List NArith Arith Lia Bool.
From AV Require Import Base.ListX Base.Order Model.C07_Trunc.
Import ListNotations.
Local Open Scope N_scope.

(* lex is [lexc N.compare], by computation: a total order because N.compare is one *)
Lemma lex_ord a : ord_at lex a.
Proof. apply (lexc_ord N.compare), Forall_forall. intros x _. apply ord_Ncompare. Qed.

Lemma lex_refl a : lex a a = Eq.
Proof. apply lex_ord. Qed.
Lemma lex_eq a b : lex a b = Eq -> a = b.
Proof. apply lex_ord. Qed.
Lemma lex_antisym a b : lex b a = CompOpp (lex a b).
Proof. apply lex_ord. Qed.
Lemma lex_le_trans a b c : lex a b <> Gt -> lex b c <> Gt -> lex a c <> Gt.
Proof. apply lex_ord. Qed.
Lemma lex_le_lt_trans a b c : lex a b <> Gt -> lex b c = Lt -> lex a c = Lt.
Proof. exact (ord_le_lt_trans lex lex_ord a b c). Qed.

Lemma lex_leb_spec a b : lex_leb a b = true <-> lex a b <> Gt.
Proof. unfold lex_leb, lex_gtb. destruct (lex a b); cbn; split; congruence. Qed.

Lemma lex_gtb_flip a b : lex_gtb a b = lex_ltb b a.
Proof. unfold lex_gtb, lex_ltb. rewrite (lex_antisym a b). destruct (lex a b); reflexivity. Qed.

Lemma lex_firstn l d : lex (firstn l d) d <> Gt.
Proof.
  revert l; induction d as [|b d IH]; intros [|l]; cbn [firstn lex]; try discriminate.
  rewrite N.compare_refl. apply IH.
Qed.

Lemma lex_app_l p a b : lex (p ++ a) (p ++ b) = lex a b.
Proof. apply (lexc_app_same N.compare). intros; apply N.compare_refl. Qed.

Lemma lex_cons_lt x y a b : x < y -> lex (x :: a) (y :: b) = Lt.
Proof. intros H. cbn [lex]. now rewrite (proj2 (N.compare_lt_iff x y)). Qed.
(* the same for heads written [k + x], [k + y], as the bytes of a multi-byte UTF-8 encoding are (a
   marker plus a six-bit digit, Utf8.encoded): a tie of the heads is handed on as a tie [x = y] of the digits *)
Lemma lex_cons_le k x y a b : x <= y -> (x = y -> lex a b = Lt) -> lex (k + x :: a) (k + y :: b) = Lt.
Proof.
  intros L H. cbn [lex]. destruct (N.compare_spec (k + x) (k + y)) as [E|_|G]; [apply H|reflexivity|]; lia.
Qed.

(* [r] is above [p] and above everything that starts with [p]: what an incremented prefix is to the
   value it was cut from, and what every truncator of a maximum has to deliver *)
Definition above (p r : bytes) : Prop := forall s, lex (p ++ s) r = Lt.

Lemma above_firstn n d r : above (firstn n d) r -> lex d r = Lt.
Proof. intros H. rewrite <- (firstn_skipn n d) at 1. apply H. Qed.
Lemma above_app_l p a r : above a r -> above (p ++ a) (p ++ r).
Proof. intros H s. rewrite <- app_assoc, lex_app_l. apply H. Qed.
Lemma above_app_r p q r : above p r -> above (p ++ q) r.
Proof. intros H s. rewrite <- app_assoc. apply H. Qed.
Lemma above_cons_lt x y a b : x < y -> above (x :: a) (y :: b).
Proof. intros H s. now apply lex_cons_lt. Qed.

(* [increment] is fixed by its two computation rules, since every string has one of the two forms:
   a byte other than 0xFF followed by 0xFF bytes only, after any prefix; or 0xFF bytes only *)
Lemma incr_rev_carry k b q : b <> 255 -> incr_rev (repeat 255 k ++ b :: q) = Some (repeat 0 k ++ b + 1 :: q).
Proof.
  intros Hb. induction k as [|k IH]; cbn [repeat app incr_rev].
  - now rewrite (proj2 (N.eqb_neq b 255)).
  - now rewrite IH.
Qed.

Lemma increment_carry p b k : b <> 255 ->
  increment (p ++ b :: repeat 255 k) = Some (p ++ (b + 1) :: repeat 0 k).
Proof.
  intros Hb. unfold increment. rewrite rev_app_distr. cbn [rev]. rewrite <- app_assoc, rev_repeat. cbn [app].
  rewrite (incr_rev_carry k b (rev p) Hb). cbn [option_map].
  rewrite rev_app_distr. cbn [rev]. now rewrite <- app_assoc, rev_repeat, rev_involutive.
Qed.

Lemma increment_all_ff k : increment (repeat 255 k) = None.
Proof.
  unfold increment. rewrite rev_repeat. enough (incr_rev (repeat 255 k) = None) as -> by reflexivity.
  induction k as [|k IH]; [reflexivity|]. cbn [repeat incr_rev]. now rewrite IH.
Qed.

Lemma last_non_ff d : (exists p b k, d = p ++ b :: repeat 255 k /\ b <> 255) \/ d = repeat 255 (length d).
Proof.
  induction d as [|x d IH]; [now right|]. destruct IH as [(p & b & k & -> & Hb)|E].
  - left. now exists (x :: p), b, k.
  - destruct (N.eq_dec x 255) as [->|Hx].
    + right. cbn [length repeat]. now rewrite <- E.
    + left. exists [], x, (length d). now rewrite <- E.
Qed.

(* that is, [above d r] *)
Lemma increment_upper_bound d r : increment d = Some r -> forall suffix, lex (d ++ suffix) r = Lt.
Proof.
  destruct (last_non_ff d) as [(p & b & k & -> & Hb)| ->]; [|now rewrite increment_all_ff].
  rewrite (increment_carry p b k Hb). intros H. injection H as <-.
  apply above_app_l, above_cons_lt. lia.
Qed.

Definition wf (d : bytes) := Forall (fun b => b <= 255) d.

Lemma increment_none_iff d : wf d -> (increment d = None <-> Forall (fun b => b = 255) d).
Proof.
  intros _. destruct (last_non_ff d) as [(p & b & k & -> & Hb)| ->].
  - rewrite (increment_carry p b k Hb). split; [discriminate|]. intros F.
    apply Forall_app in F as [_ F]. now inversion F.
  - rewrite increment_all_ff. split; [intros _|reflexivity]. apply Forall_forall. intros x Hx. now apply repeat_spec in Hx.
Qed.

Lemma increment_wf_len d r : wf d -> increment d = Some r -> wf r /\ length r = length d.
Proof.
  destruct (last_non_ff d) as [(p & b & k & -> & Hb)| ->]; [|now rewrite increment_all_ff].
  rewrite (increment_carry p b k Hb). intros W H. injection H as <-.
  apply Forall_app in W as [Wp W]. inversion W as [|? ? Wb _]; subst. split.
  - apply Forall_app. split; [exact Wp|]. constructor; [lia|]. apply Forall_forall. intros x Hx. apply repeat_spec in Hx. now subst.
  - rewrite !app_length. cbn [length]. now rewrite !repeat_length.
Qed.

(* truncate_min_value and truncate_max_value are one function of the truncator that is tried when
   the value is longer than the limit: the stored bound is its result, flagged, or the value itself *)
Definition cut (f : nat -> option bytes) (tl : option nat) (d : bytes) : bytes * bool :=
  match tl with
  | Some l => if (l <? length d)%nat then match f l with Some t => (t, true) | None => (d, false) end else (d, false)
  | None => (d, false)
  end.
Definition min_cut (utf8 : bool) (d : bytes) (l : nat) : option bytes :=
  if utf8 && valid_utf8 d then truncate_utf8 d l else Some (firstn l d).
Definition max_cut (utf8 : bool) (d : bytes) (l : nat) : option bytes :=
  if utf8 && valid_utf8 d then truncate_and_increment_utf8 d l else increment (firstn l d).

Lemma truncate_min_cut utf8 tl d : truncate_min_value utf8 tl d = cut (min_cut utf8 d) tl d.
Proof. reflexivity. Qed.
Lemma truncate_max_cut utf8 tl d : truncate_max_value utf8 tl d = cut (max_cut utf8 d) tl d.
Proof. reflexivity. Qed.

Inductive cut_spec (f : nat -> option bytes) (d : bytes) : bytes * bool -> Prop :=
| cut_done l t : f l = Some t -> cut_spec f d (t, true)
| cut_kept : cut_spec f d (d, false).

Lemma cutP f tl d : cut_spec f d (cut f tl d).
Proof.
  unfold cut. destruct tl as [l|]; [|constructor].
  destruct (l <? length d)%nat; [|constructor].
  destruct (f l) eqn:E; [now apply (cut_done f d l)|constructor].
Qed.

Lemma cut_false f tl d t : cut f tl d = (t, false) -> t = d.
Proof. destruct (cutP f tl d) as [l r _|]; intros H; now inversion H. Qed.

Lemma max_cut_bytes_gt d l r : max_cut false d l = Some r -> lex d r = Lt.
Proof. intros E. exact (above_firstn l d r (increment_upper_bound _ r E)). Qed.

(* what holds whichever branch of the truncator runs, UTF-8 or not *)
Lemma truncate_utf8_prefix d l t : truncate_utf8 d l = Some t -> exists n, t = firstn n d.
Proof. unfold truncate_utf8. destruct (rfind _ _ _) as [s|]; [|discriminate]. intros H; inversion H. now exists s. Qed.

Lemma min_cut_prefix utf8 d l t : min_cut utf8 d l = Some t -> exists n, t = firstn n d.
Proof.
  unfold min_cut. destruct (utf8 && valid_utf8 d); [apply truncate_utf8_prefix|].
  intros H; inversion H. now exists l.
Qed.

Theorem truncate_min_le_all utf8 tl d : lex (fst (truncate_min_value utf8 tl d)) d <> Gt.
Proof.
  rewrite truncate_min_cut. destruct (cutP (min_cut utf8 d) tl d) as [l t E|]; cbn [fst].
  - apply min_cut_prefix in E as [n ->]. apply lex_firstn.
  - rewrite lex_refl. discriminate.
Qed.

Corollary truncated_min_bounds utf8 tl d v : lex d v <> Gt -> lex (fst (truncate_min_value utf8 tl d)) v <> Gt.
Proof. intros H. eapply lex_le_trans; [apply truncate_min_le_all|exact H]. Qed.

Lemma exact_flags utf8 tl d t :
  (truncate_min_value utf8 tl d = (t, false) -> t = d) /\ (truncate_max_value utf8 tl d = (t, false) -> t = d).
Proof. rewrite truncate_min_cut, truncate_max_cut. split; apply cut_false. Qed.

Lemma truncate_min_bytes_le tl d : lex (fst (truncate_min_value false tl d)) d <> Gt.
Proof. apply truncate_min_le_all. Qed.

Lemma truncate_max_bytes_ge tl d r :
  truncate_max_value false tl d = (r, true) -> lex d r = Lt.
Proof.
  rewrite truncate_max_cut. destruct (cutP (max_cut false d) tl d) as [l t E|]; intros H; inversion H; subst.
  now apply (max_cut_bytes_gt d l).
Qed.
