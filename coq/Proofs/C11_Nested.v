(* C11 — struct, list and fixed-size list are [nullable] over a body that is strong because the
   children are: a struct is 0x01 and the concatenation of its fields; a fixed-size list 0x01 and its n elements; a list
   the var_body of each child row (encoded ascending under child_opts) closed by the empty marker,
   the whole inverted when descending.  A run-end encoded value has no null marker of its own: it
   is the var_body of its one child row, and strong by composition.
   Then enc_strong, by the induction over field types. *)
From Coq Require Import List NArith Lia Bool.
From AV Require Import Base.Order Model.C11_Row Proofs.C11_Lex Proofs.C11_Var Proofs.C11_Unfold Proofs.C11_Field.
Import ListNotations.
Local Open Scope N_scope.

Lemma struct_cmp_ext cf cg fs xs ys : (forall f x y, cf f x y = cg f x y) ->
  struct_cmp cf fs xs ys = struct_cmp cg fs xs ys.
Proof.
  intros H. revert xs ys. induction fs as [|f fs IH]; intros xs ys; cbn [struct_cmp]; [reflexivity|].
  rewrite H. destruct (cg f (hd VNull xs) (hd VNull ys)); auto.
Qed.

Lemma struct_cmp_opp cf fs xs ys :
  CompOpp (struct_cmp cf fs xs ys) = struct_cmp (fun f x y => CompOpp (cf f x y)) fs xs ys.
Proof.
  revert xs ys. induction fs as [|f fs IH]; intros xs ys; cbn [struct_cmp]; [reflexivity|].
  destruct (cf f (hd VNull xs) (hd VNull ys)); cbn [CompOpp]; auto.
Qed.

Lemma lexc_opp_same_len {A} (c : A -> A -> comparison) xs ys : length xs = length ys ->
  CompOpp (lexc c xs ys) = lexc (fun x y => CompOpp (c x y)) xs ys.
Proof.
  revert ys. induction xs as [|x xs IH]; intros [|y ys] Hl; cbn [length] in Hl; try discriminate; cbn [lexc]; [reflexivity|].
  destruct (c x y); cbn [CompOpp]; auto.
Qed.

Lemma fields_strong fs o :
  Forall (fun f => forall o, strong (wt f) (enc f o) (cmp_field f o)) fs ->
  strong (wt_fields fs) (enc_fields fs o) (struct_cmp (fun f => cmp_field f o) fs).
Proof.
  induction 1 as [|f fs Hf Hfs IH]; intros a b x y Wa Wb.
  - reflexivity.
  - destruct a as [|xa ra], b as [|xb rb]; cbn [wt_fields] in Wa, Wb; try contradiction.
    cbn [enc_fields struct_cmp hd tl]. rewrite <- !app_assoc.
    rewrite (Hf o xa xb _ _ (proj1 Wa) (proj1 Wb)).
    destruct (cmp_field f o xa xb); try reflexivity. apply IH; tauto.
Qed.

Lemma cmp_field_struct fs o xs ys :
  cmp_field (TStruct fs) o (VStruct xs) (VStruct ys) = struct_cmp (fun f => cmp_field f o) fs xs ys.
Proof.
  unfold cmp_field. rewrite !cmp_asc_struct.
  destruct (descending o); [|reflexivity]. apply struct_cmp_opp.
Qed.

Theorem struct_strong fs o :
  Forall (fun f => forall o, strong (wt f) (enc f o) (cmp_field f o)) fs ->
  strong (wt (TStruct fs)) (enc (TStruct fs) o) (cmp_field (TStruct fs) o).
Proof.
  intros IH.
  apply (nullable_strong (TStruct fs) o VStruct (wt_fields fs) (fun vs => 1 :: enc_fields fs o vs)
           (struct_cmp (fun f => cmp_field f o) fs) (null_fields fs o)).
  refine {| nb_nonree := I; nb_valid := ltac:(discriminate);
            nb_strong := strong_prefix _ _ _ [1] (fields_strong fs o IH);
            nb_head := fun vs _ => mid_head_one _;
            nb_enc := fun vs _ => enc_struct_valid fs o vs;
            nb_null := enc_struct_null fs o;
            nb_cmp := fun xs ys _ _ => cmp_field_struct fs o xs ys;
            nb_wt := _ |}.
  intros [| | |vs|] Wv; try contradiction; [now left | right]. exists vs. split; [reflexivity | now rewrite <- wt_struct].
Qed.

Definition lbody (g : value -> list N) (vs : list value) : list N :=
  flat_map (fun e => var_body (g e)) vs ++ [EMPTY_SENTINEL].

Lemma lbody_strong (P : value -> Prop) g c :
  strong P g c -> (forall a, g a <> []) ->
  strong (Forall P) (lbody g) (lexc c).
Proof.
  intros H Hne a. induction a as [|xa ra IH]; intros b x y Wa Wb.
  - destruct b as [|xb rb]; unfold lbody; cbn [flat_map app lexc].
    + now rewrite lex_cons_same.
    + destruct (var_body_blocks (g xb) (Hne xb)) as (out & -> & _). cbn [app].
      apply lex_cons_lt. unfold EMPTY_SENTINEL, NON_EMPTY_SENTINEL. lia.
  - destruct b as [|xb rb]; unfold lbody; cbn [flat_map app lexc].
    + destruct (var_body_blocks (g xa) (Hne xa)) as (out & -> & _). cbn [app].
      apply lex_cons_gt. unfold EMPTY_SENTINEL, NON_EMPTY_SENTINEL. lia.
    + inversion Wa as [|? ? Pa Wra]; inversion Wb as [|? ? Pb Wrb]; subst.
      rewrite <- !app_assoc.
      rewrite (strong_var_of P g c H xa xb _ _ Pa Pb).
      destruct (c xa xb); try reflexivity.
      rewrite !app_assoc. apply (IH rb x y Wra Wrb).
Qed.

Lemma flat_map_invert {A} (f : A -> list N) vs :
  flat_map (fun e => invert (f e)) vs = invert (flat_map f vs).
Proof. induction vs as [|a vs IH]; cbn [flat_map]; [reflexivity|]. now rewrite invert_app, IH. Qed.

Lemma enc_list_valid c o vs :
  enc (TList c) o (VList vs) = inv_if (descending o) (lbody (enc c (child_opts o)) vs).
Proof.
  rewrite enc_list_flat. unfold lbody, encode_empty.
  rewrite (flat_map_ext _ (fun e => inv_if (descending o) (var_body (enc c (child_opts o) e))))
    by (intros; apply encode_one_some).
  destruct (descending o); cbn [inv_if]; [|reflexivity].
  rewrite invert_app, flat_map_invert. reflexivity.
Qed.

Lemma lbody_wf g vs : (forall a, In a vs -> wf_bytes (g a)) -> wf_bytes (lbody g vs).
Proof.
  intros H. unfold lbody. apply Forall_app; split.
  - apply wf_flat_map. intros a Ha. apply var_body_wf. now apply H.
  - constructor; [unfold wf_byte, EMPTY_SENTINEL; lia|constructor].
Qed.

Lemma lbody_head g vs : mid_head (lbody g vs).
Proof.
  destruct vs as [|x vs]; unfold lbody; cbn [flat_map app].
  - unfold mid_head, EMPTY_SENTINEL. cbn [nth]. lia.
  - unfold mid_head. rewrite <- app_assoc, mid_head_app by apply var_body_head. apply var_body_head.
Qed.

Lemma cmp_field_child c o a b :
  cmp_field c (child_opts o) a b = cmp_asc c (xorb (nulls_first o) (descending o)) a b.
Proof. reflexivity. Qed.

(* the child converter is ascending with nulls at the other end when the parent is descending:
   inverting its bytes gives the comparison under the parent's own options *)
Lemma cmp_field_by_child_opts c o a b : dir (descending o) (cmp_field c (child_opts o) a b) = cmp_field c o a b.
Proof.
  rewrite cmp_field_child. unfold cmp_field, dir.
  destruct (descending o); [now rewrite xorb_true_r | now rewrite xorb_false_r].
Qed.

Theorem list_strong c o : wf_type c ->
  (forall o, strong (wt c) (enc c o) (cmp_field c o)) ->
  strong (wt (TList c)) (enc (TList c) o) (cmp_field (TList c) o).
Proof.
  intros Wc IH.
  assert (Ww : forall vs, Forall (wt c) vs -> wf_bytes (lbody (enc c (child_opts o)) vs)).
  { intros vs Wvs. apply lbody_wf. intros e He. apply enc_wf; [exact Wc|].
    rewrite Forall_forall in Wvs. now apply Wvs. }
  apply (nullable_strong (TList c) o VList (Forall (wt c))
           (fun vs => inv_if (descending o) (lbody (enc c (child_opts o)) vs))
           (fun xs ys => dir (descending o) (lexc (cmp_field c (child_opts o)) xs ys)) []).
  refine {| nb_nonree := I; nb_valid := ltac:(discriminate); nb_null := enc_list_null c o;
            nb_strong := strong_inv_if _ _ _ _ Ww (lbody_strong _ _ _ (IH _) (enc_nonempty c _));
            nb_head := fun vs _ => inv_if_head _ _ (lbody_head _ vs);
            nb_enc := fun vs _ => enc_list_valid c o vs;
            nb_wt := _; nb_cmp := _ |}.
  - (* nb_wt *) intros [| | | |vs] Wv; try contradiction; [now left | right].
    exists vs. split; [reflexivity | now apply wt_all_Forall].
  - (* nb_cmp.  By the equations, not by [reflexivity]: converting the child's [cmp_field], unapplied, with
       [cmp_asc] makes the kernel compare the large body of cmp_asc with itself, which is slow *)
    intros xs ys _ _. rewrite <- (cmp_field_by_child_opts (TList c) o (VList xs) (VList ys)), cmp_field_child, cmp_asc_list.
    apply (f_equal (dir (descending o))), lexc_ext. intros a b _ _. symmetry. apply cmp_field_child.
Qed.

Lemma fbody_strong (P : value -> Prop) g c n :
  strong P g c -> strong (fun vs => length vs = n /\ Forall P vs) (flat_map g) (lexc c).
Proof.
  intros H. induction n as [|n IH]; intros a b x y [La Wa] [Lb Wb].
  - destruct a, b; try discriminate. reflexivity.
  - destruct a as [|xa ra], b as [|xb rb]; try discriminate.
    inversion Wa as [|? ? Pa Wra]; inversion Wb as [|? ? Pb Wrb]; subst.
    cbn [flat_map lexc]. rewrite <- !app_assoc. rewrite (H xa xb _ _ Pa Pb).
    destruct (c xa xb); try reflexivity. apply IH; split; cbn [length] in *; auto; lia.
Qed.

Theorem fsl_strong c n o :
  (forall o, strong (wt c) (enc c o) (cmp_field c o)) ->
  strong (wt (TFsl c n)) (enc (TFsl c n) o) (cmp_field (TFsl c n) o).
Proof.
  intros IH.
  apply (nullable_strong (TFsl c n) o VList (fun vs => length vs = n /\ Forall (wt c) vs)
           (fun vs => 1 :: flat_map (enc c o) vs) (lexc (cmp_field c o)) []).
  refine {| nb_nonree := I; nb_valid := ltac:(discriminate); nb_null := enc_fsl_null c n o;
            nb_strong := strong_prefix _ _ _ [1] (fbody_strong _ _ _ n (IH o));
            nb_head := fun vs _ => mid_head_one _;
            nb_enc := fun vs _ => enc_fsl_valid c n o vs;
            nb_wt := _; nb_cmp := _ |}.
  - (* nb_wt *) intros [| | | |vs] Wv; try contradiction; [now left | right].
    exists vs. split; [reflexivity|]. rewrite <- wt_all_Forall. now rewrite <- wt_fsl.
  - (* nb_cmp *) intros xs ys [Lx _] [Ly _]. unfold cmp_field. rewrite !cmp_asc_fsl.
    destruct (descending o); [|reflexivity]. apply lexc_opp_same_len. congruence.
Qed.

Theorem ree_strong c o : wf_type c ->
  (forall o, strong (wt c) (enc c o) (cmp_field c o)) ->
  strong (wt (TRee c)) (enc (TRee c) o) (cmp_field (TRee c) o).
Proof.
  intros Wc IH. change (wt (TRee c)) with (wt c).
  apply (strong_ext (wt c) (fun v => inv_if (descending o) (var_body (enc c (child_opts o) v))) _
           (fun a b => dir (descending o) (cmp_field c (child_opts o) a b))).
  - intros a _. rewrite enc_ree. symmetry. apply encode_one_some.
  - intros a b _ _. rewrite cmp_field_ree. apply cmp_field_by_child_opts.
  - apply (strong_inv_if (wt c) (fun v => var_body (enc c (child_opts o) v)) (cmp_field c (child_opts o))).
    + intros a Wa. apply var_body_wf, enc_wf; assumption.
    + apply strong_var_of, IH.
Qed.

Theorem enc_strong : forall t, wf_type t -> forall o, strong (wt t) (enc t o) (cmp_field t o).
Proof.
  apply (ftype_kind_ind (fun t => forall o, strong (wt t) (enc t o) (cmp_field t o))).
  - intros A t w C P e c f L. exact (fixed_strong t w C P e c f L).
  - exact var_strong.
  - intros fs IH o. now apply struct_strong.
  - intros c Wc IH o. now apply list_strong.
  - intros c n _ IH o. now apply fsl_strong.
  - intros c Wc IH o. now apply ree_strong.
Qed.
