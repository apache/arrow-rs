(* C17 — Avro codec, what stands below the schema induction of C17_Avro.v: four groups on four subjects, in this
   order (the second takes only the length and value of le_bytes from the first, the fourth only iter_items from the
   third).  (1) take / take_z and the fixed-width little-endian numbers.  (2) Sign bytes and two's
   complement: sign_fit and minimal_twos on big-endian bytes, as far as the two decimal round trips need.  (3) The
   counted loop iter_n as the standard library's binary iteration.  (4) Block framing of arrays and maps: one header,
   one block, every division of the items into blocks, the division the writer makes.  The few general facts (repeat
   and forallb, a two's complement wrap, lengths under concat) stand in the group that uses them. *)
From Coq Require Import List NArith ZArith Lia Bool.
From AV Require Import Base.ListX Base.Bytes Model.C17_Avro Proofs.C17_Varint.
Import ListNotations.
Local Open Scope N_scope.

(* (1) take, take_z, little-endian numbers of n bytes *)
Lemma take_len n h r : length h = n -> take n (h ++ r) = Some (h, r).
Proof. intros <-. induction h as [|b h IH]; [reflexivity|]. cbn [length app take]. now rewrite IH. Qed.

Lemma take_z_app h r : take_z (Z.of_nat (length h)) (h ++ r) = Some (h, r).
Proof.
  unfold take_z. destruct (Z.ltb_spec (Z.of_nat (length h)) 0) as [?|_]; [lia|].
  rewrite app_length. destruct (Z.ltb_spec (Z.of_nat (length h + length r)) (Z.of_nat (length h))) as [?|_]; [lia|].
  rewrite Nat2Z.id. now apply take_len.
Qed.

Lemma get_bytes_write l rest : len_ok l -> get_bytes (write_len_prefixed l ++ rest) = Some (l, rest).
Proof.
  intros Hl. unfold get_bytes, write_len_prefixed. rewrite <- app_assoc.
  rewrite get_long_write by (unfold len_ok in Hl; lia). apply take_z_app.
Qed.

(* le_bytes and le_value are Bytes.digits and Bytes.le_val, by computation *)
Lemma le_bytes_length n x : length (le_bytes n x) = n.
Proof. exact (digits_length n x). Qed.
Lemma le_value_le_bytes n x : le_value (le_bytes n x) = x mod 2^(8 * N.of_nat n).
Proof. exact (le_val_digits n x). Qed.

Lemma le_value_small n x : x < 2^(8 * N.of_nat n) -> le_value (le_bytes n x) = x.
Proof. intros H. rewrite le_value_le_bytes. now apply N.mod_small. Qed.

Lemma take_le_bytes n x rest : take n (le_bytes n x ++ rest) = Some (le_bytes n x, rest).
Proof. apply take_len, le_bytes_length. Qed.

(* (2) byte_sign b is the sign byte (0 or 255) that goes with a leading byte b; the model's sign_byte_of is byte_sign
   of the head *)
Definition byte_sign (b : N) : N := if N.land b 128 =? 0 then 0 else 255.

Lemma byte_sign_values b : byte_sign b = 0 \/ byte_sign b = 255.
Proof. unfold byte_sign. destruct (N.land b 128 =? 0); auto. Qed.

Lemma byte_sign_idem b : byte_sign (byte_sign b) = byte_sign b.
Proof. now destruct (byte_sign_values b) as [-> | ->]. Qed.

Lemma land_128 x : N.land x 128 = if N.testbit x 7 then 128 else 0.
Proof.
  apply N.bits_inj. intros i. rewrite N.land_spec. change 128 with (2^7). rewrite N.pow2_bits_eqb.
  destruct (N.eqb_spec 7 i) as [<-|Hne].
  - rewrite andb_true_r. destruct (N.testbit x 7); [now rewrite N.pow2_bits_true|reflexivity].
  - rewrite andb_false_r. destruct (N.testbit x 7); [now rewrite N.pow2_bits_false|now rewrite N.bits_0].
Qed.

(* bit 7 of b xor sb is clear exactly when sb is the sign byte of b *)
Lemma byte_sign_iff b sb : sb = 0 \/ sb = 255 -> N.land (N.lxor b sb) 128 = 0 <-> byte_sign b = sb.
Proof.
  intros Hsb. unfold byte_sign. rewrite !land_128, N.lxor_spec.
  destruct (N.testbit b 7), Hsb as [->| ->]; cbn; split; intros H; try reflexivity; discriminate H.
Qed.

Lemma byte_sign_agrees b : N.land (N.lxor b (byte_sign b)) 128 = 0.
Proof. now apply byte_sign_iff; [apply byte_sign_values|]. Qed.

Lemma sign_byte_of_cons b l : sign_byte_of (b :: l) = byte_sign b.
Proof. reflexivity. Qed.

Lemma sign_byte_values l : sign_byte_of l = 0 \/ sign_byte_of l = 255.
Proof. destruct l as [|b l]; [left; reflexivity|apply byte_sign_values]. Qed.

Lemma count_lead_le sb l : (count_lead sb l <= length l)%nat.
Proof. induction l as [|b l IH]; cbn [count_lead length]; [lia|]. destruct (b =? sb); lia. Qed.

Lemma count_lead_firstn sb l d : (d <= count_lead sb l)%nat -> firstn d l = repeat sb d.
Proof.
  revert d. induction l as [|b l IH]; intros d Hd; cbn [count_lead] in Hd.
  - assert (d = 0)%nat by lia. subst d. reflexivity.
  - destruct d as [|d]; [reflexivity|]. destruct (N.eqb_spec b sb) as [->|?]; [|lia].
    cbn [firstn repeat]. f_equal. apply IH. lia.
Qed.

Lemma count_lead_nth sb l : (count_lead sb l < length l)%nat -> nth (count_lead sb l) l 0 <> sb.
Proof.
  induction l as [|b l IH]; cbn [count_lead length]; [lia|].
  destruct (N.eqb_spec b sb) as [->|Hne]; intros H.
  - cbn [nth]. apply IH. lia.
  - cbn [nth]. exact Hne.
Qed.

Lemma forallb_eq_repeat sb l : forallb (fun b => b =? sb) l = true -> l = repeat sb (length l).
Proof.
  induction l as [|b l IH]; [reflexivity|]. cbn [forallb length repeat]. intros H.
  apply andb_true_iff in H. destruct H as [Hb Hl]. apply N.eqb_eq in Hb. subst b. f_equal. now apply IH.
Qed.

Lemma forallb_repeat sb n : forallb (fun b => b =? sb) (repeat sb n) = true.
Proof. induction n as [|n IH]; [reflexivity|]. cbn [repeat forallb]. now rewrite N.eqb_refl, IH. Qed.

Lemma nth_repeat_lt sb n i : (i < n)%nat -> nth i (repeat sb n) 0 = sb.
Proof. revert i. induction n as [|n IH]; intros i H; [lia|]. destruct i as [|i]; [reflexivity|]. cbn [repeat nth]. apply IH. lia. Qed.

(* the first d bytes of B repeat its sign byte and byte d still shows the sign: they are redundant *)
Definition droppable (B : list N) (d : nat) : Prop :=
  (d < length B)%nat /\ firstn d B = repeat (sign_byte_of B) d /\ N.land (N.lxor (nth d B 0) (sign_byte_of B)) 128 = 0.

Lemma sign_fit_skip B d : droppable B d -> sign_fit (length B) (skipn d B) = Some B.
Proof.
  intros (Hd & Hf & Hs). unfold sign_fit. rewrite skipn_length.
  destruct d as [|d']; [now rewrite Nat.sub_0_r, Nat.eqb_refl|]. set (d := S d') in *.
  rewrite (proj2 (Nat.eqb_neq _ _)), (proj2 (Nat.ltb_ge _ _)) by lia.
  replace (length B - (length B - d))%nat with d by lia.
  rewrite (skipn_nth_cons d B 0 Hd) at 1.
  rewrite sign_byte_of_cons, (proj1 (byte_sign_iff _ _ (sign_byte_values B)) Hs), <- Hf. now rewrite firstn_skipn.
Qed.

Lemma minimal_twos_skip B : B <> [] -> exists d, droppable B d /\ minimal_twos B = skipn d B.
Proof.
  intros Hne. destruct B as [|b0 B']; [contradiction|].
  cbv beta iota zeta delta [minimal_twos]. set (B := b0 :: B') in *.
  set (sb := sign_byte_of B). set (k := count_lead sb B).
  assert (Hk : (k <= length B)%nat) by apply count_lead_le.
  assert (Hlen : (0 < length B)%nat) by (cbn [B length]; lia).
  assert (Hnth : forall j, (j < k)%nat -> nth j B 0 = sb).
  { intros j Hj. rewrite <- (firstn_skipn k B), app_nth1, (count_lead_firstn sb B k (le_n _)) by (rewrite firstn_length; lia).
    now apply nth_repeat_lt. }
  (* a run of sign bytes may go only as far as the next byte still shows the sign *)
  assert (Hrun : forall d, (d < length B)%nat -> (d <= k)%nat -> ((d < k)%nat \/ N.land (N.lxor (nth d B 0) sb) 128 = 0) -> droppable B d).
  { intros d Hd Hdk Hs. split; [exact Hd|]. split; [now apply count_lead_firstn|].
    destruct Hs as [Hs|Hs]; [|exact Hs]. now rewrite Hnth, N.lxor_nilpotent. }
  destruct (Nat.eqb_spec k 0) as [Hk0|Hk0]; [|destruct (Nat.eqb_spec k (length B)) as [Hkl|Hkl]].
  - exists 0%nat. split; [|reflexivity]. apply Hrun; try lia. right. apply byte_sign_agrees.
  - exists (length B - 1)%nat. split; [|reflexivity]. apply Hrun; lia.
  - destruct (N.eqb_spec (N.land (N.lxor (nth k B 0) sb) 128) 0) as [Hz|Hz].
    + exists k. split; [|reflexivity]. apply Hrun; lia.
    + exists (k - 1)%nat. split; [|reflexivity]. apply Hrun; lia.
Qed.

Lemma minimal_twos_le B : (length (minimal_twos B) <= length B)%nat.
Proof.
  destruct B as [|b B]; [reflexivity|]. destruct (minimal_twos_skip (b :: B)) as (d & _ & ->); [discriminate|].
  rewrite skipn_length. lia.
Qed.

Lemma sign_fit_length n src l : sign_fit n src = Some l -> length l = n.
Proof.
  unfold sign_fit. destruct (Nat.eqb_spec (length src) n) as [He|He]; [intros [= <-]; exact He|].
  destruct (Nat.ltb_spec n (length src)) as [Hlt|Hge].
  - destruct (forallb _ _); [|discriminate].
    destruct (Nat.eqb_spec n 0) as [->|?]; [intros [= <-]; reflexivity|].
    destruct (N.land _ 128 =? 0); [|discriminate]. intros [= <-]. rewrite skipn_length. lia.
  - intros [= <-]. rewrite app_length, repeat_length. lia.
Qed.

(* what the writer fitted into n bytes, the reader extends / truncates back to the w bytes it came from *)
Lemma sign_fit_back B n R : (0 < length B)%nat -> (0 < n)%nat ->
  sign_fit n B = Some R -> sign_fit (length B) R = Some B.
Proof.
  intros Hw Hn. unfold sign_fit at 1.
  destruct (Nat.eqb_spec (length B) n) as [He|He].
  - intros [= <-]. unfold sign_fit. now rewrite Nat.eqb_refl.
  - destruct (Nat.ltb_spec n (length B)) as [Hlt|Hge].
    + (* truncated: the bytes dropped were redundant *)
      destruct (forallb (fun b => b =? sign_byte_of B) (firstn (length B - n) B)) eqn:Hall; [|discriminate].
      rewrite (proj2 (Nat.eqb_neq n 0)) by lia.
      destruct (N.eqb_spec (N.land (N.lxor (nth (length B - n) B 0) (sign_byte_of B)) 128) 0) as [Hz|?]; [|discriminate].
      intros [= <-]. apply sign_fit_skip. split; [lia|]. split; [|exact Hz].
      apply forallb_eq_repeat in Hall. now rewrite firstn_length_le in Hall by lia.
    + (* extended by e sign bytes: they are dropped again *)
      intros [= <-]. set (sb := sign_byte_of B). set (e := (n - length B)%nat).
      assert (He0 : (0 < e)%nat) by (unfold e; lia).
      destruct B as [|b0 B']; [cbn [length] in Hw; lia|]. set (B := b0 :: B') in *.
      assert (Hsb' : sign_byte_of (repeat sb e ++ B) = sb).
      { destruct e as [|e']; [lia|]. cbn [repeat app]. rewrite sign_byte_of_cons.
        apply byte_sign_idem. }
      unfold sign_fit. rewrite app_length, repeat_length, Hsb'.
      rewrite (proj2 (Nat.eqb_neq _ _)), (proj2 (Nat.ltb_lt _ _)) by lia.
      replace (e + length B - length B)%nat with e by lia.
      rewrite firstn_app, skipn_app, app_nth2, repeat_length, Nat.sub_diag by (rewrite repeat_length; lia).
      rewrite firstn_all2, skipn_all2 by (rewrite repeat_length; lia). cbn [firstn skipn app nth B].
      rewrite app_nil_r, forallb_repeat, (proj2 (Nat.eqb_neq _ 0)) by (cbn [length]; lia).
      unfold sb, B. now rewrite sign_byte_of_cons, byte_sign_agrees.
Qed.

Lemma be_bytes_length w v : length (be_bytes w v) = w.
Proof. unfold be_bytes. now rewrite rev_length, le_bytes_length. Qed.

Lemma signed_wrap P v : (0 < P)%Z -> (- P <= v < P)%Z ->
  (let u := v mod (2 * P) in if P <=? u then u - 2 * P else u)%Z = v.
Proof.
  intros HP Hv. cbv zeta. destruct (Z.lt_ge_cases v 0) as [Hn|Hp].
  - replace (v mod (2 * P))%Z with (v + 2 * P)%Z by (apply Z.mod_unique with (q := (-1)%Z); lia).
    destruct (Z.leb_spec P (v + 2 * P)); lia.
  - rewrite Z.mod_small by lia. destruct (Z.leb_spec P v); lia.
Qed.

Lemma from_be_be_bytes w v : (0 < w)%nat ->
  (- 2^(8 * Z.of_nat w - 1) <= v < 2^(8 * Z.of_nat w - 1))%Z -> from_be (be_bytes w v) = v.
Proof.
  intros Hw Hv. unfold from_be. rewrite be_bytes_length.
  unfold be_value, be_bytes. rewrite rev_involutive, le_value_le_bytes.
  set (bits := (8 * Z.of_nat w)%Z) in *.
  assert (Hpow : (2^bits = 2 * 2^(bits - 1))%Z) by (rewrite <- Z.pow_succ_r by lia; f_equal; lia).
  assert (Hpos : (0 < 2^(bits - 1))%Z) by (apply Z.pow_pos_nonneg; lia).
  assert (Hm : (0 <= v mod 2^bits < 2^bits)%Z) by (apply Z.mod_pos_bound; lia).
  replace (2^(8 * N.of_nat w)) with (Z.to_N (2^bits)) by (unfold bits; rewrite Z2N.inj_pow by lia; f_equal; lia).
  rewrite N.mod_small, Z2N.id by (try apply Z2N.inj_lt; lia).
  rewrite (proj2 (Z.eqb_neq bits 0)), Hpow by lia. now apply signed_wrap.
Qed.

(* (3) the counted loop with early exit is the standard library's binary iteration of the step lifted to option, so
   what is known of Pos.iter / N.iter (iter_swap, iter_succ_r) is known of it *)
Definition obind {A} (f : A -> option A) (o : option A) : option A := match o with Some x => f x | None => None end.

Lemma iter_pos_iter {A} (f : A -> option A) p : forall o, obind (iter_pos p f) o = Pos.iter (obind f) o p.
Proof.
  induction p as [q IH|q IH|]; intros o; cbn [Pos.iter].
  - (* iter_pos steps first, Pos.iter last *)
    rewrite <- !Pos.iter_swap, <- !IH. destruct o as [x|]; [|reflexivity].
    cbn [obind iter_pos]. destruct (f x); reflexivity.
  - rewrite <- !IH. destruct o as [x|]; reflexivity.
  - destruct o; reflexivity.
Qed.

Lemma iter_n_iter {A} (f : A -> option A) n x : iter_n n f x = N.iter n (obind f) (Some x).
Proof. destruct n as [|p]; [reflexivity|]. exact (iter_pos_iter f p (Some x)). Qed.

Lemma iter_items {A} (item : list N -> option (A * list N)) (encA : A -> list N) blk : forall acc tail,
  (forall a r, In a blk -> item (encA a ++ r) = Some (a, r)) ->
  iter_n (N.of_nat (length blk)) (item_step item) (acc, concat (map encA blk) ++ tail) = Some (rev blk ++ acc, tail).
Proof.
  intros acc tail H. rewrite iter_n_iter. revert acc tail H.
  induction blk as [|a blk IH]; intros acc tail H; [reflexivity|].
  cbn [length map concat]. rewrite Nat2N.inj_succ, N.iter_succ_r. cbn [obind]. unfold item_step at 2. cbn [snd fst].
  rewrite <- app_assoc, H by (left; reflexivity).
  rewrite IH by (intros; apply H; right; assumption).
  cbn [rev]. now rewrite <- app_assoc.
Qed.

(* (4) the byte sizes written in the sized form must not wrap an i64 *)
Definition sized_len_ok (sized : bool) (l : list N) : Prop := sized = true -> (Z.of_nat (length l) < 2^63)%Z.

Lemma sized_len_ok_le sized (a b : list N) : (length a <= length b)%nat -> sized_len_ok sized b -> sized_len_ok sized a.
Proof. unfold sized_len_ok. intros H Hb Hs. specialize (Hb Hs). lia. Qed.

Lemma sized_len_ok_app_l sized a b : sized_len_ok sized (a ++ b) -> sized_len_ok sized a.
Proof. apply sized_len_ok_le. rewrite app_length. lia. Qed.
Lemma sized_len_ok_app_r sized a b : sized_len_ok sized (a ++ b) -> sized_len_ok sized b.
Proof. apply sized_len_ok_le. rewrite app_length. lia. Qed.

Lemma in_concat_le {A} (x : list A) l : In x l -> (length x <= length (concat l))%nat.
Proof.
  induction l as [|y l IH]; [contradiction|]. cbn [concat]. rewrite app_length. intros [->|H]; [lia|]. specialize (IH H). lia.
Qed.

(* the item count and the header that the model's enc_blocks computes inline for its first block; enc_blocks_map
   below is the equation that says so *)
Definition block_len (bk len : nat) : nat := match bk with O => len | S _ => Nat.min bk len end.
Definition block_hdr (sized : bool) (m : nat) (body : list N) : list N :=
  if sized then write_long (- Z.of_nat m) ++ write_long (Z.of_nat (length body)) else write_long (Z.of_nat m).

Lemma block_len_bounds bk len : (0 < len)%nat -> (1 <= block_len bk len <= len)%nat.
Proof. unfold block_len. destruct bk; lia. Qed.

Lemma block_hdr_nonempty sized m body : (1 <= length (block_hdr sized m body))%nat.
Proof.
  assert (H : forall v l, (1 <= length (write_long v ++ l))%nat).
  { intros v l. pose proof (write_long_nonempty v). destruct (write_long v); [contradiction|cbn [app length]; lia]. }
  unfold block_hdr. destruct sized; [apply H|rewrite <- (app_nil_r (write_long _)); apply H].
Qed.

Section Blocks.
Context {A : Type}.
Variable item : list N -> option (A * list N).
Variable encA : A -> list N.
Variable bk : nat.
Variable sized : bool.

Lemma enc_blocks_nil n : enc_blocks n bk sized [] = [0].
Proof. destruct n; reflexivity. Qed.

(* 2147483647 is the model's max_items, i32::MAX: process_blockwise caps the running total of items at it *)
Lemma read_blocks_hdr f m body tail total acc :
  (1 <= m)%nat -> (0 <= total)%Z -> (total + Z.of_nat m <= 2147483647)%Z -> sized_len_ok sized body ->
  read_blocks (S f) item (block_hdr sized m body ++ tail) total acc =
  match iter_n (N.of_nat m) (item_step item) (acc, tail) with
  | None => None
  | Some (acc', r2) => read_blocks f item r2 (total + Z.of_nat m)%Z acc'
  end.
Proof.
  intros Hm Ht0 Htot Hbody. cbn [read_blocks].
  (* the count read first is m, or - m followed by the byte size of the block *)
  assert (H : exists c r1, get_long (block_hdr sized m body ++ tail) = Some (c, r1) /\ Z.abs c = Z.of_nat m /\
            (if (c <? 0)%Z then match get_long r1 with Some (sz, r') => if (sz <? 0)%Z then None else Some r' | None => None end
             else Some r1) = Some tail).
  { unfold block_hdr. destruct sized.
    - exists (- Z.of_nat m)%Z, (write_long (Z.of_nat (length body)) ++ tail).
      rewrite <- app_assoc, !get_long_write by (try specialize (Hbody eq_refl); lia).
      rewrite (proj2 (Z.ltb_lt (- Z.of_nat m) 0)), (proj2 (Z.ltb_ge (Z.of_nat (length body)) 0)) by lia. repeat split. lia.
    - exists (Z.of_nat m), tail. rewrite get_long_write, (proj2 (Z.ltb_ge (Z.of_nat m) 0)) by lia. repeat split. lia. }
  destruct H as (c & r1 & -> & Habs & ->).
  rewrite (proj2 (Z.eqb_neq c 0)), Habs, (proj2 (Z.ltb_ge 2147483647 _)) by lia. now rewrite <- nat_N_Z, N2Z.id.
Qed.

Lemma read_block f blk tail total acc :
  (forall a r, In a blk -> sized_len_ok sized (encA a) -> item (encA a ++ r) = Some (a, r)) -> (1 <= length blk)%nat ->
  (0 <= total)%Z -> (total + Z.of_nat (length blk) <= 2147483647)%Z -> sized_len_ok sized (concat (map encA blk)) ->
  read_blocks (S f) item (block_hdr sized (length blk) (concat (map encA blk)) ++ concat (map encA blk) ++ tail) total acc
  = read_blocks f item tail (total + Z.of_nat (length blk)) (rev blk ++ acc).
Proof.
  intros Hitem Hne Ht0 Htot Hfit. rewrite read_blocks_hdr, iter_items; auto.
  intros a r Hin. apply Hitem; [exact Hin|]. eapply sized_len_ok_le; [|exact Hfit]. now apply in_concat_le, in_map.
Qed.

Lemma enc_blocks_map n (l : list A) m : l <> [] -> m = block_len bk (length l) ->
  enc_blocks (S n) bk sized (map encA l) =
  block_hdr sized m (concat (map encA (firstn m l))) ++ concat (map encA (firstn m l)) ++ enc_blocks n bk sized (map encA (skipn m l)).
Proof.
  intros Hne ->. destruct l as [|a l]; [contradiction|].
  rewrite <- firstn_map, <- skipn_map, <- (map_length encA). reflexivity.
Qed.

Fixpoint enc_chunks (bs : list (list A)) : list N :=
  match bs with
  | [] => [0]
  | blk :: bs' => block_hdr sized (length blk) (concat (map encA blk)) ++ concat (map encA blk) ++ enc_chunks bs'
  end.

(* the reader accepts every division of the items into non-empty blocks, not only the writer's.  The fuel decode
   hands over is the input length + 1, and that is enough: every block, even one of items with empty encodings,
   spends at least its header (block_hdr_nonempty) *)
Lemma read_chunks : forall bs rest total acc fuel,
  Forall (fun blk => blk <> []) bs ->
  (forall a r, In a (concat bs) -> sized_len_ok sized (encA a) -> item (encA a ++ r) = Some (a, r)) ->
  sized_len_ok sized (enc_chunks bs) ->
  (0 <= total)%Z -> (total + Z.of_nat (length (concat bs)) <= 2147483647)%Z ->
  (length (enc_chunks bs) <= fuel)%nat ->
  read_blocks fuel item (enc_chunks bs ++ rest) total acc = Some (rev acc ++ concat bs, rest).
Proof.
  induction bs as [|blk bs IH]; intros rest total acc fuel Hne Hitem Hsz Ht0 Htot Hfuel.
  - cbn [concat]. rewrite app_nil_r. destruct fuel; [cbn [enc_chunks length] in Hfuel; lia|reflexivity].
  - inversion Hne as [|? ? Hblk Hne']; subst.
    cbn [enc_chunks concat] in *. rewrite app_length in Htot.
    pose proof (block_hdr_nonempty sized (length blk) (concat (map encA blk))) as Hhdr.
    rewrite !app_length in Hfuel. destruct fuel as [|f]; [lia|].
    assert (Hlen : (1 <= length blk)%nat) by (destruct blk; [contradiction|cbn [length]; lia]).
    rewrite <- !app_assoc, (read_block f blk _ total acc (fun a r Hin => Hitem a r (in_or_app _ _ a (or_introl Hin))) Hlen Ht0
                               ltac:(lia) (sized_len_ok_app_l _ _ _ (sized_len_ok_app_r _ _ _ Hsz))).
    rewrite (IH rest _ _ f Hne' (fun a r Hin => Hitem a r (in_or_app _ _ a (or_intror Hin)))
               (sized_len_ok_app_r _ _ _ (sized_len_ok_app_r _ _ _ Hsz))) by lia.
    now rewrite rev_app_distr, rev_involutive, <- app_assoc.
Qed.

(* what the writer does: some division into non-empty blocks *)
Lemma enc_blocks_chunks : forall n l, (length l <= n)%nat ->
  exists bs, concat bs = l /\ Forall (fun blk => blk <> []) bs /\ enc_blocks n bk sized (map encA l) = enc_chunks bs.
Proof.
  induction n as [|n IH]; intros l Hn;
    (destruct l as [|a0 l0]; [exists []; split; [reflexivity|split; [constructor|apply enc_blocks_nil]]|]).
  - cbn [length] in Hn. lia.
  - set (l := a0 :: l0) in *. remember (block_len bk (length l)) as m eqn:Em.
    assert (Hm : (1 <= m <= length l)%nat) by (subst m; apply block_len_bounds; cbn [l length]; lia).
    destruct (IH (skipn m l)) as (bs & Hcat & Hne & He); [rewrite skipn_length; lia|].
    assert (Hblk : length (firstn m l) = m) by (apply firstn_length_le; lia).
    exists (firstn m l :: bs). split; [|split].
    + cbn [concat]. rewrite Hcat. apply firstn_skipn.
    + constructor; [|exact Hne]. intros E. rewrite E in Hblk. cbn [length] in Hblk. lia.
    + rewrite (enc_blocks_map n l m ltac:(discriminate) Em), He. cbn [enc_chunks]. now rewrite Hblk.
Qed.

(* an array or map body as decode meets it: all blocks, fuel from the input length *)
Lemma read_blocks_blocks l rest :
  sized_len_ok sized (blocks bk sized (map encA l)) -> (Z.of_nat (length l) <= max_items)%Z ->
  (forall a r, In a l -> sized_len_ok sized (encA a) -> item (encA a ++ r) = Some (a, r)) ->
  read_blocks (S (length (blocks bk sized (map encA l) ++ rest))) item (blocks bk sized (map encA l) ++ rest) 0 [] = Some (l, rest).
Proof.
  unfold blocks, max_items. rewrite map_length. intros Hfit Hlen Hitem.
  destruct (enc_blocks_chunks (length l) l (le_n _)) as (bs & <- & Hne & E). rewrite E in *.
  apply (read_chunks bs rest 0 []); auto; try lia. rewrite app_length. lia.
Qed.
End Blocks.

