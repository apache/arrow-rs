(* C03 — dictionary garbage collection keeps every row. *)
From Coq Require Import List ZArith Lia.
From AV Require Import Base.ListX Model.C03_Select Proofs.C19_Runs Proofs.C03_Filter.
Import ListNotations.

(* no range hypothesis: past the end both sides are None *)
Lemma get_of_nat {T} (vs : list T) k : get vs (Z.of_nat k) = nth_error vs k.
Proof.
  unfold get, out_of_range. destruct (Z.ltb_spec (Z.of_nat k) 0); [lia|]. cbn [orb].
  destruct (Z.leb_spec (Z.of_nat (length vs)) (Z.of_nat k)); [symmetry; apply nth_error_None; lia|now rewrite Nat2Z.id].
Qed.

(* rank / select: the k-th value survives at position (number of kept values before k) *)
Lemma rank_select {T} (values : list T) : forall mask k, length mask = length values ->
  nth k mask false = true ->
  nth_error (bfilter values mask) (count_true (firstn k mask)) = nth_error values k.
Proof.
  induction values as [|v values IH]; intros [|b mask] k Hl Hk; cbn in Hl; try discriminate.
  - destruct k; discriminate.
  - destruct k as [|k]; cbn in Hk.
    + subst b. reflexivity.
    + cbn [firstn bfilter]. rewrite count_true_cons. destruct b; cbn [nth_error Nat.add]; apply IH; auto; lia.
Qed.

Lemma nth_error_map_seq {X} (g : nat -> X) n k : k < n -> nth_error (map g (seq 0 n)) k = Some (g k).
Proof.
  intros H. rewrite nth_error_map. assert (E : nth_error (seq 0 n) k = Some k).
  { rewrite (nth_error_nth' (seq 0 n) 0) by (rewrite seq_length; exact H). now rewrite seq_nth. }
  now rewrite E.
Qed.

Definition keys_in_range (keys : pcol Z) (nvalues : nat) : Prop :=
  Forall (fun k => match k with Some i => (0 <= i < Z.of_nat nvalues)%Z | None => True end) (logical keys).

Lemma occupancy_nth keys nvalues i : In (Some i) (logical keys) -> (0 <= i < Z.of_nat nvalues)%Z ->
  nth (Z.to_nat i) (occupancy keys nvalues) false = true.
Proof.
  intros Hin Hr. unfold occupancy. rewrite nth_map_seq by lia. cbn [Nat.add].
  apply existsb_exists. exists (Some i). split; [exact Hin|]. apply Z.eqb_eq. lia.
Qed.

(* [keys_in_range]: a valid key past the values reads as a null row before gc, but the [None => 0] default of the remap
   would make it entry 0 afterwards *)
Lemma gc_M_spec {T} (keys : pcol Z) (values : list T) : keys_in_range keys (length values) ->
  dict_logical (fst (gc_M keys values)) (snd (gc_M keys values)) = dict_logical keys values.
Proof.
  intros Hr. unfold gc_M.
  set (mask := occupancy keys (length values)).
  destruct (count_true mask =? length values); [reflexivity|]. cbn [fst snd].
  unfold dict_logical. destruct keys as [kv n]. cbn [fst snd].
  rewrite logical_map, map_map.
  apply map_ext_in. intros [i|] Hin; cbn [option_map]; [|reflexivity].
  assert (Hi : (0 <= i < Z.of_nat (length values))%Z).
  { unfold keys_in_range in Hr. rewrite Forall_forall in Hr. exact (Hr _ Hin). }
  assert (Hm : length mask = length values) by (unfold mask, occupancy; now rewrite map_length, seq_length).
  assert (Hocc : nth (Z.to_nat i) mask false = true) by (apply occupancy_nth; assumption).
  rewrite <- (Z2Nat.id i) by lia. rewrite !get_of_nat.
  unfold key_remap. rewrite nth_error_map_seq, Hocc, get_of_nat, filter_spec_bfilter, map_sel_some by lia.
  now apply rank_select.
Qed.

Lemma gc_M_values_count {T} (keys : pcol Z) (values : list T) :
  length (snd (gc_M keys values)) = count_true (occupancy keys (length values)).
Proof.
  unfold gc_M. destruct (Nat.eqb_spec (count_true (occupancy keys (length values))) (length values)) as [E|N]; cbn [snd].
  - now rewrite E.
  - rewrite filter_spec_bfilter, map_sel_some. apply bfilter_length_count. unfold occupancy. now rewrite map_length, seq_length.
Qed.
