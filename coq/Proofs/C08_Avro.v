(* C08 — Avro.  VLQDecoder::long walks the shift grid 0, 7, ..., 63: from that, no shift of 64 and at most ten bytes; from
   that, every OCF block consumes input and the reader loop outlives its fuel.  The read_varint paths are each the
   run of Base.Leb128 from the group they start at. *)
From Coq Require Import List NArith ZArith Lia.
From AV Require Import Base.Bits Base.Bytes Base.Leb128 Model.C08_Avro Proofs.C08_Vlq.
Import ListNotations.
Local Open Scope N_scope.

(* The shift counter only takes the values 0, 7, ..., 63, so the `<<` never overflows (no debug-build panic); the
   guard at 63 ends the varint at the tenth byte at the latest. *)
Lemma vlq_long_inv : forall bs acc k, (k <= 9)%nat ->
  match vlq_long bs acc (leb_shift k) with
  | VVal _ r => (length r < length bs /\ length bs - length r <= 10 - k)%nat
  | VPanic => False
  | _ => True
  end.
Proof.
  induction bs as [|b t IH]; intros acc k Hk; cbn [vlq_long]; [exact I|].
  replace (64 <=? leb_shift k) with false by (symmetry; apply N.leb_gt; unfold leb_shift; lia).
  rewrite leb_shift_63. destruct (Nat.eqb_spec k 9) as [E|E]; cbn [andb].
  - (* the tenth byte *)
    destruct (N.leb_spec 2 b) as [Hb|Hb]; [exact I|].
    destruct (N.ltb_spec b 128); cbn [length]; lia.
  - destruct (b <? 128); [cbn [length]; lia|]. rewrite <- leb_shift_S.
    assert (HS : (S k <= 9)%nat) by lia. apply (IH (N.lor acc (N.shiftl (N.land b 127) (leb_shift k) mod 2^64))) in HS.
    destruct (vlq_long t _ _); cbn [length]; [lia|exact I|exact I|exact HS].
Qed.

Lemma vlq_long_bounded bs : vlq_long bs 0 0 <> VPanic /\
  forall z r, vlq_long bs 0 0 = VVal z r -> (length r < length bs /\ length bs - length r <= 10)%nat.
Proof.
  pose proof (vlq_long_inv bs 0 0 (Nat.le_0_l 9)) as H. change (leb_shift 0) with 0 in H.
  split; [intros E|intros z r E]; rewrite E in H; [exact H|lia].
Qed.

(* 18 = two varints of at least one byte each and the 16-byte sync marker *)
Lemma decode_block_inv bs :
  match decode_block bs with
  | BBlock _ d s rest => (length rest + length d + 18 <= length bs)%nat /\ length s = 16%nat
  | BPanic => False
  | _ => True
  end.
Proof.
  unfold decode_block. destruct (vlq_long_bounded bs) as [P1 L1].
  destruct (vlq_long bs 0 0) as [cz r1| | |]; try exact I; [|exact (P1 eq_refl)].
  specialize (L1 cz r1 eq_refl). destruct (cz <? 0)%Z; [exact I|].
  destruct (vlq_long_bounded r1) as [P2 L2].
  destruct (vlq_long r1 0 0) as [sz r2| | |]; try exact I; [|exact (P2 eq_refl)].
  specialize (L2 sz r2 eq_refl). destruct (sz <? 0)%Z; [exact I|].
  destruct (N.ltb_spec (N.of_nat (length r2)) (Z.to_N sz + 16)) as [Hl|Hl]; [exact I|].
  cbv zeta. rewrite !firstn_length, !skipn_length. lia.
Qed.

(* every block consumes input, so the input-length fuel is never exhausted; nothing panics *)
Lemma read_blocks_total : forall f sync bs acc, (length bs < f)%nat ->
  match read_blocks f sync bs acc with ROk _ | RErr | RHang => True | _ => False end.
Proof.
  induction f as [|f IH]; intros sync bs acc Hl; [lia|]. cbn [read_blocks].
  destruct bs as [|b0 t]; [exact I|].
  pose proof (decode_block_inv (b0 :: t)) as Hb.
  destruct (decode_block (b0 :: t)) as [c d s rest| | |]; try exact I; [|exact Hb].
  destruct Hb as [Hb _]. assert (Hr : (length rest < f)%nat) by (cbn [length] in *; lia).
  destruct (negb _); [exact I|].
  destruct d as [|d0 dt]; [apply IH, Hr|].
  destruct (c =? 0); [exact I|]. destruct (_ <? c); [exact I|].
  destruct (decode_longs _ _ _) as [[vals [|x l]]|]; try exact I. apply IH, Hr.
Qed.

(* The reader loop makes progress on every input?  Refuted: a block that declares 0 records but 1 byte of data
   (count 0, size 1, one data byte, sync marker) parks Reader::read in `while !finished` forever. *)
Definition sync0 : list N := repeat 7 16.
Lemma avro_reader_progress_refuted :
  exists bs, read_blocks (S (length bs)) sync0 bs [] = RHang.
Proof. exists ([0; 2; 5] ++ sync0). vm_compute. reflexivity. Qed.

(* vlq::read_varint is transcribed three times, here with its count in N (in C14_Avro in nat, in C17_Avro handing
   back the rest); nothing of the three is convertible, so Proofs/C14_Avro.v and Proofs/C17_Varint.v repeat the
   three lemmas below for their transcriptions. *)

(* The slow path from group k on, with the 10 - k bytes it may still inspect.  Its test for the tenth byte sits in
   the last-byte branch; a continuation byte in tenth place runs out of bytes to inspect instead. *)
Lemma slow_run : forall bs k a, leb_inv true k a ->
  varint_slow_loop (10 - k) (N.of_nat k) bs a = value_countN (leb_run true bs k a).
Proof.
  apply (leb_run_reads_any true (fun o x => x = value_countN o)
           (fun k a bs => varint_slow_loop (10 - k) (N.of_nat k) bs a)).
  - (* the input ends *)
    intros k a _. destruct (10 - k)%nat; reflexivity.
  - (* one byte *)
    intros k a b r [Ha Hk]. specialize (Hk eq_refl). replace (10 - k)%nat with (S (10 - S k)) by lia.
    cbn [varint_slow_loop]. cbv zeta.
    rewrite land_127, (N.mul_comm (N.of_nat k)), (lor_shift_add a _ _ Ha), leb_127, of_nat_9.
    replace (N.of_nat k + 1) with (N.of_nat (S k)) by lia. unfold over_limit. cbn [andb]. rewrite N.leb_antisym.
    destruct (Nat.eqb_spec k 9) as [->|H9]; cbn [negb orb andb]; [|destruct (b <? 128); reflexivity].
    (* the tenth byte *)
    destruct (N.ltb_spec b 2); cbn [negb]; [now rewrite (proj2 (N.ltb_lt b 128)) by lia|]. destruct (b <? 128); reflexivity.
Qed.

(* read_varint_array from group k on: 9 - k bytes in the loop, then the tenth *)
Definition array_read (k : nat) (a : N) (bs : list N) : option (N * N) :=
  match varint_array_loop (9 - k) (N.of_nat k) bs a with
  | inl r => r
  | inr acc => let b := nth (9 - k) bs 0 in if b <? 2 then Some (acc + N.shiftl b 63, 10) else None
  end.

Lemma read_varint_array_read bs : read_varint_array bs = array_read 0 0 bs.
Proof. reflexivity. Qed.

Lemma array_run : forall bs k a, leb_inv true k a -> ten_present k bs ->
  array_read k a bs = value_countN (leb_run true bs k a).
Proof.
  apply (leb_run_reads true ten_present (fun o x => x = value_countN o) array_read ten_present_next).
  - (* the input ends: not with ten bytes in hand *)
    intros k a [_ Hk] [_ Hl]. specialize (Hk eq_refl). cbn [length] in Hl. lia.
  - (* one byte *)
    intros k a b r [Ha Hk] [Hb _]. apply head_wf_hd in Hb. specialize (Hk eq_refl). unfold array_read, over_limit.
    cbn [andb]. destruct (Nat.eqb_spec k 9) as [->|H9]; cbn [andb].
    + (* the tenth byte, after the loop: only 0 and 1 are accepted *)
      cbn [Nat.sub varint_array_loop nth]. cbv zeta. rewrite N.leb_antisym, N.shiftl_mul_pow2.
      destruct (N.ltb_spec b 2) as [H2|H2]; cbn [negb]; [|reflexivity].
      now rewrite (proj2 (N.ltb_lt b 128)), N.mod_small by lia.
    + replace (9 - k)%nat with (S (9 - S k)) by lia. cbn [varint_array_loop nth]. cbv zeta.
      rewrite (N.shiftl_mul_pow2 b), (N.shiftl_mul_pow2 128). fold (leb_shift k).
      replace (N.of_nat k + 1) with (N.of_nat (S k)) by lia.
      destruct (N.ltb_spec b 128) as [Hlt|Hge]; [now rewrite N.mod_small|]. now rewrite cont_sub.
Qed.

(* whichever path is taken *)
Theorem read_varint_run bs : wf_bytes bs -> read_varint bs = value_countN (leb_run true bs 0 0).
Proof.
  intros Hw. destruct bs as [|b t]; [reflexivity|]. unfold read_varint. destruct (N.ltb_spec b 128) as [Hb|Hb].
  - (* one byte *)
    cbn [leb_run over_limit Nat.eqb andb]. cbv zeta. now rewrite (proj2 (N.ltb_lt b 128) Hb), N.mod_small, N.mul_1_r.
  - destruct (Nat.leb_spec 10 (length (b :: t))) as [Hl|Hl].
    + (* ten bytes in hand *)
      rewrite read_varint_array_read. apply (array_run _ 0 0 (leb_inv_0 true)). split; [apply head_wf_all, Hw|exact Hl].
    + exact (slow_run (b :: t) 0 0 (leb_inv_0 true)).
Qed.

Theorem read_varint_spec bs : wf_bytes bs ->
  read_varint bs = match varint_spec bs with
                   | Some (v, r) => Some (v, N.of_nat (length bs - length r))
                   | None => None end.
Proof.
  intros Hw. rewrite (read_varint_run bs Hw), varint_spec_run.
  destruct (leb_run true bs 0 0) as [| |v k r] eqn:E; try reflexivity. now destruct (leb_run_count _ _ _ _ _ _ _ E) as [-> _].
Qed.
