(* C12 — decimals.  Rows: the closure applied per row by decimal_op is exact-or-error at the common
   scale: Overflow iff a rescaled operand or the result does not fit the native type, DivideByZero
   iff the rescaled divisor is zero.  Kernel: the whole of decimal_op (result precision and scale
   through its saturating u8/i8 arithmetic, multiplier checks, rows with nulls and scalars,
   validation of the result type) equals its specification, under the stated bounds. *)
From Coq Require Import List ZArith Bool Lia.
From AV Require Import Model.C12_Int Model.C12_Kernel Model.C12_Decimal Proofs.C12_Int Proofs.C12_Kernel.
Local Open Scope Z_scope.

Section Width.
Variable H : Z.
Hypothesis Hpos : 0 < H.

Lemma fits_mul x m k : rbind (mul_checked true H x m) k = fits H (x * m) k.
Proof. rewrite (mul_checked_spec H Hpos). unfold fits. destruct (in_range true H (x * m)); reflexivity. Qed.

(* rescale-then-operate: the closure is only ever applied to rescaled operands that fit *)
Lemma rescaled_spec (k k' : Z -> Z -> res) x lm y rm :
  (in_range true H (x * lm) = true -> in_range true H (y * rm) = true ->
   k (x * lm) (y * rm) = k' (x * lm) (y * rm)) ->
  rbind (mul_checked true H x lm) (fun a => rbind (mul_checked true H y rm) (fun b => k a b))
  = fits H (x * lm) (fun a => fits H (y * rm) (fun b => k' a b)).
Proof.
  intros E. rewrite fits_mul. unfold fits at 1 2.
  destruct (in_range true H (x * lm)) eqn:Ra; [|reflexivity].
  rewrite fits_mul. unfold fits at 1 2.
  destruct (in_range true H (y * rm)) eqn:Rb; [|reflexivity]. now apply E.
Qed.
Lemma unscaled_spec (k : Z -> Z -> res) x y : in_range true H x = true -> in_range true H y = true ->
  k x y = fits H (x * 1) (fun a => fits H (y * 1) (fun b => k a b)).
Proof. intros Rx Ry. unfold fits. now rewrite !Z.mul_1_r, Rx, Ry. Qed.

Theorem decimal_row_exact op same lm rm x y :
  in_range true H x = true -> in_range true H y = true ->
  (same = true -> lm = 1 /\ rm = 1) -> (op = DMul -> lm = 1 /\ rm = 1) ->
  (op = DRem -> ~ (x * lm = - H /\ y * rm = -1)) ->
  decimal_row H op same lm rm x y = spec_decimal_row H op lm rm x y.
Proof.
  intros Rx Ry Hs Hm Hr. unfold decimal_row, spec_decimal_row.
  destruct op.
  - destruct same.
    + destruct (Hs eq_refl) as [-> ->]. rewrite <- (unscaled_spec (fun a b => fits H (a + b) Ok)) by assumption.
      apply (add_checked_spec H Hpos).
    + apply rescaled_spec. intros _ _. apply (add_checked_spec H Hpos).
  - destruct same.
    + destruct (Hs eq_refl) as [-> ->]. rewrite <- (unscaled_spec (fun a b => fits H (a - b) Ok)) by assumption.
      apply (sub_checked_spec H Hpos).
    + apply rescaled_spec. intros _ _. apply (sub_checked_spec H Hpos).
  - destruct (Hm eq_refl) as [-> ->]. rewrite <- (unscaled_spec (fun a b => fits H (a * b) Ok)) by assumption.
    apply (mul_checked_spec H Hpos).
  - apply rescaled_spec. intros Ra Rb. apply (div_checked_spec H Hpos true _ _ Ra Rb).
  - (* rem: mod_checked answers Overflow on (MIN, -1), excluded here for the rescaled operands *)
    apply rescaled_spec. intros _ _. rewrite mod_checked_spec. cbn [andb tmin].
    destruct (y * rm =? 0); [reflexivity|].
    destruct (Z.eqb_spec (x * lm) (- H)) as [E1|E1], (Z.eqb_spec (y * rm) (-1)) as [E2|E2]; try reflexivity.
    exfalso. apply (Hr eq_refl). auto.
Qed.

Lemma decimal_rows_in op same lm rm l_s r_s l r :
  wf l -> wf r -> (l_s = true -> arr_len l = 1%nat) -> (r_s = true -> arr_len r = 1%nat) ->
  vals_in_range H true l -> vals_in_range H true r ->
  (same = true -> lm = 1 /\ rm = 1) -> (op = DMul -> lm = 1 /\ rm = 1) ->
  (op = DRem -> forall x y, In x (a_vals l) -> In y (a_vals r) -> ~ (x * lm = - H /\ y * rm = -1)) ->
  canon (try_op (decimal_row H op same lm rm) l_s r_s l r)
  = spec_binary_kernel (spec_decimal_row H op lm rm) l_s r_s (denote l) (denote r).
Proof.
  intros Wl Wr Sl Sr Rl Rr Hs Hm Hr. rewrite try_op_spec by assumption.
  apply spec_binary_kernel_ext. intros x y Ix Iy. apply decimal_row_exact; auto.
  - exact (vals_in_range_In H true l x Rl Ix).
  - exact (vals_in_range_In H true r y Rr Iy).
Qed.

Theorem decimal_rows op same lm rm l_s r_s l r :
  wf l -> wf r -> (l_s = true -> arr_len l = 1%nat) -> (r_s = true -> arr_len r = 1%nat) ->
  vals_in_range H true l -> vals_in_range H true r ->
  (same = true -> lm = 1 /\ rm = 1) -> (op = DMul -> lm = 1 /\ rm = 1) ->
  (op = DRem -> forall x y, ~ (x * lm = - H /\ y * rm = -1)) ->
  canon (try_op (decimal_row H op same lm rm) l_s r_s l r)
  = spec_binary_kernel (spec_decimal_row H op lm rm) l_s r_s (denote l) (denote r).
Proof using Hpos. intros Wl Wr Sl Sr Rl Rr Hs Hm Hr. apply decimal_rows_in; auto. Qed.

End Width.

Definition dcanon (d : dres) : (list (option Z) * (Z * Z)) + Z :=
  match d with
  | DOk v n p s => inl (denote (mkarr v n), (p, s))
  | DErr k => inr k
  end.

Section Kernel.
Variable H : Z.
Hypothesis H2 : 2 <= H.
Variable m : Z.            (* MAX_PRECISION = MAX_SCALE *)
(* m <= 76 < 127 (76 is Decimal256): the i8/u8 saturations of the precision sums are absorbed by the cap
   at m, and with scales >= -40 (decimal_op_spec) the scale sums stay inside i8; 2 <= H makes the
   multiplier 1 representable *)
Hypothesis Hm : 1 <= m <= 76.

Lemma pow10_pos k : 0 < 10 ^ k \/ 10 ^ k = 0.
Proof. destruct (Z_lt_le_dec k 0); [right; now apply Z.pow_neg_r|left; apply Z.pow_pos_nonneg; lia]. Qed.

Lemma in_range_one : in_range true H 1 = true.
Proof. apply in_range_iff. unfold tmin, tmax. lia. Qed.

(* the saturating i8/u8 detours of the precision and scale arithmetic are harmless in range *)
Lemma sat_i8_id z : - 128 <= z <= 127 -> sat_i8 z = z.
Proof. unfold sat_i8. lia. Qed.
Lemma sat_u8_id z : 0 <= z <= 255 -> sat_u8 z = z.
Proof. unfold sat_u8. lia. Qed.
Lemma ltb_opp x : (x <? 0) = (0 <? - x).
Proof. destruct (Z.ltb_spec x 0), (Z.ltb_spec 0 (- x)); lia || reflexivity. Qed.
Lemma prec_cast z : 0 <= z -> Z.min (as_u8 (sat_i8 z)) m = Z.min z m.
Proof.
  intros Hz. unfold as_u8, sat_i8. rewrite Z.max_r by lia. rewrite Z.mod_small by lia. lia.
Qed.
Lemma prec_cast_succ z : 0 <= z -> Z.min (sat_u8 (as_u8 (sat_i8 z) + 1)) m = Z.min (z + 1) m.
Proof.
  intros Hz. unfold as_u8, sat_i8. rewrite Z.max_r by lia. rewrite Z.mod_small, sat_u8_id by lia. lia.
Qed.

(* validate_decimal_precision_and_scale agrees with "the documented type is a decimal type"
   once precision and scale are below the maxima (checked before, or by construction) *)
Lemma finish_spec r p s : 0 <= p <= m -> s <= m ->
  dcanon (finish m m r p s) =
  match canon r with
  | inl rows => if (1 <=? p) && negb ((0 <? s) && (p <? s)) then inl (rows, (p, s)) else inr E_INVALID
  | inr k => inr k
  end.
Proof.
  intros Hp Hs. unfold finish. destruct r as [v n|k]; [|reflexivity]. cbn [canon].
  replace (validate_ps m m p s) with ((1 <=? p) && negb ((0 <? s) && (p <? s))).
  - destruct ((1 <=? p) && negb ((0 <? s) && (p <? s))); reflexivity.
  - unfold validate_ps, as_u8. rewrite (proj2 (Z.leb_le p m)), (proj2 (Z.leb_le s m)), !andb_true_r by lia.
    f_equal.
    + destruct (Z.leb_spec 1 p), (Z.eqb_spec p 0); try reflexivity; lia.
    + destruct (Z.ltb_spec 0 s); [|reflexivity]. now rewrite Z.mod_small by lia.
Qed.

(* One call of the kernel.  Variables and hypotheses stand in the order in which the theorem about
   decimal_op takes them; the lemmas before it use the arrays and their six hypotheses only. *)
Section Call.
Variables (op : dop) (l_s r_s : bool) (p1 s1 p2 s2 : Z) (l r : parr).
Hypotheses (Hp1 : 1 <= p1 <= m) (Hp2 : 1 <= p2 <= m) (Hs1 : - 40 <= s1 <= p1) (Hs2 : - 40 <= s2 <= p2).
Hypothesis Hdoc : 1 <= fst (spec_result_type m m op p1 s1 p2 s2).
Hypotheses (Wl : wf l) (Wr : wf r) (Sl : l_s = true -> arr_len l = 1%nat) (Sr : r_s = true -> arr_len r = 1%nat).
Hypotheses (Rl : vals_in_range H true l) (Rr : vals_in_range H true r).
Hypothesis Hrem : op = DRem -> Forall (fun x => x * 10 ^ (Z.max s1 s2 - s1) <> - H) (a_vals l).

Lemma decimal_tail o same lm rm rp rs :
  0 <= rp <= m -> rs <= m ->
  (same = true -> lm = 1 /\ rm = 1) -> (o = DMul -> lm = 1 /\ rm = 1) ->
  (o = DRem -> Forall (fun x => x * lm <> - H) (a_vals l)) ->
  dcanon (finish m m (try_op (decimal_row H o same lm rm) l_s r_s l r) rp rs) =
  match spec_binary_kernel (spec_decimal_row H o lm rm) l_s r_s (denote l) (denote r) with
  | inl rows => if (1 <=? rp) && negb ((0 <? rs) && (rp <? rs)) then inl (rows, (rp, rs)) else inr E_INVALID
  | inr k => inr k
  end.
Proof.
  intros Hp Hs Hsame Hmul Hrm. rewrite finish_spec by assumption.
  rewrite (decimal_rows_in H ltac:(lia) o same lm rm l_s r_s l r Wl Wr Sl Sr Rl Rr Hsame Hmul); [reflexivity|].
  (* no rescaled dividend is MIN, so the pair (MIN, -1) does not occur *)
  intros E x y Ix _ [Ex _]. exact (proj1 (Forall_forall _ _) (Hrm E) x Ix Ex).
Qed.

(* the same with the multipliers still to be computed from their exponents; the model's precision rp
   and scale rs may be written differently from the documented rp', rs' *)
Lemma decimal_pow_tail o same el er rp rs rp' rs' :
  rp = rp' -> rs = rs' -> 0 <= rp' <= m -> rs' <= m ->
  (same = true -> 10 ^ el = 1 /\ 10 ^ er = 1) -> o <> DMul ->
  (o = DRem -> Forall (fun x => x * 10 ^ el <> - H) (a_vals l)) ->
  dcanon (match pow10_checked H el with Err k => DErr k | Ok lm =>
          match pow10_checked H er with Err k => DErr k | Ok rm =>
            finish m m (try_op (decimal_row H o same lm rm) l_s r_s l r) rp rs end end)
  = if m <? rs' then inr E_INVALID else
    if negb (in_range true H (10 ^ el) && in_range true H (10 ^ er)) then inr E_OVERFLOW else
    match spec_binary_kernel (spec_decimal_row H o (10 ^ el) (10 ^ er)) l_s r_s (denote l) (denote r) with
    | inr k => inr k
    | inl rows => if (1 <=? rp') && negb ((0 <? rs') && (rp' <? rs')) then inl (rows, (rp', rs')) else inr E_INVALID
    end.
Proof.
  intros -> -> Hp Hs Hsame Hmul Hrm.
  rewrite (proj2 (Z.ltb_ge m rs')) by exact Hs. unfold pow10_checked.
  destruct (in_range true H (10 ^ el)); cbn [negb andb]; [|reflexivity].
  destruct (in_range true H (10 ^ er)); cbn [negb andb]; [|reflexivity].
  apply decimal_tail; try assumption. intros E. now destruct (Hmul E).
Qed.

Lemma pow10_or_one e : (if 0 <? e then pow10_checked H e else Ok 1) = pow10_checked H (Z.max e 0).
Proof.
  unfold pow10_checked. destruct (Z.ltb_spec 0 e); [now rewrite Z.max_l by lia|].
  rewrite Z.max_r by lia. change (10 ^ 0) with 1. now rewrite in_range_one.
Qed.

(* The scales are bounded below so that the scale sums of the source stay inside i8: -40 is a round
   bound well inside what would do (about -64) and far below what is generated.  Hdoc excludes the
   inputs whose documented precision is not positive (rem with min (p - s) + scale <= 0), where the
   source takes `as u8` of a negative number. *)
Theorem decimal_op_spec :
  dcanon (decimal_op H m m op l_s r_s p1 s1 p2 s2 l r)
  = spec_decimal H m m op l_s r_s p1 s1 p2 s2 (denote l) (denote r).
Proof using Hp1 Hp2 Hs1 Hs2 Hdoc Wl Wr Sl Sr Rl Rr Hrem H2 Hm.
  assert (Hsame : (s1 =? s2) = true -> 10 ^ (Z.max s1 s2 - s1) = 1 /\ 10 ^ (Z.max s1 s2 - s2) = 1).
  { intros E. apply Z.eqb_eq in E. subst s2. rewrite Z.max_id, Z.sub_diag. auto. }
  (* op is fixed by the section: case on a copy, with the two hypotheses that mention it *)
  generalize Hdoc Hrem. generalize op. intros o Hd Hr. unfold spec_result_type in Hd.
  destruct o; cbn [fst] in Hd; unfold decimal_op, spec_decimal, spec_result_type, spec_exponents.
  (* add and sub differ in the row closure only *)
  1-2: apply decimal_pow_tail; [apply prec_cast_succ; lia | reflexivity | lia | lia | exact Hsame | discriminate | discriminate].
  - (* mul: no rescaling; the model tests the scale itself *)
    rewrite sat_u8_id, Z.add_assoc by lia.
    destruct (Z.ltb_spec m (s1 + s2)) as [Big|Small].
    { replace (m <? sat_i8 (s1 + s2)) with true; [reflexivity|].
      symmetry. apply Z.ltb_lt. clear - Big Hm. unfold sat_i8. lia. }
    rewrite sat_i8_id by lia.
    replace (m <? s1 + s2) with false by (symmetry; apply Z.ltb_ge; lia).
    change (10 ^ 0) with 1. rewrite in_range_one. cbn [negb andb].
    apply decimal_tail; [lia | lia | discriminate | auto | discriminate].
  - (* div: at most one side is rescaled, by 10^|e| *)
    rewrite pow10_or_one, ltb_opp, pow10_or_one, !(sat_i8_id (s1 + 4)) by lia.
    assert (P : Z.min (as_u8 (sat_i8 (Z.min (s1 + 4) m - s1 + s2 + p1))) m = Z.min (p1 - s1 + s2 + Z.min (s1 + 4) m) m).
    { replace (Z.min (s1 + 4) m - s1 + s2 + p1) with (p1 - s1 + s2 + Z.min (s1 + 4) m) by ring. apply prec_cast. lia. }
    apply decimal_pow_tail; [exact P | reflexivity | lia | lia | discriminate | discriminate | discriminate].
  - assert (P : Z.min (as_u8 (sat_i8 (Z.max s1 s2 + Z.min (p1 - s1) (p2 - s2)))) m = Z.min (Z.min (p1 - s1) (p2 - s2) + Z.max s1 s2) m).
    { rewrite (Z.add_comm (Z.max s1 s2)). apply prec_cast. lia. }
    apply decimal_pow_tail; [exact P | reflexivity | lia | lia | discriminate | discriminate | exact Hr].
Qed.
End Call.

End Kernel.
