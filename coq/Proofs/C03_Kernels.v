(* C03 — take, concat, interleave, nullif, slice, shift, zip and merge refine their specifications.
   [map2] is Model.C03_Select.map2; the map2 lemmas of Base.ListX apply to it by conversion (see the head of
   C03_Filter.v). *)
From Coq Require Import List ZArith Bool Lia.
From AV Require Import Base.ListX Model.C03_Select Proofs.C19_Runs Proofs.C03_Filter.
Import ListNotations.

Lemma has_nulls_some n l : has_nulls n = Some l -> n = Some l.
Proof. destruct n as [x|]; cbn; [|discriminate]. destruct (all_true x); [discriminate|]. now intros [= ->]. Qed.

Lemma get_map {X Y} (g : X -> Y) vs i : get (map g vs) i = option_map g (get vs i).
Proof. unfold get. rewrite map_length. destruct (out_of_range _ _); [reflexivity|apply nth_error_map]. Qed.

Lemma get_map2 {X Y Z} (g : X -> Y -> Z) xs ys i : length xs = length ys ->
  get (map2 g xs ys) i = match get xs i, get ys i with Some x, Some y => Some (g x y) | _, _ => None end.
Proof.
  intros H. unfold get. rewrite map2_length, <- H, Nat.min_id.
  destruct (out_of_range _ _); [reflexivity|now apply nth_error_map2].
Qed.

Lemma take_spec_some {A} (xs : list (option A)) i r :
  take_spec xs (Some i :: r) =
  match get xs i, take_spec xs r with Some x, Some out => Some (x :: out) | _, _ => None end.
Proof. cbn [take_spec]. unfold get. now destruct (out_of_range _ _). Qed.

(* values and validity read as rows, if neither lookup panicked *)
Definition pair_col {T} (v : option (list T)) (n : option (list bool)) : option (list (option T)) :=
  match v, n with Some v, Some n => Some (map2 mk_row v n) | _, _ => None end.

(* take_XY: X = the indices, Y = the values; n = with nulls, a = all valid.  In each, both sides are the same chain of
   option binds over the same lookups; the destructs at the end run through their outcomes. *)
Lemma take_nn {T} (d : T) vs cn : length vs = length cn -> forall ivals n,
  length ivals = length n ->
  pair_col (take_native_n d vs ivals n) (take_bits_n cn ivals n)
  = take_spec (map2 mk_row vs cn) (map2 mk_row ivals n).
Proof.
  intros Hc. induction ivals as [|i ir IH]; intros [|b nr] Hl; try discriminate Hl; [reflexivity|].
  injection Hl as Hl. specialize (IH nr Hl).
  cbn [take_native_n take_bits_n map2]. destruct b; cbn [mk_row].
  - rewrite take_spec_some, get_map2, <- IH by exact Hc.
    destruct (get vs i), (get cn i), (take_native_n d vs ir nr), (take_bits_n cn ir nr); reflexivity.
  - cbn [take_spec]. rewrite <- IH.
    destruct (get vs i), (take_native_n d vs ir nr), (take_bits_n cn ir nr); reflexivity.
Qed.

Lemma take_na {T} (d : T) vs : forall ivals n, length ivals = length n ->
  option_map (fun v => map2 mk_row v n) (take_native_n d vs ivals n)
  = take_spec (map Some vs) (map2 mk_row ivals n).
Proof.
  induction ivals as [|i ir IH]; intros [|b nr] Hl; try discriminate Hl; [reflexivity|].
  injection Hl as Hl. specialize (IH nr Hl).
  cbn [take_native_n map2]. destruct b; cbn [mk_row].
  - rewrite take_spec_some, get_map, <- IH. destruct (get vs i), (take_native_n d vs ir nr); reflexivity.
  - cbn [take_spec]. rewrite <- IH. destruct (get vs i), (take_native_n d vs ir nr); reflexivity.
Qed.

Lemma take_an {T} vs cn : length vs = length cn -> forall ivals,
  pair_col (take_native_a vs ivals) (take_native_a cn ivals)
  = take_spec (map2 (@mk_row T) vs cn) (map Some ivals).
Proof.
  intros Hc. induction ivals as [|i ir IH]; [reflexivity|].
  cbn [take_native_a map]. rewrite take_spec_some, get_map2, <- IH by exact Hc.
  destruct (get vs i), (get cn i), (take_native_a vs ir), (take_native_a cn ir); reflexivity.
Qed.

Lemma take_aa {T} (vs : list T) : forall ivals,
  option_map (map Some) (take_native_a vs ivals) = take_spec (map Some vs) (map Some ivals).
Proof.
  induction ivals as [|i ir IH]; [reflexivity|].
  cbn [take_native_a map]. rewrite take_spec_some, get_map, <- IH.
  destruct (get vs i), (take_native_a vs ir); reflexivity.
Qed.

Lemma take_native_a_length {T} (vs : list T) ivals v : take_native_a vs ivals = Some v -> length v = length ivals.
Proof.
  revert v; induction ivals as [|i ir IH]; intros v; cbn; [now intros [= <-]|].
  destruct (get vs i); [|discriminate]. destruct (take_native_a vs ir) eqn:E; [|discriminate].
  cbn. intros [= <-]. cbn. f_equal. now apply IH.
Qed.

Lemma take_impl_spec {T} (d : T) (c : pcol T) (idx : pcol Z) : wf_col c -> wf_col idx ->
  option_map logical
    (match take_native d (fst c) idx, take_nulls (snd c) idx with
     | Some v, Some n => Some (v, n)
     | _, _ => None
     end)
  = take_spec (logical c) (logical_idx idx).
Proof.
  intros Hc Hi. unfold logical_idx. rewrite (logical_norm c Hc), (logical_norm idx Hi).
  destruct c as [vs cn]; destruct idx as [ivals inl]. unfold wf_col in *; cbn [fst snd] in *.
  unfold take_native, take_nulls, take_bits; cbn [fst snd].
  destruct (has_nulls inl) as [n|] eqn:En; destruct (has_nulls cn) as [cl|] eqn:Ec; unfold logical; cbn [fst snd].
  - apply has_nulls_some in En, Ec. subst inl cn.
    rewrite <- (take_nn d vs cl) by lia. unfold pair_col.
    destruct (take_native_n d vs ivals n); destruct (take_bits_n cl ivals n); reflexivity.
  - apply has_nulls_some in En. subst inl.
    rewrite <- (take_na d vs) by lia. destruct (take_native_n d vs ivals n); reflexivity.
  - apply has_nulls_some in Ec. subst cn.
    rewrite <- (take_an vs cl) by lia. unfold pair_col.
    destruct (take_native_a vs ivals); destruct (take_native_a cl ivals); reflexivity.
  - rewrite <- take_aa. destruct (take_native_a vs ivals) as [v|] eqn:Ev; [|reflexivity].
    cbn [option_map]. f_equal.
    change (logical (v, inl) = map Some v). rewrite (logical_norm (v, inl)).
    + cbn [fst snd]. now rewrite En.
    + unfold wf_col; cbn. destruct inl; [|exact I]. rewrite (take_native_a_length _ _ _ Ev). exact Hi.
Qed.

Lemma take_spec_oob {A} (xs : list (option A)) i r :
  out_of_range (length xs) i = true -> take_spec xs (Some i :: r) = None.
Proof. intros H. rewrite take_spec_some. unfold get. now rewrite H. Qed.

Lemma take_spec_tail_none {A} (xs : list (option A)) o r : take_spec xs r = None -> take_spec xs (o :: r) = None.
Proof. intros H. destruct o as [i|]; [rewrite take_spec_some, H; now destruct (get xs i)|cbn; now rewrite H]. Qed.

Lemma take_spec_oob_n {A} (xs : list (option A)) : forall ivals n,
  forallb (fun p : Z * bool => negb (snd p) || (fst p <? Z.of_nat (length xs))%Z) (List.combine ivals n) = false ->
  take_spec xs (map2 mk_row ivals n) = None.
Proof.
  induction ivals as [|i ir IH]; intros [|b nr]; cbn [combine forallb map2 fst snd]; try discriminate.
  intros H. apply andb_false_iff in H. destruct H as [H|H]; [|apply take_spec_tail_none, IH, H].
  destruct b; [|discriminate]. cbn [negb orb] in H.
  apply take_spec_oob. unfold out_of_range. apply orb_true_iff. right. apply Z.leb_le, Z.ltb_ge, H.
Qed.

Lemma take_spec_oob_a {A} (xs : list (option A)) : forall ivals,
  forallb (fun i => (0 <=? i)%Z && (i <? Z.of_nat (length xs))%Z) ivals = false ->
  take_spec xs (map Some ivals) = None.
Proof.
  induction ivals as [|i ir IH]; cbn [forallb map]; try discriminate.
  intros H. apply andb_false_iff in H. destruct H as [H|H]; [|apply take_spec_tail_none, IH, H].
  apply take_spec_oob. unfold out_of_range. apply orb_true_iff. apply andb_false_iff in H.
  destruct H as [H|H]; [left; apply Z.ltb_lt, Z.leb_gt, H|right; apply Z.leb_le, Z.ltb_ge, H].
Qed.

Lemma check_bounds_sound {A} (xs : list (option A)) (idx : pcol Z) : wf_col idx ->
  check_bounds (length xs) idx = false -> take_spec xs (logical_idx idx) = None.
Proof.
  intros Hi. unfold logical_idx. rewrite (logical_norm idx Hi). unfold check_bounds, logical.
  destruct idx as [ivals inl]; cbn [fst snd].
  destruct (has_nulls inl) as [n|]; cbn [fst snd].
  - apply take_spec_oob_n.
  - apply take_spec_oob_a.
Qed.

Lemma take_M_spec {T} (d : T) (cb : bool) (c : pcol T) (idx : pcol Z) : wf_col c -> wf_col idx ->
  option_map logical (take_M d cb c idx) = take_spec (logical c) (logical_idx idx).
Proof.
  intros Hc Hi. unfold take_M.
  destruct (cb && negb (check_bounds (length (fst c)) idx)) eqn:Ecb.
  - cbn. symmetry. apply andb_prop in Ecb. destruct Ecb as [_ Ecb]. apply negb_true_iff in Ecb.
    rewrite <- (logical_length c Hc) in Ecb. now apply check_bounds_sound.
  - destruct (fst idx) as [|i0 ir] eqn:Ef.
    + cbn. unfold logical_idx, logical. destruct idx as [iv inl]; cbn in *. subst iv. now destruct inl.
    + rewrite <- (take_impl_spec d c idx Hc Hi). reflexivity.
Qed.

Lemma take_null_payload_irrelevant {T} (d : T) (cb : bool) (c : pcol T) (iv iv' : list Z) (n : list bool) :
  wf_col c -> length iv = length n -> length iv' = length n -> map2 mk_row iv n = map2 mk_row iv' n ->
  option_map logical (take_M d cb c (iv, Some n)) = option_map logical (take_M d cb c (iv', Some n)).
Proof.
  intros Hc H1 H2 Ha. rewrite !take_M_spec; try exact Hc; try (unfold wf_col; cbn; lia).
  unfold logical_idx, logical; cbn [fst snd]. now rewrite Ha.
Qed.

Lemma take_all_null_ok {T} (d : T) (cb : bool) (c : pcol T) (iv : list Z) :
  wf_col c ->
  option_map logical (take_M d cb c (iv, Some (repeat false (length iv)))) = Some (repeat None (length iv)).
Proof.
  intros Hc. rewrite take_M_spec; try exact Hc; [|unfold wf_col; cbn; now rewrite repeat_length].
  unfold logical_idx. rewrite logical_all_null.
  induction (length iv) as [|k IH]; [reflexivity|]. cbn. now rewrite IH.
Qed.

Lemma some_has_nulls_false {T} (cs : list (pcol T)) : some_has_nulls cs = false ->
  Forall (fun c => has_nulls (snd c) = None) cs.
Proof.
  unfold some_has_nulls. induction cs as [|c cs IH]; cbn; [constructor|].
  destruct (has_nulls (snd c)) eqn:E; cbn; [discriminate|]. intros H. constructor; auto.
Qed.

Lemma concat_M_spec {T} (cs : list (pcol T)) : Forall wf_col cs ->
  logical (concat_M cs) = concat_spec (map logical cs).
Proof.
  intros Hw. unfold concat_M, concat_spec. destruct (some_has_nulls cs) eqn:E; unfold logical at 1; cbn [fst snd].
  - clear E. induction Hw as [|c cs Hc Hcs IH]; [reflexivity|].
    cbn [map concat]. rewrite map2_app by (now rewrite nulls_or_true_length).
    now rewrite IH, logical_nulls_or_true.
  - apply some_has_nulls_false in E. induction Hw as [|c cs Hc Hcs IH]; [reflexivity|].
    inversion E as [|? ? E1 E2]; subst. cbn [map concat]. rewrite map_app, IH by exact E2.
    now rewrite (logical_norm c Hc), E1.
Qed.

Lemma logical_concat2 {T} (a b : pcol T) : wf_col a -> wf_col b -> logical (concat_M [a; b]) = logical a ++ logical b.
Proof.
  intros Ha Hb. rewrite concat_M_spec by (repeat constructor; assumption).
  unfold concat_spec. cbn [map concat]. now rewrite app_nil_r.
Qed.

Lemma nth_logical_default {T} (cs : list (pcol T)) a :
  nth a (map logical cs) [] = logical (nth a cs ([], None)).
Proof. change (@nil (option T)) with (logical (@nil T, @None (list bool))). apply map_nth. Qed.

Lemma Forall_nth_default {T} (P : pcol T -> Prop) (cs : list (pcol T)) a :
  P ([], None) -> Forall P cs -> P (nth a cs ([], None)).
Proof.
  intros Hd H. destruct (Nat.lt_ge_cases a (length cs)) as [Hl|Hl].
  - apply (proj1 (Forall_forall _ _) H). now apply nth_In.
  - now rewrite nth_overflow.
Qed.

(* the specification is the picked values paired with the validity of the picked rows *)
Lemma interleave_spec_vals {T} (cs : list (pcol T)) : Forall wf_col cs -> forall ps,
  interleave_spec (map logical cs) ps =
  option_map (fun v => map2 mk_row v (map (fun p : nat * nat => is_valid_at (nth (fst p) cs ([], None)) (snd p)) ps))
             (interleave_vals cs ps).
Proof.
  intros Hw ps. induction ps as [|[a i] r IH]; [reflexivity|].
  cbn [interleave_spec interleave_vals map fst snd].
  rewrite nth_logical_default, nth_error_logical by exact (Forall_nth_default wf_col cs a I Hw). rewrite IH.
  destruct (nth_error (fst (nth a cs ([], None))) i); cbn; [|reflexivity].
  destruct (interleave_vals cs r); reflexivity.
Qed.

Lemma interleave_M_spec {T} (cs : list (pcol T)) (ps : list (nat * nat)) : Forall wf_col cs ->
  option_map logical (interleave_M cs ps) = interleave_spec (map logical cs) ps.
Proof.
  intros Hw. unfold interleave_M.
  rewrite (interleave_spec_vals cs Hw). destruct (interleave_vals cs ps) as [v|] eqn:Ev; [|reflexivity].
  cbn [option_map]. f_equal.
  destruct (some_has_nulls cs) eqn:E; [reflexivity|].
  apply some_has_nulls_false in E. unfold logical; cbn [fst snd].
  revert v Ev. induction ps as [|[a i] r IH]; intros v; cbn [interleave_vals].
  - now intros [= <-].
  - destruct (nth_error (fst (nth a cs ([], None))) i) as [x|] eqn:Ex; [|discriminate].
    destruct (interleave_vals cs r) as [o|]; [|discriminate]. intros [= <-].
    cbn [map map2 fst snd]. rewrite <- IH by reflexivity.
    now rewrite (valid_if_no_nulls _ i x (Forall_nth_default wf_col cs a I Hw)
                   (Forall_nth_default (fun c => has_nulls (snd c) = None) cs a eq_refl E) Ex).
Qed.

(* the kernel has four code paths (validity present or absent on either side); on each the lists are walked in step,
   the shape cases go by the length hypotheses, and what is left is one boolean identity in a, b, e *)
Lemma nullif_M_spec {T} (c : pcol T) (m : pcol bool) : wf_col c -> wf_col m -> length (fst m) = length (fst c) ->
  logical (nullif_M c m) = nullif_spec (logical c) (logical_mask m).
Proof.
  destruct c as [v cn]; destruct m as [mv mn]. unfold wf_col, nullif_M, nullif_spec, logical_mask, logical; cbn [fst snd].
  intros Hc Hm Hl.
  destruct cn as [l|]; destruct mn as [n|].
  - revert l mv n Hc Hm Hl; induction v as [|x v IH]; intros [|a l] [|b mv] [|e n] Hc Hm Hl; cbn in *; try discriminate; auto.
    f_equal; [destruct a, b, e; reflexivity|]. apply IH; lia.
  - revert l mv Hc Hl; induction v as [|x v IH]; intros [|a l] [|b mv] Hc Hl; cbn in *; try discriminate; auto.
    f_equal; [destruct a, b; reflexivity|]. apply IH; lia.
  - revert mv n Hm Hl; induction v as [|x v IH]; intros [|b mv] [|e n] Hm Hl; cbn in *; try discriminate; auto.
    f_equal; [destruct b, e; reflexivity|]. apply IH; lia.
  - revert mv Hl; induction v as [|x v IH]; intros [|b mv] Hl; cbn in *; try discriminate; auto.
    f_equal; [destruct b; reflexivity|]. apply IH; lia.
Qed.

Lemma logical_null_col {T} (d : T) k : logical (null_col d k) = repeat None k.
Proof. unfold null_col. rewrite <- (repeat_length d k) at 2 3. apply logical_all_null. Qed.

Lemma wf_null_col {T} (d : T) k : wf_col (null_col d k).
Proof. unfold wf_col, null_col; cbn. now rewrite !repeat_length. Qed.

Lemma slice_M_spec {T} (c : pcol T) off len : logical (slice_M c off len) = slice_spec (logical c) off len.
Proof.
  destruct c as [v [n|]]; unfold slice_M, slice_spec, logical; cbn [fst snd option_map].
  - now rewrite map2_firstn, map2_skipn.
  - now rewrite skipn_map, firstn_map.
Qed.

Lemma wf_slice {T} (c : pcol T) off len : wf_col c -> wf_col (slice_M c off len).
Proof.
  destruct c as [v [n|]]; unfold wf_col, slice_M; cbn; [|auto]. intros H.
  now rewrite !firstn_length, !skipn_length, H.
Qed.

Lemma shift_M_spec {T} (d : T) (c : pcol T) (off : Z) : wf_col c ->
  (Z.of_nat (length (fst c)) < 2 ^ 63)%Z ->      (* array lengths fit an i64 *)
  logical (shift_M d c off) = shift_spec (logical c) off.
Proof.
  intros Hc Hfit. unfold shift_M, shift_spec. rewrite (logical_length c Hc).
  set (n := length (fst c)) in *.
  assert (Hn : length (logical c) = n) by (apply logical_length; exact Hc).
  destruct (Z.eqb_spec off 0) as [E0|N0].
  - subst off. replace (Z.to_nat (Z.min (Z.abs 0) (Z.of_nat n))) with 0 by lia.
    change (0 <=? 0)%Z with true. cbn [repeat app]. rewrite Nat.sub_0_r. now rewrite <- Hn, firstn_all.
  - destruct ((off =? i64_min)%Z || (Z.of_nat n <=? Z.abs off)%Z) eqn:Ebig.
    + assert (Hk : Z.to_nat (Z.min (Z.abs off) (Z.of_nat n)) = n).
      { apply orb_prop in Ebig. destruct Ebig as [E|E].
        - apply Z.eqb_eq in E. subst off. unfold i64_min.
          assert (Hp : (0 < 2 ^ 63)%Z) by (apply Z.pow_pos_nonneg; lia).
          rewrite Z.abs_opp, Z.abs_eq by lia. lia.
        - apply Z.leb_le in E. lia. }
      rewrite Hk, logical_null_col, Nat.sub_diag. cbn [firstn].
      destruct (0 <=? off)%Z; [now rewrite app_nil_r|].
      rewrite skipn_all2 by lia. reflexivity.
    + apply orb_false_elim in Ebig. destruct Ebig as [_ Ebig]. apply Z.leb_gt in Ebig.
      destruct (Z.ltb_spec 0 off) as [Hpos|Hneg].
      * assert (Hk : Z.to_nat (Z.min (Z.abs off) (Z.of_nat n)) = Z.to_nat off) by lia.
        rewrite Hk. replace (0 <=? off)%Z with true by (symmetry; apply Z.leb_le; lia).
        rewrite logical_concat2, logical_null_col, slice_M_spec by (apply wf_null_col || apply wf_slice, Hc).
        reflexivity.
      * assert (Hk : Z.to_nat (Z.min (Z.abs off) (Z.of_nat n)) = Z.to_nat (- off)) by lia.
        rewrite Hk. replace (0 <=? off)%Z with false by (symmetry; apply Z.leb_gt; lia).
        rewrite logical_concat2, logical_null_col, slice_M_spec by (apply wf_null_col || apply wf_slice, Hc).
        unfold slice_spec. f_equal. apply firstn_all2. rewrite skipn_length. lia.
Qed.

Section RunCopy.
Context {A : Type}.
Variables (ts : bool) (t : list (option A)) (fs : bool) (f : list (option A)).
Notation rows := (list (option A)).

(* an array operand has to hold the [n] rows that are read from it; a scalar operand is read at row 0 only *)
Definition has_rows (sc : bool) (n : nat) (src : rows) : Prop := sc = false -> n <= length src.

Lemma has_rows_le sc n n' src : n' <= n -> has_rows sc n src -> has_rows sc n' src.
Proof. intros Hn H E. specialize (H E). lia. Qed.

(* zip: the state is the output; [zip_fill] reads the operand at the positions of the mask *)
Lemma zip_fill_nil sc (out src : rows) p q : q <= p -> zip_fill sc out src p q = out.
Proof.
  intros H. unfold zip_fill, extend_scalar, extend. replace (q - p) with 0 by lia.
  destruct sc; apply app_nil_r.
Qed.

Lemma zip_fill_cat sc (out src : rows) p q r : p <= q -> q <= r ->
  zip_fill sc (zip_fill sc out src p q) src q r = zip_fill sc out src p r.
Proof.
  intros H1 H2. unfold zip_fill, extend_scalar, extend. destruct sc; rewrite <- app_assoc; f_equal.
  - rewrite <- repeat_app. f_equal. lia.
  - now apply (copy_range_cat src p q r).
Qed.

Lemma zip_fill_one sc (out src : rows) k : has_rows sc (S k) src ->
  zip_fill sc out src k (S k) = out ++ [datum_at sc src k].
Proof.
  intros H. unfold zip_fill, extend_scalar, extend, datum_at. destruct sc; f_equal.
  - now replace (S k - k) with 1 by lia.
  - exact (copy_range_one None src k (H eq_refl)).
Qed.

Definition zact (b : bool) (p q : nat) (out : rows) : rows :=
  if b then zip_fill ts out t p q else zip_fill fs out f p q.

Lemma zact_nil b p out : zact b p p out = out.
Proof. destruct b; apply zip_fill_nil, le_n. Qed.

Lemma zact_cat b p q r out : p <= q -> q <= r -> zact b q r (zact b p q out) = zact b p r out.
Proof. destruct b; apply zip_fill_cat. Qed.

Lemma zip_step_run st se : zip_step ts t fs f st se = run_step zact st se.
Proof.
  destruct st as [out filled], se as [s e]. unfold zip_step, run_step, zact; cbn [fst snd].
  destruct (Nat.ltb_spec filled s) as [|H]; [reflexivity|]. now rewrite (zip_fill_nil fs out f filled s H).
Qed.

Lemma zip_walk m : forall k out, has_rows ts (k + length m) t -> has_rows fs (k + length m) f ->
  bit_walk zact k (map sel m) out = out ++ zip_spec_from k m ts t fs f.
Proof.
  induction m as [|b m IH]; intros k out Ht Hf; cbn [map bit_walk zip_spec_from length] in *; [now rewrite app_nil_r|].
  rewrite IH by (eapply has_rows_le; [|eassumption]; lia). unfold zact.
  destruct (sel b); rewrite zip_fill_one, <- app_assoc by (eapply has_rows_le; [|eassumption]; lia); reflexivity.
Qed.

Lemma zip_M_spec (m : pcol bool) : wf_col m ->
  (ts = false -> length (fst m) <= length t) -> (fs = false -> length (fst m) <= length f) ->
  zip_M m ts t fs f = zip_spec (logical_mask m) ts t fs f.
Proof.
  intros Hm Ht Hf. unfold zip_M, zip_spec.
  assert (W : bit_walk zact 0 (prep_mask m) [] = zip_spec_from 0 (logical_mask m) ts t fs f).
  { rewrite <- (map_sel_logical m Hm).
    apply (zip_walk (logical_mask m) 0 []); unfold logical_mask; now rewrite (logical_length m Hm). }
  pose proof (runs_fold zact_nil zact_cat (zip_step ts t fs f) (fun st => st) zip_step_run
                (prep_mask m) ([], 0) eq_refl) as R.
  cbn [fst] in R. rewrite <- W, <- R, (prep_mask_length m Hm).
  destruct (fold_left _ _ _) as [out filled]. unfold run_close, zact; cbn [fst snd].
  destruct (Nat.ltb_spec filled (length (fst m))); [reflexivity|]. now rewrite zip_fill_nil.
Qed.

(* merge: the state also carries the offsets up to which the two operands have been consumed; [take_rows] reads
   an operand at its offset, the positions of the mask only say how many rows *)
Lemma take_rows_nil sc (out src : rows) off : take_rows sc out src off 0 = (out, off).
Proof.
  unfold take_rows, extend_scalar, extend. rewrite Nat.add_0_r, Nat.sub_diag. destruct sc; cbn; now rewrite app_nil_r.
Qed.

Lemma take_rows_cat sc (out src : rows) off n n' :
  take_rows sc out src off (n + n')
  = take_rows sc (fst (take_rows sc out src off n)) src (snd (take_rows sc out src off n)) n'.
Proof.
  unfold take_rows, extend_scalar, extend. destruct sc; cbn [fst snd]; rewrite <- app_assoc.
  - now rewrite repeat_app.
  - rewrite Nat.add_assoc. do 2 f_equal. symmetry. apply (copy_range_cat src off (off + n) (off + n + n')); lia.
Qed.

Definition next_off (sc : bool) (off : nat) : nat := if sc then off else S off.

Lemma has_rows_next sc off n src : has_rows sc (off + S n) src -> has_rows sc (next_off sc off + n) src.
Proof. intros H E. specialize (H E). subst sc. cbn. lia. Qed.

Lemma hd_skipn (l : rows) k : hd None (skipn k l) = nth k l None.
Proof. revert l; induction k as [|k IH]; intros [|x l]; cbn; auto. Qed.

Lemma tl_skipn (l : rows) k : tl (skipn k l) = skipn (S k) l.
Proof. rewrite <- Nat.add_1_r. exact (skipn_skipn 1 k l). Qed.

(* what [merge_spec] sees of an operand consumed up to [off] *)
Definition remaining (sc : bool) (src : rows) (off : nat) : rows := if sc then src else skipn off src.

(* one bit of the mask: the row the operand yields, and what is left of it *)
Lemma take_rows_one sc (out src : rows) off : has_rows sc (S off) src ->
  take_rows sc out src off 1 = (out ++ [hd None (remaining sc src off)], next_off sc off) /\
  (if sc then remaining sc src off else tl (remaining sc src off)) = remaining sc src (next_off sc off).
Proof.
  intros H. unfold take_rows, extend_scalar, extend, remaining, next_off.
  destruct sc; [split; [now destruct src|reflexivity]|].
  rewrite Nat.add_1_r, hd_skipn, tl_skipn. split; [|reflexivity]. do 2 f_equal.
  exact (copy_range_one None src off (H eq_refl)).
Qed.

Notation mst := (rows * nat * nat)%type.
Definition mact (b : bool) (p q : nat) (x : mst) : mst :=
  let '(out, toff, foff) := x in
  if b then (fst (take_rows ts out t toff (q - p)), snd (take_rows ts out t toff (q - p)), foff)
  else (fst (take_rows fs out f foff (q - p)), toff, snd (take_rows fs out f foff (q - p))).

Lemma mact_nil b p x : mact b p p x = x.
Proof. destruct x as [[out toff] foff]. unfold mact. rewrite Nat.sub_diag, !take_rows_nil. now destruct b. Qed.

Lemma mact_cat b p q r x : p <= q -> q <= r -> mact b q r (mact b p q x) = mact b p r x.
Proof.
  intros H1 H2. destruct x as [[out toff] foff]. unfold mact.
  replace (r - p) with ((q - p) + (r - q)) by lia. destruct b; now rewrite take_rows_cat.
Qed.

Definition mview (c : rows * nat * nat * nat) : mst * nat :=
  let '(out, filled, toff, foff) := c in ((out, toff, foff), filled).

Lemma merge_step_run c se : mview (merge_step ts t fs f c se) = run_step mact (mview c) se.
Proof.
  destruct c as [[[out filled] toff] foff], se as [s e]. unfold merge_step, run_step, mview, mact; cbn [fst snd].
  destruct (Nat.ltb_spec filled s) as [|H].
  - destruct (take_rows fs out f foff (s - filled)) as [out1 foff1]. cbn [fst snd].
    now destruct (take_rows ts out1 t toff (e - s)).
  - replace (s - filled) with 0 by lia. rewrite take_rows_nil. cbn [fst snd].
    now destruct (take_rows ts out t toff (e - s)).
Qed.

Lemma merge_walk m : forall k out toff foff,
  has_rows ts (toff + count_true (map sel m)) t -> has_rows fs (foff + (length m - count_true (map sel m))) f ->
  fst (fst (bit_walk mact k (map sel m) (out, toff, foff)))
  = out ++ merge_spec m ts (remaining ts t toff) fs (remaining fs f foff).
Proof.
  induction m as [|b m IH]; intros k out toff foff Ht Hf; cbn [map bit_walk merge_spec length] in *;
    [now rewrite app_nil_r|].
  rewrite count_true_cons in Ht, Hf. pose proof (count_true_le (map sel m)) as Hc. rewrite map_length in Hc.
  unfold mact. replace (S k - k) with 1 by lia. destruct (sel b).
  - destruct (take_rows_one ts out t toff) as [E1 E2]; [eapply has_rows_le; [|exact Ht]; lia|].
    rewrite E1; cbn [fst snd]. rewrite IH, <- app_assoc, E2; [reflexivity|apply has_rows_next, Ht|exact Hf].
  - destruct (take_rows_one fs out f foff) as [E1 E2]; [eapply has_rows_le; [|exact Hf]; lia|].
    rewrite E1; cbn [fst snd]. rewrite IH, <- app_assoc, E2; [reflexivity|exact Ht|].
    apply has_rows_next. eapply has_rows_le; [|exact Hf]. lia.
Qed.

Lemma remaining_0 sc (src : rows) : remaining sc src 0 = src.
Proof. now destruct sc. Qed.

Lemma merge_M_spec (m : pcol bool) : wf_col m ->
  (ts = false -> count_true (prep_mask m) <= length t) ->
  (fs = false -> length (fst m) - count_true (prep_mask m) <= length f) ->
  merge_M m ts t fs f = merge_spec (logical_mask m) ts t fs f.
Proof.
  intros Hm Ht Hf. unfold merge_M.
  assert (W : fst (fst (bit_walk mact 0 (prep_mask m) ([], 0, 0))) = merge_spec (logical_mask m) ts t fs f).
  { rewrite <- (map_sel_logical m Hm), (merge_walk (logical_mask m) 0 [] 0 0), !remaining_0; [reflexivity| |];
      rewrite (map_sel_logical m Hm); unfold logical_mask; now rewrite ?(logical_length m Hm). }
  pose proof (runs_fold mact_nil mact_cat (merge_step ts t fs f) mview merge_step_run
                (prep_mask m) ([], 0, 0, 0) eq_refl) as R.
  cbn [fst mview] in R. rewrite <- W, <- R, (prep_mask_length m Hm).
  destruct (fold_left _ _ _) as [[[out filled] toff] foff]. unfold run_close, mact, mview; cbn [fst snd].
  destruct (Nat.ltb_spec filled (length (fst m))); [reflexivity|].
  replace (length (fst m) - filled) with 0 by lia. now rewrite take_rows_nil.
Qed.
End RunCopy.
