(* C12 — the i256 operations that work on magnitudes and restore the sign.  Section Signs (any
   H > 0): restore_sign, and div_rem, whose sign handling around an exact unsigned division gives
   the truncating quotient and remainder.  Section Product (over the half-limb B, through mulx): the
   overflow-checked product of the magnitudes and checked_mul, exact-or-None. *)
From Coq Require Import ZArith Bool Lia Zquot.
From AV Require Import Model.C12_Int Model.C12_I256 Proofs.C12_Int Proofs.C12_I256.
Local Open Scope Z_scope.
(* for rewriting reductions away under a difference, as in C12_I256 *)
Local Existing Instances eqm_setoid Zminus_eqm.

Section Signs.
Variable H : Z.
Hypothesis Hpos : 0 < H.
Let W := 2 * H.
Notation value := (val H).
Notation rep := (of_uval H).
Notation wf256 := (wf256 H).

Let HWpos : 0 < H * W := half_pos H Hpos.

Lemma restore_sign_eq out_neg lo hi2 : 0 <= lo < W -> 0 <= hi2 < W ->
  restore_sign H out_neg lo hi2 = rep (if out_neg then - (hi2 * W + lo) else hi2 * W + lo).
Proof.
  intros Rl Rh. unfold restore_sign, u_overflowing_sub. fold W.
  set (sa := if out_neg then W - 1 else 0). set (xl := xor_mask H out_neg lo). set (xh := xor_mask H out_neg hi2).
  assert (Rsa : 0 <= sa < W) by (unfold sa; destruct out_neg; lia).
  assert (Rxl : 0 <= xl < W) by (unfold xl, xor_mask, not_u; fold W; destruct out_neg; lia).
  rewrite (mk256_rep H Hpos _ _ (xh - sa - b2z (xl - sa <? 0))).
  - f_equal. rewrite (u_sub_borrow H Hpos xl sa Rxl Rsa). fold W.
    unfold xl, xh, sa, xor_mask, not_u. fold W. destruct out_neg; ring.
  - apply (wrapu_range H Hpos).
  - now rewrite !(wrapu_eqm H Hpos).
Qed.

(* from_digits of the magnitude, negated if asked *)
Lemma sign_rep (neg : bool) v : (if neg then v <= 0 else 0 <= v) ->
  (if neg then wrapping_neg256 H (rep (Z.abs v)) else rep (Z.abs v)) = rep v.
Proof. intros S. destruct neg; [rewrite (neg_rep H Hpos)|]; f_equal; lia. Qed.

(* The model divides the unsigned readings of |a| and |b|; these are the magnitudes, so its / and
   mod are Z.quot and Z.rem of the absolute values, and sign_rep puts the signs back.  That the
   results fit is a separate matter (div_rem_spec). *)
Theorem div_rem_eq a b : wf256 a -> wf256 b ->
  div_rem256 H a b =
  if value b =? 0 then inr E_DIVZERO
  else if (value b =? -1) && (value a =? - (H * W)) then inr E_OVERFLOW
  else inl (rep (Z.quot (value a) (value b)), rep (Z.rem (value a) (value b))).
Proof.
  intros Wa Wb. unfold div_rem256, udivrem, is_negative.
  rewrite (ZERO_rep H Hpos), (MINUS_ONE_rep H Hpos), (MIN_rep H Hpos).
  rewrite (is_eq_rep H Hpos b 0 Wb), (is_eq_rep H Hpos b (-1) Wb), (is_eq_rep H Hpos a _ Wa) by (apply in256_iff; lia).
  fold W. destruct (Z.eqb_spec (value b) 0) as [Zb|Zb]; [reflexivity|].
  destruct ((value b =? -1) && (value a =? - (H * W))); [reflexivity|].
  rewrite (uval_abs H Hpos a Wa), (uval_abs H Hpos b Wb), (val_sign H Hpos a Wa), (val_sign H Hpos b Wb).
  rewrite <- Z.quot_div_nonneg, <- Z.rem_mod_nonneg, Z.quot_abs, Z.rem_abs by lia.
  f_equal. f_equal.
  - pose proof (quot_sign (value a) (value b)) as S.
    destruct (Bool.eqb _ _); [exact (sign_rep false _ S)|exact (sign_rep true _ S)].
  - apply sign_rep.
    pose proof (Zrem_lt_neg (value a) (value b)). pose proof (Zrem_lt_pos (value a) (value b)).
    destruct (Z.ltb_spec (value a) 0); lia.
Qed.

Theorem div_rem_spec a b : wf256 a -> wf256 b ->
  match div_rem256 H a b with
  | inr k => (k = E_DIVZERO /\ value b = 0) \/ (k = E_OVERFLOW /\ value a = - (H * W) /\ value b = -1)
  | inl (q, r) => value b <> 0 /\ wf256 q /\ wf256 r /\
                  value q = Z.quot (value a) (value b) /\ value r = Z.rem (value a) (value b)
  end.
Proof.
  intros Wa Wb. rewrite (div_rem_eq a b Wa Wb).
  destruct (Z.eqb_spec (value b) 0) as [Zb|Zb]; [left; auto|].
  destruct ((value b =? -1) && (value a =? - (H * W))) eqn:Ov.
  { apply andb_true_iff in Ov. destruct Ov as [Eb Ea]. apply Z.eqb_eq in Eb, Ea. right; auto. }
  (* the quotient is representable unless MIN / -1, the remainder always *)
  pose proof (proj2 (in256_iff H _) (val_range H Hpos a Wa)) as Ia.
  pose proof (proj2 (in256_iff H _) (val_range H Hpos b Wb)) as Ib.
  pose proof (quot_in_range (H * W) HWpos true _ _ Ia Ib Zb) as Rq. cbn [andb tmin] in Rq.
  rewrite andb_comm, Ov in Rq.
  split; [exact Zb|]. split; [apply rep_wf, Hpos|]. split; [apply rep_wf, Hpos|].
  split; apply (val_rep_small H Hpos); [exact Rq|].
  now apply (rem_in_range (H * W) HWpos).
Qed.

End Signs.

Section Product.
Variable B : Z.
Variable H : Z.
Hypothesis Bpos : 0 < B.
Hypothesis BB : B * B = 2 * H.
Let W := 2 * H.
Notation in256 := (in_range true (H * W)).
Notation value := (val H).
Notation wf256 := (wf256 H).

Let Hpos : 0 < H := limb_pos B H Bpos BB.
Let Wpos : 0 < W := dbl_pos H Hpos.

(* Checked additions of non-negative terms all succeed iff the total fits.  The left side is the
   tail of mul_magnitudes word for word (lo only rides along in its result), so that one rewrite
   replaces it. *)
Lemma u_checked_sum (lo : Z) hi hl lh : 0 <= hi -> 0 <= hl -> 0 <= lh ->
  match u_checked H hl with None => None | Some hl =>
  match u_checked H lh with None => None | Some lh =>
  match u_checked H (hi + hl) with None => None | Some hi1 =>
  match u_checked H (hi1 + lh) with None => None | Some hi2 => Some (lo, hi2)
  end end end end = if hi + hl + lh <? W then Some (lo, hi + hl + lh) else None.
Proof.
  intros Rh Rhl Rlh. unfold u_checked. fold W.
  assert (Big : W <= hi + hl + lh -> None = if hi + hl + lh <? W then Some (lo, hi + hl + lh) else None).
  { intros G. destruct (Z.ltb_spec (hi + hl + lh) W); [lia|reflexivity]. }
  destruct (Z.ltb_spec hl W); [|apply Big; lia].
  destruct (Z.ltb_spec lh W); [|apply Big; lia].
  destruct (Z.ltb_spec (hi + hl) W); [|apply Big; lia].
  now destruct (hi + hl + lh <? W).
Qed.

Lemma mul_magnitudes_spec la lb : wf256 la -> wf256 lb ->
  match mul_magnitudes B H la lb with
  | Some (lo, hi2) => uval H la * uval H lb = hi2 * W + lo /\ 0 <= lo < W /\ 0 <= hi2 < W
  | None => W * W <= uval H la * uval H lb
  end.
Proof.
  intros [Ral Rah] [Rbl Rbh]. unfold mul_magnitudes, uval. fold W.
  rewrite <- (wrapu_eq0 H Hpos (high la) Rah), <- (wrapu_eq0 H Hpos (high lb) Rbh).
  pose proof (wrapu_range H Hpos (high la)) as Rah'. pose proof (wrapu_range H Hpos (high lb)) as Rbh'.
  fold W in Ral, Rbl, Rah', Rbh'. clear Rah Rbh.
  (* from here on the limbs are four numbers al, bl, ah, bh in [0, W) *)
  generalize dependent (wrapu H (high lb)). generalize dependent (wrapu H (high la)).
  generalize dependent (low lb). generalize dependent (low la). clear la lb. intros al Ral bl Rbl ah Rah bh Rbh.
  rewrite (mulx_spec B H Bpos BB al bl Ral Rbl). fold W.
  pose proof (Z.div_mod (al * bl) W ltac:(lia)) as Dm.
  pose proof (Z.mod_pos_bound (al * bl) W Wpos) as Rlo.
  pose proof (mul_div_range B H Bpos BB al bl Ral Rbl) as Rhi. fold W in Rhi.
  set (lo := (al * bl) mod W) in *. set (hi := (al * bl) / W) in *.
  assert (Hx : 0 <= al * bh) by (apply Z.mul_nonneg_nonneg; lia).
  assert (Hy : 0 <= ah * bl) by (apply Z.mul_nonneg_nonneg; lia).
  rewrite (u_checked_sum lo hi (ah * bl) (al * bh)) by lia.
  destruct (negb (ah =? 0) && negb (bh =? 0)) eqn:Both.
  - (* both magnitudes are at least 2^128 *)
    apply andb_true_iff in Both. destruct Both as [A0 B0]. apply negb_true_iff, Z.eqb_neq in A0, B0.
    assert (W * 1 <= ah * W) by (rewrite (Z.mul_comm ah W); apply Z.mul_le_mono_nonneg_l; lia).
    assert (W * 1 <= bh * W) by (rewrite (Z.mul_comm bh W); apply Z.mul_le_mono_nonneg_l; lia).
    apply Z.mul_le_mono_nonneg; lia.
  - (* one high limb is zero: the product is (hi + ah*bl + al*bh) * W + lo *)
    assert (AB : ah * bh = 0).
    { apply andb_false_iff in Both. destruct Both as [E|E]; apply negb_false_iff, Z.eqb_eq in E; subst; ring. }
    replace ((ah * W + al) * (bh * W + bl)) with ((hi + ah * bl + al * bh) * W + lo)
      by (transitivity (ah * bh * (W * W) + (ah * bl + al * bh) * W + al * bl); [rewrite AB, Dm|]; ring).
    destruct (Z.ltb_spec (hi + ah * bl + al * bh) W) as [Lt|Ge]; [split; [reflexivity|lia]|].
    assert (W * W <= (hi + ah * bl + al * bh) * W) by (apply Z.mul_le_mono_nonneg_r; lia). lia.
Qed.

Theorem checked_mul_eq a b : wf256 a -> wf256 b -> checked_mul256 B H a b = checked H (value a * value b).
Proof.
  intros Wa Wb. unfold checked_mul256, is_negative.
  pose proof (half_pos H Hpos) as HW. fold W in HW. assert (Q : W * W = 2 * (H * W)) by (unfold W; ring).
  assert (I0 : in256 0 = true) by (apply in256_iff; lia).
  rewrite (ZERO_rep H Hpos), (is_eq_rep H Hpos a 0 Wa I0), (is_eq_rep H Hpos b 0 Wb I0).
  destruct (Z.eqb_spec (value a) 0) as [Za|Za]; cbn [orb]; [rewrite Za, Z.mul_0_l; symmetry; exact (checked_in H 0 I0)|].
  destruct (Z.eqb_spec (value b) 0) as [Zb|Zb]; cbn [orb]; [rewrite Zb, Z.mul_0_r; symmetry; exact (checked_in H 0 I0)|].
  pose proof (mul_magnitudes_spec _ _ (abs_wf H Hpos a Wa) (abs_wf H Hpos b Wb)) as M.
  rewrite (uval_abs H Hpos a Wa), (uval_abs H Hpos b Wb), <- Z.abs_mul in M.
  rewrite (val_sign H Hpos a Wa), (val_sign H Hpos b Wb), (sign_mul _ _ Za Zb).
  set (z := value a * value b) in *.
  destruct (mul_magnitudes B H (wrapping_abs256 H a) (wrapping_abs256 H b)) as [[lo hi2]|].
  - (* the magnitude fits 256 bits; the final sign check decides *)
    destruct M as [EP [Rlo Rhi2]].
    assert (Rz : Z.abs z < W * W).
    { rewrite EP. assert (hi2 * W <= (W - 1) * W) by (apply Z.mul_le_mono_nonneg_r; lia). lia. }
    rewrite (restore_sign_eq H Hpos _ _ _ Rlo Rhi2). fold W. rewrite <- EP.
    replace (if z <? 0 then - Z.abs z else Z.abs z) with z by (destruct (Z.ltb_spec z 0); lia).
    rewrite (val_sign H Hpos _ (rep_wf H Hpos z)), (val_rep H Hpos), (wrap256_sign H Hpos) by (fold W; lia).
    unfold checked. fold W. now destruct (in256 z).
  - symmetry. apply checked_out, not_true_iff_false. rewrite (in256_iff H). fold W. lia.
Qed.

End Product.

Example limbs_ok : 0 < 2 ^ 64 /\ 2 ^ 64 * 2 ^ 64 = 2 * 2 ^ 127.
Proof. split; [reflexivity|reflexivity]. Qed.
Example ex_checked_mul_edge :
  option_map (val (2 ^ 127)) (checked_mul256 (2 ^ 64) (2 ^ 127) (of_val (2 ^ 127) (- 2 ^ 128)) (of_val (2 ^ 127) (2 ^ 127)))
  = Some (- 2 ^ 255) /\
  checked_mul256 (2 ^ 64) (2 ^ 127) (of_val (2 ^ 127) (2 ^ 128)) (of_val (2 ^ 127) (2 ^ 127)) = None.
Proof. vm_compute. split; reflexivity. Qed.
Example ex_div_rem_min :
  div_rem256 (2 ^ 127) (of_val (2 ^ 127) (- 2 ^ 255)) (of_val (2 ^ 127) (-1)) = inr E_OVERFLOW /\
  match div_rem256 (2 ^ 127) (of_val (2 ^ 127) (- 2 ^ 255)) (of_val (2 ^ 127) 1) with
  | inl (q, r) => val (2 ^ 127) q = - 2 ^ 255 /\ val (2 ^ 127) r = 0 | inr _ => False end.
Proof. vm_compute. split; [reflexivity|split; reflexivity]. Qed.
