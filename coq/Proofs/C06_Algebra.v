(* C06 — intersection, union, split_off, offset, limit, trim, the counters and concatenation.

   How an operation on run-length lists is proved, here and in the other C06 files: (1) a run lemma
   of its bit-level specification, spec (repeat b c ++ rest) = closed form (named *_run; two of
   them when skip and select runs are treated differently); (2) a walk lemma about the model loop,
   by induction on the selector list, or on the fuel for a loop over two lists, with dens_cons for
   a run consumed whole and dens_split_head for a head run that is cut; (3) the den_ theorem, which
   splits on the backing, the bitmap side being one induction on the bitmap. *)
From Coq Require Import List Arith Lia Bool.
From AV Require Import Base.ListX Model.C06_RowSel Proofs.C06_Construct.
Import ListNotations.

(* The side condition of trim, selects_any and the mask plan: every select run is non-empty (an
   empty one stops trim's pop loop and makes selects_any answer true).  It is weaker than [nonzero]
   of C06_Construct.v, which from_iter, mask_to_selectors and from_consecutive_ranges establish and
   and_then asks for (nonzero_rowsel, C06_Total.v).  No operation of the algebra is shown to keep either. *)
Definition selects_nonzero (l : list sel) : Prop := Forall (fun s : sel => fst s = false -> snd s <> 0) l.

Lemma nonzero_selects_nonzero l : nonzero l -> selects_nonzero l.
Proof. apply Forall_impl. intros a H _. exact H. Qed.

Definition wf_rowsel (s : rowsel) : Prop :=
  match s with Sels l => selects_nonzero l | Mask _ => True end.

Lemma zip_tail_nil_r f a : zip_tail f a [] = a.
Proof. destruct a; reflexivity. Qed.

Lemma zip_tail_run f x y n a b :
  zip_tail f (repeat x n ++ a) (repeat y n ++ b) = repeat (f x y) n ++ zip_tail f a b.
Proof. induction n as [|n IH]; cbn [repeat app zip_tail]; congruence. Qed.

Lemma zip_tail_comm f (Hf : forall x y, f x y = f y x) a : forall b, zip_tail f a b = zip_tail f b a.
Proof.
  induction a as [|x a IH]; intros [|y b]; cbn [zip_tail]; try reflexivity.
  rewrite Hf, IH. reflexivity.
Qed.

(* one step of the from_fn stream of intersect_row_selections / union_row_selections: an empty head
   is dropped; otherwise the shorter of the two head runs is emitted with kind [k] and the rest of
   the longer one stays *)
Definition merge_step (k : bool -> bool -> bool) (go : list sel -> list sel -> list sel)
    (l r : list sel) : list sel :=
  match l with
  | [] => r
  | (ls, ln) :: l' =>
    if ln =? 0 then go l' r else
    match r with
    | [] => l
    | (rs, rn) :: r' =>
      if rn =? 0 then go l r' else
      if ln <? rn then (k ls rs, ln) :: go l' ((rs, rn - ln) :: r')
      else (k ls rs, rn) :: go ((ls, ln - rn) :: l') r'
    end
  end.

(* [k] combines the skip flags of the two head runs, [f] the bits they denote; a flag is the
   negation of its bits, hence the first premise *)
Lemma merge_dens k f (go : nat -> list sel -> list sel -> list sel) :
  (forall x y, negb (k x y) = f (negb x) (negb y)) ->
  (forall n l r, go (S n) l r = merge_step k (go n) l r) ->
  forall fuel l r, length l + length r < fuel -> dens (go fuel l r) = zip_tail f (dens l) (dens r).
Proof.
  intros Hk Hgo. induction fuel as [|fuel IH]; intros l r Hf; [lia|]. rewrite Hgo. unfold merge_step.
  destruct l as [|[ls ln] l']; [reflexivity|].
  destruct (Nat.eqb_spec ln 0) as [->|Hln].
  { rewrite IH by (cbn [length] in Hf; lia). reflexivity. }
  destruct r as [|[rs rn] r']; [now rewrite dens_nil, zip_tail_nil_r|].
  destruct (Nat.eqb_spec rn 0) as [->|Hrn].
  { rewrite IH by (cbn [length] in *; lia). reflexivity. }
  cbn [length] in Hf.
  destruct (Nat.ltb_spec ln rn) as [Hlt|Hge].
  - rewrite (dens_split_head rs rn ln), (dens_cons ls ln), zip_tail_run, dens_cons, Hk, IH
      by (cbn [length]; lia). reflexivity.
  - rewrite (dens_split_head ls ln rn), (dens_cons rs rn), zip_tail_run, dens_cons, Hk, IH
      by (cbn [length]; lia). reflexivity.
Qed.

(* a run of the intersection skips if either operand does, a run of the union if both do.  With the
   two head flags given as constructors the model's test on them reduces to the branch emitting the
   flag that orb / andb compute; the tests on the counts are the same on both sides *)
Lemma isect_go_step n l r : isect_go (S n) l r = merge_step orb (isect_go n) l r.
Proof. destruct l as [|[[] ln] l'], r as [|[[] rn] r']; reflexivity. Qed.

Lemma union_go_step n l r : union_go (S n) l r = merge_step andb (union_go n) l r.
Proof. destruct l as [|[[] ln] l'], r as [|[[] rn] r']; reflexivity. Qed.

Lemma intersect_sels_dens l r : dens (intersect_sels l r) = intersection_spec (dens l) (dens r).
Proof.
  unfold intersect_sels. rewrite from_iter_dens. apply (merge_dens orb andb isect_go negb_orb isect_go_step). lia.
Qed.

Lemma union_sels_dens l r : dens (union_sels l r) = union_spec (dens l) (dens r).
Proof.
  unfold union_sels. rewrite from_iter_dens. apply (merge_dens andb orb union_go negb_andb union_go_step). lia.
Qed.

Lemma zip_with_tail f a : forall b, length b <= length a ->
  zip_with f (firstn (length b) a) b ++ skipn (length b) a = zip_tail f a b.
Proof.
  induction a as [|x a IH]; intros [|y b] H; cbn [length] in *; try reflexivity; [lia|].
  cbn [firstn skipn zip_with zip_tail app]. f_equal. apply IH. lia.
Qed.

Lemma combine_masks_spec f (Hf : forall x y, f x y = f y x) l r :
  combine_masks f l r = zip_tail f l r.
Proof.
  unfold combine_masks.
  destruct (Nat.eqb_spec (length l) (length r)) as [He|Hne].
  { rewrite <- (zip_with_tail f l r) by lia. now rewrite <- He, firstn_all, skipn_all, app_nil_r. }
  destruct (Nat.ltb_spec (length r) (length l)) as [Hlt|Hge].
  - apply zip_with_tail. lia.
  - rewrite zip_with_tail by lia. now apply zip_tail_comm.
Qed.

Theorem den_intersection a b : den (intersection a b) = intersection_spec (den a) (den b).
Proof.
  destruct a as [l|l], b as [r|r]; cbn [intersection den].
  - (* Sels, Sels *) now rewrite intersect_sels_dens.
  - (* Sels, Mask *) now rewrite intersect_sels_dens, !dens_selectors_of.
  - (* Mask, Sels *) now rewrite intersect_sels_dens, !dens_selectors_of.
  - (* Mask, Mask *) apply combine_masks_spec, andb_comm.
Qed.

Theorem den_union a b : den (union a b) = union_spec (den a) (den b).
Proof.
  destruct a as [l|l], b as [r|r]; cbn [union den].
  - (* Sels, Sels *) now rewrite union_sels_dens.
  - (* Sels, Mask *) now rewrite union_sels_dens, !dens_selectors_of.
  - (* Mask, Sels *) now rewrite union_sels_dens, !dens_selectors_of.
  - (* Mask, Mask *) apply combine_masks_spec, orb_comm.
Qed.

Lemma split_go_spec l : forall total n, total <= n ->
  match split_go l total n with
  | Some (h, t) => dens h ++ dens t = dens l /\ total + length (dens h) = n
  | None => total + length (dens l) <= n
  end.
Proof.
  induction l as [|[sk c] l IH]; intros total n Hle; cbn [split_go].
  - cbn. lia.
  - destruct (Nat.ltb_spec n (total + c)) as [Hlt|Hge].
    + split.
      * destruct (Nat.eqb_spec c (total + c - n)) as [He|Hne].
        -- rewrite <- He. reflexivity.
        -- rewrite dens_one, (dens_cons sk (total + c - n)), (dens_cons sk c), app_assoc.
           f_equal. rewrite <- repeat_app. f_equal. lia.
      * destruct (Nat.eqb_spec c (total + c - n)) as [He|Hne].
        -- cbn. lia.
        -- rewrite dens_one, repeat_length. lia.
    + specialize (IH (total + c) n Hge).
      destruct (split_go l (total + c) n) as [[h t]|].
      * destruct IH as [Hd Hl]. split.
        -- rewrite !dens_cons, <- app_assoc, Hd. reflexivity.
        -- rewrite dens_cons, app_length, repeat_length. lia.
      * rewrite dens_cons, app_length, repeat_length. lia.
Qed.

Theorem den_split_off s n :
  den (fst (split_off s n)) = firstn n (den s) /\ den (snd (split_off s n)) = skipn n (den s).
Proof.
  destruct s as [l|m]; cbn [split_off].
  - unfold split_off_sels. pose proof (split_go_spec l 0 n (Nat.le_0_l n)) as H.
    destruct (split_go l 0 n) as [[h t]|]; cbn [fst snd den].
    + destruct H as [<- Hl]. split; symmetry; [apply firstn_app_exact|apply skipn_app_exact]; lia.
    + cbn [Nat.add] in H. rewrite firstn_all2, skipn_all2 by exact H. split; reflexivity.
  - unfold split_off_mask. destruct (Nat.leb_spec (length m) n) as [Hle|Hgt]; cbn [fst snd den].
    + rewrite firstn_all2, skipn_all2 by exact Hle. split; reflexivity.
    + split; reflexivity.
Qed.

Theorem den_split_off_parts s n :
  den (fst (split_off s n)) ++ den (snd (split_off s n)) = den s
  /\ length (den (fst (split_off s n))) = Nat.min n (length (den s)).
Proof.
  destruct (den_split_off s n) as [H1 H2]. rewrite H1, H2. split.
  - apply firstn_skipn.
  - apply firstn_length.
Qed.

Lemma clear_first_false_run c : forall k rest,
  clear_first k (repeat false c ++ rest) = repeat false c ++ clear_first k rest.
Proof.
  induction c as [|c IH]; intros k rest; [reflexivity|].
  cbn [repeat app]. destruct k as [|k].
  - destruct rest; reflexivity.
  - cbn [clear_first]. now rewrite IH.
Qed.

Lemma clear_first_0 l : clear_first 0 l = l.
Proof. destruct l; reflexivity. Qed.

Lemma clear_first_true_run c : forall k rest,
  clear_first k (repeat true c ++ rest)
  = repeat false (Nat.min k c) ++ repeat true (c - k) ++ clear_first (k - c) rest.
Proof.
  induction c as [|c IH]; intros k rest.
  - cbn [repeat app Nat.min Nat.sub]. rewrite Nat.min_0_r, Nat.sub_0_r. reflexivity.
  - destruct k as [|k].
    + cbn [Nat.min Nat.sub repeat app]. now rewrite clear_first_0, clear_first_0.
    + cbn [repeat app clear_first]. rewrite IH. reflexivity.
Qed.

Lemma offset_go_spec l : forall selected skipped offset, selected <= offset ->
  match offset_go l selected skipped offset with
  | Some res => dens res = repeat false (skipped + selected) ++ clear_first (offset - selected) (dens l)
                /\ offset - selected < count_true (dens l)
  | None => count_true (dens l) <= offset - selected
  end.
Proof.
  induction l as [|[sk c] l IH]; intros selected skipped offset Hle; cbn [offset_go].
  - cbn. lia.
  - destruct sk.
    + specialize (IH selected (skipped + c) offset Hle). rewrite dens_cons. cbn [negb].
      rewrite count_true_app, count_true_repeat, clear_first_false_run.
      destruct (offset_go l selected (skipped + c) offset); [|exact IH].
      destruct IH as [Hd Hc]. split; [|exact Hc].
      rewrite Hd, app_assoc, <- repeat_app. do 2 f_equal. lia.
    + rewrite dens_cons. cbn [negb]. rewrite count_true_app, count_true_repeat, clear_first_true_run.
      destruct (Nat.ltb_spec offset (selected + c)) as [Hlt|Hge].
      * split; [|lia]. rewrite !dens_cons. cbn [negb].
        replace (offset - selected - c) with 0 by lia. rewrite clear_first_0.
        rewrite (app_assoc (repeat false (skipped + selected))), <- repeat_app.
        f_equal; [f_equal; lia|]. f_equal. f_equal. lia.
      * specialize (IH (selected + c) skipped offset Hge).
        destruct (offset_go l (selected + c) skipped offset).
        -- destruct IH as [Hd Hc]. split; [|lia]. rewrite Hd.
           replace (c - (offset - selected)) with 0 by lia. cbn [repeat app].
           rewrite (app_assoc (repeat false (skipped + selected))), <- repeat_app.
           f_equal; [f_equal; lia|f_equal; lia].
        -- lia.
Qed.

Lemma offset_mask_spec m : forall n,
  repeat false (find_nth m n) ++ skipn (find_nth m n) m = clear_first n m.
Proof.
  induction m as [|b m IH]; intros n; [now destruct n|].
  destruct n as [|n]; [reflexivity|].
  cbn [find_nth repeat skipn app clear_first]. f_equal. apply IH.
Qed.

Theorem den_offset s n : den (offset s n) = offset_spec n (den s).
Proof.
  unfold offset, offset_spec. destruct (Nat.eqb_spec n 0) as [Hn|Hn]; [reflexivity|].
  destruct s as [l|m]; cbn [den].
  - unfold offset_sels. pose proof (offset_go_spec l 0 0 n (Nat.le_0_l n)) as H.
    rewrite Nat.sub_0_r in H.
    destruct (offset_go l 0 0 n) as [res|].
    + destruct H as [Hd Hc]. destruct (Nat.leb_spec (count_true (dens l)) n); [lia|]. exact Hd.
    + destruct (Nat.leb_spec (count_true (dens l)) n); [reflexivity|lia].
  - unfold offset_mask. destruct (Nat.leb_spec (count_true m) n) as [Hle|Hgt]; [reflexivity|].
    apply offset_mask_spec.
Qed.

Lemma limit_spec_false_run c : forall n rest, n <> 0 ->
  limit_spec n (repeat false c ++ rest) = repeat false c ++ limit_spec n rest.
Proof.
  induction c as [|c IH]; intros n rest Hn; [reflexivity|].
  destruct n as [|n]; [lia|]. cbn [repeat app limit_spec]. now rewrite IH.
Qed.

Lemma limit_spec_true_run c : forall n rest,
  limit_spec n (repeat true c ++ rest) = repeat true (Nat.min n c) ++ (if n <=? c then [] else limit_spec (n - c) rest).
Proof.
  induction c as [|c IH]; intros n rest.
  - cbn [repeat app]. rewrite Nat.min_0_r, Nat.sub_0_r. cbn [repeat app].
    destruct n; [destruct rest; reflexivity|reflexivity].
  - destruct n as [|n]; [reflexivity|].
    cbn [repeat app limit_spec Nat.min]. rewrite IH. reflexivity.
Qed.

Lemma limit_go_spec l : forall n, n <> 0 -> dens (limit_go l n) = limit_spec n (dens l).
Proof.
  induction l as [|[sk c] l IH]; intros n Hn; cbn [limit_go].
  - destruct n; reflexivity.
  - destruct sk.
    + rewrite !dens_cons. cbn [negb]. rewrite limit_spec_false_run by exact Hn. now rewrite IH.
    + rewrite (dens_cons false c l). cbn [negb]. rewrite limit_spec_true_run.
      destruct (Nat.leb_spec n c) as [Hle|Hgt].
      * rewrite dens_one, app_nil_r. cbn [negb]. now rewrite Nat.min_l by exact Hle.
      * rewrite dens_cons, IH by lia. cbn [negb]. now rewrite Nat.min_r by lia.
Qed.

Lemma limit_mask_spec m : forall n, firstn (find_nth m n) m = limit_spec n m.
Proof.
  induction m as [|b m IH]; intros n; [destruct n; reflexivity|].
  destruct n as [|n]; [reflexivity|]. cbn [find_nth firstn limit_spec]. now rewrite IH.
Qed.

Theorem den_limit s n : den (limit s n) = limit_spec n (den s).
Proof.
  destruct s as [l|m]; cbn [limit den].
  - unfold limit_sels. destruct (Nat.eqb_spec n 0) as [->|Hn].
    + destruct (dens l); reflexivity.
    + now apply limit_go_spec.
  - apply limit_mask_spec.
Qed.

Lemma trim_spec_snoc m b : trim_spec (m ++ [b]) = if b then m ++ [b] else trim_spec m.
Proof.
  unfold trim_spec. rewrite rev_app_distr. cbn [rev app drop_false].
  destruct b; [cbn [rev]; now rewrite rev_involutive|reflexivity].
Qed.

Lemma trim_spec_prefix m : exists k, m = trim_spec m ++ repeat false k.
Proof.
  induction m as [|b m (k & Hk)] using rev_ind; [now exists 0|]. rewrite trim_spec_snoc.
  destruct b; [exists 0; now rewrite app_nil_r|].
  exists (S k). rewrite Hk at 1. cbn [repeat]. now rewrite repeat_cons, app_assoc.
Qed.

Lemma drop_false_run c rest : drop_false (repeat false c ++ rest) = drop_false rest.
Proof. induction c as [|c IH]; [reflexivity|]. cbn [repeat app drop_false]. exact IH. Qed.

Lemma trim_sels_snoc l sk c : trim_sels (l ++ [(sk, c)]) = if sk then trim_sels l else l ++ [(sk, c)].
Proof.
  unfold trim_sels. rewrite rev_app_distr. cbn [rev app drop_skips].
  destruct sk; [reflexivity|cbn [rev]; now rewrite rev_involutive].
Qed.

Lemma trim_sels_prefix l : exists k, dens l = dens (trim_sels l) ++ repeat false k.
Proof.
  induction l as [|[sk c] l (k & Hk)] using rev_ind; [now exists 0|]. rewrite trim_sels_snoc, dens_snoc.
  destruct sk; [|exists 0; now rewrite dens_snoc, app_nil_r].
  exists (k + c). rewrite Hk at 1. cbn [negb]. now rewrite repeat_app, app_assoc.
Qed.

Lemma rev_dens l : rev (dens l) = dens (rev l).
Proof.
  induction l as [|[sk n] l IH]; [reflexivity|].
  cbn [rev]. now rewrite dens_cons, rev_app_distr, rev_repeat, IH, dens_snoc.
Qed.

(* an empty select run stops the pop loop although it denotes no row: hence the side condition *)
Lemma drop_skips_dens l : selects_nonzero l -> dens (drop_skips l) = drop_false (dens l).
Proof.
  induction 1 as [|[sk c] l Hx Hl IH]; [reflexivity|].
  rewrite dens_cons. destruct sk; cbn [drop_skips negb].
  - now rewrite drop_false_run.
  - destruct c as [|c]; [now specialize (Hx eq_refl)|]. now rewrite dens_cons.
Qed.

Lemma trim_sels_spec l : selects_nonzero l -> dens (trim_sels l) = trim_spec (dens l).
Proof.
  intros H. unfold trim_sels, trim_spec.
  now rewrite <- rev_dens, drop_skips_dens, <- rev_dens by (apply Forall_rev, H).
Qed.

Lemma trim_spec_last_true m : last m false = true -> trim_spec m = m.
Proof.
  intros H. destruct m as [|b m]; [reflexivity|].
  assert (Hne : b :: m <> []) by discriminate.
  now rewrite (app_removelast_last false Hne), H, trim_spec_snoc.
Qed.

Lemma last_true_snoc m b : forall pos found,
  last_true (m ++ [b]) pos found = if b then Some (pos + length m) else last_true m pos found.
Proof.
  induction m as [|x m IH]; intros pos found; cbn [app last_true length].
  - destruct b; [now rewrite Nat.add_0_r|reflexivity].
  - rewrite IH. now rewrite Nat.add_succ_r.
Qed.

Lemma last_true_trim m :
  match last_true m 0 None with Some p => S p | None => 0 end = length (trim_spec m).
Proof.
  induction m as [|b m IH] using rev_ind; [reflexivity|]. rewrite last_true_snoc, trim_spec_snoc.
  destruct b; [|exact IH]. rewrite app_length. cbn [length]. lia.
Qed.

Lemma trim_mask_spec m : trim_mask m = trim_spec m.
Proof.
  unfold trim_mask. destruct (Nat.eqb_spec (length m) 0) as [H0|H0].
  - destruct m; [reflexivity|discriminate].
  - cbn [orb]. destruct (last m false) eqn:El; [symmetry; now apply trim_spec_last_true|].
    rewrite last_true_trim. destruct (trim_spec_prefix m) as (k & Hk).
    rewrite Hk at 2. now apply firstn_app_exact.
Qed.

Theorem den_trim s : wf_rowsel s -> den (trim s) = trim_spec (den s).
Proof.
  destruct s as [l|m]; cbn [trim den wf_rowsel]; intros H.
  - now apply trim_sels_spec.
  - apply trim_mask_spec.
Qed.

(* without the side condition the statement is false *)
Theorem den_trim_unrestricted_refuted :
  exists s, den (trim s) <> trim_spec (den s).
Proof. exists (Sels [(false, 1); (true, 1); (false, 0)]). cbn. discriminate. Qed.

Theorem selects_any_den s : wf_rowsel s -> selects_any s = selects_any_spec (den s).
Proof.
  unfold selects_any_spec. destruct s as [l|m]; cbn [selects_any den wf_rowsel]; [|reflexivity].
  induction 1 as [|[sk c] l Hx Hl IH]; [reflexivity|].
  cbn [existsb fst]. rewrite dens_cons, existsb_app, existsb_repeat, IH.
  destruct sk; cbn [negb andb orb]; [reflexivity|].
  destruct c; [now specialize (Hx eq_refl)|reflexivity].
Qed.

Lemma selects_any_false_count s : selects_any s = false -> count_true (den s) = 0.
Proof.
  destruct s as [l|m]; cbn [selects_any den].
  - induction l as [|[sk c] l IH]; [reflexivity|]. cbn [existsb fst]. intros H.
    apply orb_false_elim in H as [H1 H2]. destruct sk; [|discriminate].
    rewrite dens_cons, count_true_app, count_true_repeat. cbn [negb]. now apply IH.
  - induction m as [|b m IH]; [reflexivity|]. cbn [existsb]. intros H.
    apply orb_false_elim in H as [H1 H2]. subst b. cbn [count_true]. now apply IH.
Qed.

Theorem selects_any_unrestricted_refuted :
  exists s, selects_any s <> selects_any_spec (den s).
Proof. exists (Sels [(false, 0)]). cbn. discriminate. Qed.

Theorem row_count_den s : row_count s = count_true (den s).
Proof.
  destruct s as [l|m]; cbn [row_count den]; [|reflexivity].
  induction l as [|[sk c] l IH]; [reflexivity|].
  rewrite dens_cons, count_true_app, count_true_repeat. cbn [filter fst negb].
  destruct sk; cbn [negb]; [exact IH|]. rewrite sum_counts_cons, IH. reflexivity.
Qed.

Theorem total_row_count_den s : total_row_count s = length (den s).
Proof. destruct s as [l|m]; cbn [total_row_count den]; [|reflexivity]. now rewrite dens_length. Qed.

Theorem skipped_row_count_den s : skipped_row_count s = length (den s) - count_true (den s).
Proof.
  destruct s as [l|m]; cbn [skipped_row_count den]; [|reflexivity].
  induction l as [|[sk c] l IH]; [reflexivity|].
  rewrite dens_cons, app_length, repeat_length, count_true_app, count_true_repeat. cbn [filter fst].
  pose proof (count_true_le (dens l)).
  destruct sk; cbn [negb]; [rewrite sum_counts_cons, IH|rewrite IH]; lia.
Qed.

Theorem counters_den s :
  row_count s = count_true (den s) /\ total_row_count s = length (den s)
  /\ skipped_row_count s = length (den s) - count_true (den s).
Proof. split; [apply row_count_den|split; [apply total_row_count_den|apply skipped_row_count_den]]. Qed.

Lemma dens_flat_map_selectors l : dens (flat_map selectors_of l) = flat_map den l.
Proof.
  induction l as [|s l IH]; [reflexivity|]. cbn [flat_map]. now rewrite dens_app, IH, dens_selectors_of.
Qed.

Theorem den_concat l : den (concat_sel l) = flat_map den l.
Proof.
  unfold concat_sel. destruct (forallb is_mask l); cbn [den]; [reflexivity|].
  now rewrite from_iter_dens, dens_flat_map_selectors.
Qed.

(* non-vacuity of the side condition: a concrete selection satisfying it on which trim acts *)
Example trim_example :
  wf_rowsel (Sels [(false, 2); (true, 3); (false, 1); (true, 4)])
  /\ den (trim (Sels [(false, 2); (true, 3); (false, 1); (true, 4)])) = [true; true; false; false; false; true].
Proof. split; [repeat constructor; cbn; discriminate|reflexivity]. Qed.
