(* C17 — JSON strings: the reader's unescape inverts the writer's escape on every byte string, and decodes
   \uXXXX escapes (surrogate pairs included) of every scalar value, under the RFC combination and under
   the combination written in tape.rs (char_from_surrogate_pair; sp_combine_ok shows the two agree). *)
From Coq Require Import List NArith Lia Bool ZifyBool.
From AV Require Import Base.Bits Base.Utf8 Model.C17_Json.
Import ListNotations.
Local Open Scope N_scope.

Lemma parse_hex_decimal b : 48 <= b <= 57 -> parse_hex b = Some (b - 48).
Proof. intros H. unfold parse_hex. now replace ((48 <=? b) && (b <=? 57)) with true by lia. Qed.

Lemma parse_hex_lower b : 97 <= b <= 102 -> parse_hex b = Some (b - 87).
Proof.
  intros H. unfold parse_hex. replace ((48 <=? b) && (b <=? 57)) with false by lia.
  now replace ((97 <=? b) && (b <=? 102)) with true by lia.
Qed.

Lemma parse_hex_upper b : 65 <= b <= 70 -> parse_hex b = Some (b - 55).
Proof.
  intros H. unfold parse_hex. replace ((48 <=? b) && (b <=? 57)) with false by lia.
  replace ((97 <=? b) && (b <=? 102)) with false by lia.
  now replace ((65 <=? b) && (b <=? 70)) with true by lia.
Qed.

Lemma parse_hex_digit n : n < 16 -> parse_hex (hex_digit n) = Some n.
Proof.
  intros H. unfold hex_digit. destruct (N.ltb_spec n 10);
    [rewrite parse_hex_decimal by lia|rewrite parse_hex_lower by lia]; f_equal; lia.
Qed.

Lemma parse_hex_digit_uc n : n < 16 -> parse_hex (hex_digit_uc n) = Some n.
Proof.
  intros H. unfold hex_digit_uc. destruct (N.ltb_spec n 10);
    [rewrite parse_hex_decimal by lia|rewrite parse_hex_upper by lia]; f_equal; lia.
Qed.

Lemma lor_nibble x y : y < 16 -> N.lor (N.shiftl x 4) y = x * 16 + y.
Proof.
  intros Hy. rewrite N.lor_comm. rewrite lor_shift_add by (change (2^4) with 16; exact Hy).
  change (2^4) with 16. lia.
Qed.

Lemma hex4_digits a b c d x y z w :
  parse_hex a = Some x -> parse_hex b = Some y -> parse_hex c = Some z -> parse_hex d = Some w ->
  y < 16 -> z < 16 -> w < 16 -> hex4 a b c d = Some (((x * 16 + y) * 16 + z) * 16 + w).
Proof. intros Ha Hb Hc Hd Hy Hz Hw. unfold hex4. rewrite Ha, Hb, Hc, Hd. now rewrite !lor_nibble. Qed.

Lemma nibble_split x : x / 16 * 16 + x mod 16 = x.
Proof. rewrite N.mul_comm. symmetry. apply N.div_mod. discriminate. Qed.

Lemma hex4_u_escape u : u < 65536 ->
  hex4 (hex_digit_uc (u / 4096)) (hex_digit_uc ((u / 256) mod 16)) (hex_digit_uc ((u / 16) mod 16)) (hex_digit_uc (u mod 16)) = Some u.
Proof.
  intros Hu.
  assert (H3 : u / 4096 < 16) by (apply N.div_lt_upper_bound; [discriminate|exact Hu]).
  assert (Hm : forall x, x mod 16 < 16) by (intros x; apply N.mod_lt; discriminate).
  rewrite (hex4_digits _ _ _ _ (u / 4096) ((u / 256) mod 16) ((u / 16) mod 16) (u mod 16)) by auto using parse_hex_digit_uc.
  f_equal. change 4096 with (256 * 16). rewrite <- N.div_div, nibble_split by discriminate.
  change 256 with (16 * 16). rewrite <- N.div_div by discriminate. now rewrite !nibble_split.
Qed.

(* \u00XY, as the writer spells a control character, reads back as any byte *)
Lemma hex4_byte b : b < 256 -> hex4 48 48 (hex_digit (b / 16)) (hex_digit (b mod 16)) = Some b.
Proof.
  intros Hb.
  assert (H1 : b / 16 < 16) by (apply N.div_lt_upper_bound; [discriminate|exact Hb]).
  assert (H0 : b mod 16 < 16) by (apply N.mod_lt; discriminate).
  rewrite (hex4_digits 48 48 _ _ 0 0 _ _ eq_refl eq_refl (parse_hex_digit _ H1) (parse_hex_digit _ H0) eq_refl H1 H0).
  f_equal. apply nibble_split.
Qed.

Lemma is_bmp_char_iff u : is_bmp_char u = true <-> u < 55296 \/ 57343 < u.
Proof. unfold is_bmp_char. lia. Qed.

Section Go.
Variable comb : N -> N -> N.

Lemma go_plain b r acc : b <> 34 -> b <> 92 -> unescape_go comb (b :: r) acc = unescape_go comb r (b :: acc).
Proof. intros H1 H2. cbn [unescape_go]. apply N.eqb_neq in H1, H2. now rewrite H1, H2. Qed.

Lemma go_u16 h1 h2 h3 h4 u r acc : hex4 h1 h2 h3 h4 = Some u -> is_bmp_char u = true ->
  unescape_go comb (92 :: 117 :: h1 :: h2 :: h3 :: h4 :: r) acc = unescape_go comb r (rev (encode u) ++ acc).
Proof. intros Hh Hb. cbn [unescape_go N.eqb Pos.eqb]. now rewrite Hh, Hb. Qed.

Lemma go_pair h1 h2 h3 h4 l1 l2 l3 l4 high low c r acc :
  hex4 h1 h2 h3 h4 = Some high -> is_bmp_char high = false ->
  hex4 l1 l2 l3 l4 = Some low -> surrogate_pair comb low high = Some c ->
  unescape_go comb (92 :: 117 :: h1 :: h2 :: h3 :: h4 :: 92 :: 117 :: l1 :: l2 :: l3 :: l4 :: r) acc
  = unescape_go comb r (rev (encode c) ++ acc).
Proof. intros Hh Hb Hl Hc. cbn [unescape_go N.eqb Pos.eqb andb]. now rewrite Hh, Hb, Hl, Hc. Qed.

(* the writer's escape of one byte is consumed and the byte pushed: seven two-character escapes, \u00XY for
   the other control characters, every other byte verbatim *)
Lemma step_byte b tail acc :
  unescape_go comb (escape_byte b ++ tail) acc = unescape_go comb tail (b :: acc).
Proof.
  unfold escape_byte.
  destruct (N.eqb_spec b 34) as [->|H34]; [reflexivity|].
  destruct (N.eqb_spec b 92) as [->|H92]; [reflexivity|].
  destruct (N.eqb_spec b 8) as [->|_]; [reflexivity|].
  destruct (N.eqb_spec b 9) as [->|_]; [reflexivity|].
  destruct (N.eqb_spec b 10) as [->|_]; [reflexivity|].
  destruct (N.eqb_spec b 12) as [->|_]; [reflexivity|].
  destruct (N.eqb_spec b 13) as [->|_]; [reflexivity|].
  destruct (N.ltb_spec b 32) as [Hc|Hp]; [|now apply go_plain].
  replace (b :: acc) with (rev (encode b) ++ acc) by (now rewrite encode_ascii by lia).
  apply go_u16; [apply hex4_byte; lia|apply is_bmp_char_iff; lia].
Qed.

Lemma unescape_go_escape s : forall rest acc,
  unescape_go comb (escape s ++ 34 :: rest) acc = Some (rev acc ++ s, rest).
Proof.
  induction s as [|b s IH]; intros rest acc.
  - cbn. now rewrite app_nil_r.
  - change (escape (b :: s)) with (escape_byte b ++ escape s). rewrite <- app_assoc.
    rewrite step_byte, IH. cbn [rev]. now rewrite <- app_assoc.
Qed.

Lemma step_pair q r c tail acc : q < 1024 -> r < 1024 -> comb (55296 + q) (56320 + r) = c -> scalar c = true ->
  unescape_go comb (u_escape16 (55296 + q) ++ u_escape16 (56320 + r) ++ tail) acc
  = unescape_go comb tail (rev (encode c) ++ acc).
Proof.
  intros Hq Hr Hc Hs. apply (go_pair _ _ _ _ _ _ _ _ (55296 + q) (56320 + r)); try (apply hex4_u_escape; lia).
  - apply not_true_is_false. rewrite is_bmp_char_iff. lia.
  - unfold surrogate_pair. rewrite Hc, Hs.
    now replace ((56320 <=? 56320 + r) && (56320 + r <=? 57343) && (55296 <=? 55296 + q) && (55296 + q <=? 56319)) with true by lia.
Qed.

Lemma u_escape_any c tail acc : scalar c = true ->
  (65536 <= c -> comb (55296 + (c - 65536) / 1024) (56320 + (c - 65536) mod 1024) = c) ->
  unescape_go comb (u_escape c ++ tail) acc = unescape_go comb tail (rev (encode c) ++ acc).
Proof.
  intros Hs Hc. pose proof (proj1 (scalar_iff c) Hs) as Hr. unfold u_escape.
  destruct (N.ltb_spec c 65536) as [Hlt|Hge].
  - apply go_u16; [now apply hex4_u_escape|apply is_bmp_char_iff; lia].
  - rewrite <- app_assoc. apply step_pair; auto.
    + apply N.div_lt_upper_bound; [discriminate|lia].
    + apply N.mod_lt. discriminate.
Qed.
End Go.

Theorem unescape_escape_any comb s rest : unescape comb (escape s ++ 34 :: rest) = Some (s, rest).
Proof. unfold unescape. now rewrite unescape_go_escape. Qed.

Lemma sp_spec_halves c : 65536 <= c -> sp_spec (55296 + (c - 65536) / 1024) (56320 + (c - 65536) mod 1024) = c.
Proof.
  intros H. unfold sp_spec. rewrite (N.add_comm 55296), (N.add_comm 56320), !N.add_sub.
  rewrite <- N.add_assoc, (N.mul_comm _ 1024), <- N.div_mod by discriminate. lia.
Qed.

(* S: every scalar value, written as \uXXXX or as a surrogate pair, is decoded to its UTF-8 bytes *)
Theorem u_escape_spec c tail acc : scalar c = true ->
  unescape_go sp_spec (u_escape c ++ tail) acc = unescape_go sp_spec tail (rev (encode c) ++ acc).
Proof. intros Hs. apply u_escape_any; [exact Hs|apply sp_spec_halves]. Qed.

(* M: the combination of tape.rs equals the RFC one *)
Lemma sp_combine_ok high low : sp_combine high low = sp_spec high low.
Proof. unfold sp_combine, sp_spec. rewrite N.shiftl_mul_pow2. change (2^10) with 1024. lia. Qed.

Theorem u_escape_impl c tail acc : scalar c = true ->
  unescape_go sp_combine (u_escape c ++ tail) acc = unescape_go sp_combine tail (rev (encode c) ++ acc).
Proof. intros Hs. apply u_escape_any; [exact Hs|]. intros H. rewrite sp_combine_ok. now apply sp_spec_halves. Qed.

(* non-vacuity: U+20000.  Its high surrogate D840 has offset 0x40, and 0x40 << 10 is the bit 0x10000 that the
   combination also adds: the first code point on which `|` in place of `+` gives another result *)
Example u_escape_impl_20000 : unescape sp_combine (u_escape 131072 ++ [34]) = Some (encode 131072, []).
Proof. reflexivity. Qed.

Theorem string_value_escape comb cps : Forall (fun c => scalar c = true) cps ->
  string_value comb (escape (flat_map encode cps) ++ [34]) = Some (flat_map encode cps).
Proof.
  intros H. unfold string_value. rewrite unescape_escape_any.
  now rewrite (proj2 (valid_utf8_iff _) (ex_intro _ cps (conj H eq_refl))).
Qed.

(* non-vacuity: quote, backslash, controls, DEL, two-, three- and four-byte characters *)
Example ex_string : string_value sp_combine (escape (flat_map encode [34; 92; 0; 10; 31; 127; 233; 8364; 65533; 128512; 131072; 1114111]) ++ [34])
  = Some (flat_map encode [34; 92; 0; 10; 31; 127; 233; 8364; 65533; 128512; 131072; 1114111]).
Proof. vm_compute. reflexivity. Qed.
