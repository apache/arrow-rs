(* C12 — the word-at-a-time boolean kernels equal three-valued (Kleene) logic row by row, for every
   length and for every value bit under a null ("garbage"). *)
From Coq Require Import List NArith Bool Arith Lia.
From AV Require Import Base.ListX Model.C12_Bool.
Import ListNotations.

Lemma pack_testbit : forall l i, N.testbit (pack l) (N.of_nat i) = nth i l false.
Proof.
  induction l as [|b l IH]; intros i.
  - cbn [pack]. rewrite N.bits_0. destruct i; reflexivity.
  - cbn [pack]. destruct i as [|i].
    + cbn [N.of_nat nth]. apply N.testbit_0_r.
    + rewrite Nat2N.inj_succ, N.testbit_succ_r. cbn [nth]. apply IH.
Qed.

Lemma unpack_length n w : length (unpack n w) = n.
Proof. unfold unpack. now rewrite map_length, seq_length. Qed.

Lemma nary_words_0 f : forall fuel ins, nary_words fuel f ins 0 = [].
Proof. induction fuel as [|k IH]; intros ins; [reflexivity|]. cbn [nary_words]. rewrite IH. reflexivity. Qed.

Lemma nary_words_length f : forall fuel ins len, len < 64 * fuel -> length (nary_words fuel f ins len) = len.
Proof.
  induction fuel as [|k IH]; intros ins len L; [lia|].
  cbn [nary_words]. rewrite app_length, unpack_length.
  destruct (le_lt_dec len 64) as [Hs|Hb].
  - rewrite (proj2 (Nat.sub_0_le len 64) Hs), nary_words_0, Nat.min_r by exact Hs. apply Nat.add_0_r.
  - rewrite IH by lia. rewrite Nat.min_l, Nat.add_comm by apply Nat.lt_le_incl, Hb. apply Nat.sub_add, Nat.lt_le_incl, Hb.
Qed.
(* the model's fuel: one word more than len / 64 *)
Lemma words_fuel len : len < 64 * S (len / 64).
Proof. pose proof (Nat.div_mod len 64 ltac:(lia)). pose proof (Nat.mod_upper_bound len 64 ltac:(lia)). lia. Qed.
Lemma bitwise_op_length f ins len : length (bitwise_op f ins len) = len.
Proof. unfold bitwise_op. apply nary_words_length, words_fuel. Qed.

(* the word closure f acts bit by bit as g, on the 64 bits that a chunk carries; the section below
   assumes it of its f and g *)
Definition bitwise (f : list N -> N) (g : list bool -> bool) : Prop :=
  forall ws i, i < 64 -> N.testbit (f ws) (N.of_nat i) = g (map (fun w => N.testbit w (N.of_nat i)) ws).

Section Bitwise.
Variable f : list N -> N.
Variable g : list bool -> bool.
Hypothesis fg : forall ws i, i < 64 -> N.testbit (f ws) (N.of_nat i) = g (map (fun w => N.testbit w (N.of_nat i)) ws).

Definition spec_bits (ins : list (list bool)) (len : nat) : list bool :=
  map (fun i => g (map (fun l => nth i l false) ins)) (seq 0 len).

Lemma chunk_spec ins n : n <= 64 ->
  unpack n (f (map (fun l => pack (firstn 64 l)) ins)) = spec_bits ins n.
Proof.
  intros Hn. unfold unpack, spec_bits. apply map_ext_in. intros i Hi. apply in_seq in Hi.
  rewrite fg by lia. f_equal. rewrite map_map. apply map_ext. intros l.
  rewrite pack_testbit. apply nth_firstn. lia.
Qed.

Lemma nary_words_spec : forall fuel ins len, len < 64 * fuel ->
  nary_words fuel f ins len = spec_bits ins len.
Proof.
  induction fuel as [|k IH]; intros ins len Hl; [lia|].
  cbn [nary_words]. rewrite chunk_spec by lia.
  destruct (le_lt_dec len 64) as [Hs|Hb].
  - replace (len - 64) with 0 by lia. rewrite nary_words_0, app_nil_r.
    now replace (min 64 len) with len by lia.
  - replace (min 64 len) with 64 by lia. rewrite IH by lia.
    unfold spec_bits.
    assert (E : seq 0 len = seq 0 64 ++ seq 64 (len - 64)).
    { change 64 with (0 + 64) at 3. rewrite <- seq_app. f_equal. lia. }
    rewrite E, map_app. f_equal.
    rewrite (seq_shift_map 64 (len - 64)), map_map. apply map_ext. intros i.
    f_equal. rewrite map_map. apply map_ext. intros l. apply nth_skipn.
Qed.

Lemma bitwise_op_spec ins len : bitwise_op f ins len = spec_bits ins len.
Proof.
  unfold bitwise_op. apply nary_words_spec, words_fuel.
Qed.


Lemma bitwise_op_bit ins len i : i < len ->
  bit (bitwise_op f ins len) i = g (map (fun l => nth i l false) ins).
Proof.
  intros Hi. unfold bit. rewrite bitwise_op_spec. unfold spec_bits.
  rewrite (nth_map_seq _ 0 len i false Hi). reflexivity.
Qed.
End Bitwise.

Lemma not64_bit x i : (i < 64)%N -> N.testbit (not64 x) i = negb (N.testbit x i).
Proof.
  intros Hi. unfold not64. rewrite N.lxor_spec, N.ones_spec_low by assumption. apply xorb_true_r.
Qed.

Definition g1 (h : bool -> bool) (bs : list bool) : bool := match bs with [a] => h a | _ => false end.
Definition g2 (h : bool -> bool -> bool) (bs : list bool) : bool := match bs with [a; b] => h a b | _ => false end.
Definition g4 (h : bool -> bool -> bool -> bool -> bool) (bs : list bool) : bool :=
  match bs with [a; b; c; d] => h a b c d | _ => false end.

(* w1/w2/w4 give the zero word unless the list has the closure's arity: split the list that far *)
Ltac arity ws :=
  destruct ws as [|?a [|?b [|?c [|?d [|?e ?r]]]]]; cbn [w1 w2 w4 g1 g2 g4 map]; try apply N.bits_0.

Lemma w2_land : bitwise (w2 N.land) (g2 andb).
Proof. intros ws i Hi. arity ws. apply N.land_spec. Qed.
Lemma w2_lor : bitwise (w2 N.lor) (g2 orb).
Proof. intros ws i Hi. arity ws. apply N.lor_spec. Qed.
Lemma w2_andnot : bitwise (w2 (fun a b => N.land a (not64 b))) (g2 (fun a b => a && negb b)).
Proof. intros ws i Hi. arity ws. now rewrite N.land_spec, not64_bit by lia. Qed.
Lemma w1_not : bitwise (w1 not64) (g1 negb).
Proof. intros ws i Hi. arity ws. apply not64_bit. lia. Qed.
Lemma w2_and_kleene_one : bitwise (w2 and_kleene_one) (g2 (fun a b => a || negb b)).
Proof. intros ws i Hi. arity ws. unfold and_kleene_one. now rewrite N.lor_spec, not64_bit by lia. Qed.
Lemma w4_and_kleene_both : bitwise (w4 and_kleene_both) (g4 (fun a b c d => (a || (c && negb d)) && (c || (a && negb b)))).
Proof.
  intros ws i Hi. arity ws. unfold and_kleene_both.
  now rewrite !N.land_spec, !N.lor_spec, !N.land_spec, !not64_bit by lia.
Qed.
Lemma w4_or_kleene_both : bitwise (w4 or_kleene_both) (g4 (fun a b c d => (a || (c && d)) && (c || (a && b)))).
Proof.
  intros ws i Hi. arity ws. unfold or_kleene_both.
  now rewrite !N.land_spec, !N.lor_spec, !N.land_spec.
Qed.

Definition mkrow (valid value : bool) : option bool := if valid then Some value else None.

(* validity bit of row i: a missing null buffer reads as all valid *)
Definition vbit (n : option (list bool)) (i : nat) : bool := match n with None => true | Some n => bit n i end.
Lemma brow_mkrow vals nulls i : brow vals nulls i = mkrow (vbit nulls i) (bit vals i).
Proof. now destruct nulls. Qed.

(* the Kleene tables on (validity, value) bit pairs; the value bit under a null is arbitrary *)
Lemma k3_and_bits a b c d :
  mkrow ((a || (c && negb d)) && (c || (a && negb b))) (b && d) = k3_and (mkrow a b) (mkrow c d).
Proof. now destruct a, b, c, d. Qed.
Lemma k3_or_bits a b c d :
  mkrow ((a || (c && d)) && (c || (a && b))) (b || d) = k3_or (mkrow a b) (mkrow c d).
Proof. now destruct a, b, c, d. Qed.
Lemma strict2_bits h a b c d : mkrow (a && c) (h b d) = strict2 h (mkrow a b) (mkrow c d).
Proof. now destruct a, c. Qed.

Theorem and_kleene_word a b c d i : (i < 64)%N ->
  mkrow (N.testbit (and_kleene_both a b c d) i) (N.testbit (N.land b d) i)
  = k3_and (mkrow (N.testbit a i) (N.testbit b i)) (mkrow (N.testbit c i) (N.testbit d i)).
Proof.
  intros Hi. rewrite <- k3_and_bits. unfold and_kleene_both.
  now rewrite !N.land_spec, !N.lor_spec, !N.land_spec, !not64_bit by assumption.
Qed.

Theorem or_kleene_word a b c d i : (i < 64)%N ->
  mkrow (N.testbit (or_kleene_both a b c d) i) (N.testbit (N.lor b d) i)
  = k3_or (mkrow (N.testbit a i) (N.testbit b i)) (mkrow (N.testbit c i) (N.testbit d i)).
Proof.
  intros Hi. rewrite <- k3_or_bits. unfold or_kleene_both.
  now rewrite !N.land_spec, !N.lor_spec, !N.land_spec.
Qed.

Lemma bmap2_map (h : option bool -> option bool -> option bool) (p q : nat -> option bool) : forall l,
  bmap2 h (map p l) (map q l) = map (fun i => h (p i) (q i)) l.
Proof. induction l as [|x l IH]; [reflexivity|]. cbn [map bmap2]. now rewrite IH. Qed.

Lemma bdenote_length a : length (bdenote a) = blen a.
Proof. unfold bdenote, bdenote_n. now rewrite map_length, seq_length. Qed.

(* The conclusion spells out the shape and_kleene, or_kleene and binary_boolean share (length test,
   then BOk of a value vector and a validity), so that each is an instance by [apply]. *)
Lemma rows2_spec (h : option bool -> option bool -> option bool) l r vals nulls :
  length vals = blen l ->
  (forall i, i < blen l ->
     brow vals nulls i = h (brow (b_vals l) (b_nulls l) i) (brow (b_vals r) (b_nulls r) i)) ->
  bcanon (if negb (blen l =? blen r) then BErr E_INVALID_n else BOk vals nulls)
  = spec_bool2 h (bdenote l) (bdenote r).
Proof.
  intros Lv Row. unfold spec_bool2. rewrite !bdenote_length.
  destruct (Nat.eqb_spec (blen l) (blen r)) as [L|L]; cbn [negb]; [|reflexivity].
  cbn [bcanon]. rewrite Lv. f_equal.
  unfold bdenote. rewrite <- L. unfold bdenote_n. rewrite bmap2_map.
  apply map_ext_in. intros i Hi. apply in_seq in Hi. apply Row. lia.
Qed.

Theorem and_kleene_spec l r :
  bcanon (and_kleene l r) = spec_bool2 k3_and (bdenote l) (bdenote r).
Proof.
  apply rows2_spec; [apply bitwise_op_length|]. intros i Hi.
  rewrite !brow_mkrow, <- k3_and_bits, (bitwise_op_bit _ _ w2_land _ _ _ Hi). cbn [map g2]. f_equal.
  (* with a validity buffer missing, the closure used is and_kleene_both at an all-ones word *)
  destruct (b_nulls l) as [ln|], (b_nulls r) as [rn|]; cbn [vbit orb andb].
  - now rewrite (bitwise_op_bit _ _ w4_and_kleene_both _ _ _ Hi).
  - rewrite (bitwise_op_bit _ _ w2_and_kleene_one _ _ _ Hi). cbn [map g2]. now rewrite andb_true_r.
  - now rewrite (bitwise_op_bit _ _ w2_and_kleene_one _ _ _ Hi).
  - reflexivity.
Qed.

Theorem or_kleene_spec l r :
  bcanon (or_kleene l r) = spec_bool2 k3_or (bdenote l) (bdenote r).
Proof.
  apply rows2_spec; [apply bitwise_op_length|]. intros i Hi.
  rewrite !brow_mkrow, <- k3_or_bits, (bitwise_op_bit _ _ w2_lor _ _ _ Hi). cbn [map g2]. f_equal.
  destruct (b_nulls l) as [ln|], (b_nulls r) as [rn|]; cbn [vbit orb andb].
  - now rewrite (bitwise_op_bit _ _ w4_or_kleene_both _ _ _ Hi).
  - rewrite (bitwise_op_bit _ _ w2_lor _ _ _ Hi). cbn [map g2]. now rewrite andb_true_r.
  - now rewrite (bitwise_op_bit _ _ w2_lor _ _ _ Hi).
  - reflexivity.
Qed.

Lemma binary_boolean_spec (fw : N -> N -> N) (h : bool -> bool -> bool) l r :
  (bitwise (w2 fw) (g2 h)) ->
  bcanon (binary_boolean fw l r) = spec_bool2 (strict2 h) (bdenote l) (bdenote r).
Proof.
  intros Hw. apply rows2_spec; [apply bitwise_op_length|]. intros i Hi.
  rewrite !brow_mkrow, <- strict2_bits, (bitwise_op_bit _ _ Hw _ _ _ Hi). cbn [map g2]. f_equal.
  unfold nulls_union. destruct (b_nulls l) as [ln|], (b_nulls r) as [rn|]; cbn [vbit andb].
  - now rewrite (bitwise_op_bit _ _ w2_land _ _ _ Hi).
  - now rewrite andb_true_r.
  - reflexivity.
  - reflexivity.
Qed.

Theorem and_spec l r : bcanon (and_k l r) = spec_bool2 (strict2 andb) (bdenote l) (bdenote r).
Proof. apply binary_boolean_spec. exact w2_land. Qed.
Theorem or_spec l r : bcanon (or_k l r) = spec_bool2 (strict2 orb) (bdenote l) (bdenote r).
Proof. apply binary_boolean_spec. exact w2_lor. Qed.
Theorem and_not_spec l r : bcanon (and_not_k l r) = spec_bool2 (strict2 (fun a b => a && negb b)) (bdenote l) (bdenote r).
Proof. apply (binary_boolean_spec (fun a b => N.land a (not64 b))). exact w2_andnot. Qed.

Theorem not_spec l : bcanon (not_k l) = inl (map k3_not (bdenote l)).
Proof.
  unfold not_k. cbn [bcanon]. rewrite bitwise_op_length. f_equal.
  unfold bdenote, bdenote_n. rewrite map_map.
  apply map_ext_in. intros i Hi. apply in_seq in Hi.
  rewrite !brow_mkrow, (bitwise_op_bit _ _ w1_not _ _ _ (proj2 Hi)). cbn [map g1].
  now destruct (vbit (b_nulls l) i).
Qed.

Example ex_and_kleene :
  bcanon (and_kleene (mkb [true; true; false] (Some [false; false; true])) (mkb [false; true; true] None))
  = inl [Some false; None; Some false].
Proof. vm_compute. reflexivity. Qed.
