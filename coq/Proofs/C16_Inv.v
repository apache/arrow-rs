(* C16 — the ownership invariants and their preservation by [settle] (operation independent part). *)
From Coq Require Import List ZArith Bool Lia.
From AV Require Import Model.C16_Own.
Import ListNotations.

Lemma upd_nth_length {A} i (x : A) l : length (upd_nth i x l) = length l.
Proof. revert i; induction l as [|h t IH]; intros [|i]; cbn [upd_nth length]; auto. Qed.

Lemma nth_error_upd_nth_eq {A} i (x : A) l : i < length l -> nth_error (upd_nth i x l) i = Some x.
Proof. revert i; induction l as [|h t IH]; intros [|i] H; cbn [upd_nth length nth_error] in *; try lia; auto. apply IH; lia. Qed.

Lemma nth_error_upd_nth_ne {A} i j (x : A) l : i <> j -> nth_error (upd_nth i x l) j = nth_error l j.
Proof. revert i j; induction l as [|h t IH]; intros [|i] [|j] H; cbn [upd_nth nth_error]; auto; try lia. Qed.

Lemma upd_nth_oob {A} i (x : A) l : length l <= i -> upd_nth i x l = l.
Proof. revert i; induction l as [|h t IH]; intros [|i] H; cbn [upd_nth length] in *; auto; try lia. f_equal. apply IH; lia. Qed.

Lemma count_flat_map_upd {A} (f : A -> list nat) l j x y id :
  nth_error l j = Some x ->
  count_occ Nat.eq_dec (flat_map f (upd_nth j y l)) id + count_occ Nat.eq_dec (f x) id
  = count_occ Nat.eq_dec (flat_map f l) id + count_occ Nat.eq_dec (f y) id.
Proof.
  revert j; induction l as [|h t IH]; intros [|j] H; cbn [upd_nth nth_error flat_map] in *; try discriminate.
  - injection H as ->. rewrite !count_occ_app. lia.
  - rewrite !count_occ_app. specialize (IH j H). lia.
Qed.

Lemma in_flat_map_nth {A} (f : A -> list nat) l j x id :
  nth_error l j = Some x -> In id (f x) -> In id (flat_map f l).
Proof. intros H Hi. apply in_flat_map. exists x. split; [eapply nth_error_In; eauto|auto]. Qed.

Lemma in_flat_map_nth_inv {A} (f : A -> list nat) l id :
  In id (flat_map f l) -> exists j x, nth_error l j = Some x /\ In id (f x).
Proof.
  intros H. apply in_flat_map in H as (x & Hx & Hi). apply In_nth_error in Hx as (j & Hj). eauto.
Qed.

Definition node_at (s : state) (id : nat) (n : node) : Prop := nth_error (nodes s) id = Some n.
Lemma node_at_lt s id n : node_at s id n -> id < length (nodes s).
Proof. unfold node_at. intros H. apply nth_error_Some. congruence. Qed.
Lemma node_at_ex s id : id < length (nodes s) -> exists n, node_at s id n.
Proof. intros H. unfold node_at. destruct (nth_error (nodes s) id) eqn:E; [eauto|apply nth_error_None in E; lia]. Qed.

(* no reference (from a live object, a live exported structure or a live imported region) points
   to a released or non-existent node *)
Definition I1 (s : state) : Prop := forall id, In id (all_refs s) -> exists n, node_at s id n /\ node_rel n = 0.
(* no node is released twice *)
Definition I2 (s : state) : Prop := forall id n, node_at s id n -> node_rel n <= 1.
(* no leak: an unreleased node is still referenced *)
Definition I3 (s : state) : Prop := forall id n, node_at s id n -> node_rel n = 0 -> In id (all_refs s).
(* a node refers only to older nodes *)
Definition Dag (s : state) : Prop := forall id n r, node_at s id n -> In r (node_refs n) -> r < id.
Definition I4 (s : state) : Prop := pool s = live_resv s.

Record Inv (s : state) : Prop := mkInv { inv1 : I1 s; inv2 : I2 s; inv3 : I3 s; inv_dag : Dag s; inv4 : I4 s }.

Lemma init_inv : Inv init.
Proof.
  constructor.
  - intros id [].
  - intros id n H. destruct id; discriminate.
  - intros id n H. destruct id; discriminate.
  - intros id n r H. destruct id; discriminate.
  - reflexivity.
Qed.

Lemma in_refs_cnt s id : In id (all_refs s) <-> 0 < cnt s id.
Proof. unfold cnt. rewrite (count_occ_In Nat.eq_dec). lia. Qed.

Lemma ref_lt s id : Inv s -> In id (all_refs s) -> id < length (nodes s).
Proof. intros I Hin. destruct (inv1 _ I id Hin) as (n & Hn & _). exact (node_at_lt _ _ _ Hn). Qed.

(* a node the operation created; a node it may refer to *)
Definition Fresh (s s1 : state) (id : nat) : Prop := length (nodes s) <= id < length (nodes s1).
Definition OkRef (s s1 : state) (id : nat) : Prop := In id (all_refs s) \/ Fresh s s1 id.

Definition node_resv_live (n : node) : Z :=
  match n with NReg r => match r_rel r with O => resv_z (r_resv r) | S _ => 0%Z end | NExp _ => 0%Z end.

(* what an operation may do before [settle]: append live nodes that point down, keep release counts and
   references of the old ones, refer only to what was referenced or is new, move pool and reservations together *)
Record Raw (s s1 : state) : Prop := mkRaw {
  raw_len : length (nodes s) <= length (nodes s1);
  raw_old : forall id n, node_at s id n ->
            exists n1, node_at s1 id n1 /\ node_rel n1 = node_rel n /\ node_refs n1 = node_refs n;
  raw_new : forall id n, length (nodes s) <= id -> node_at s1 id n ->
            node_rel n = 0 /\ forall r, In r (node_refs n) -> r < id;
  raw_refs : forall id, In id (all_refs s1) -> OkRef s s1 id;
  raw_pool : (pool s1 - live_resv s1 = pool s - live_resv s)%Z }.

Definition sum_resv (l : list node) : Z := fold_right (fun n acc => (node_resv_live n + acc)%Z) 0%Z l.
Lemma live_resv_sum s : live_resv s = sum_resv (nodes s).
Proof.
  unfold live_resv, sum_resv. induction (nodes s) as [|n t IH]; cbn [fold_right]; [reflexivity|]. rewrite IH.
  destruct n as [r|e]; cbn [node_resv_live]; [destruct (r_rel r)|]; lia.
Qed.

Lemma sum_resv_upd l j x y : nth_error l j = Some x ->
  (sum_resv (upd_nth j y l) + node_resv_live x = sum_resv l + node_resv_live y)%Z.
Proof.
  unfold sum_resv. revert j; induction l as [|h t IH]; intros [|j] H; cbn [nth_error upd_nth fold_right] in *; try discriminate.
  - injection H as ->. lia.
  - specialize (IH j H). lia.
Qed.
Lemma sum_resv_app l1 l2 : sum_resv (l1 ++ l2) = (sum_resv l1 + sum_resv l2)%Z.
Proof. unfold sum_resv. induction l1; cbn; lia. Qed.

(* the invariant without "no leak": what holds from the end of an operation to the end of [settle] *)
Record Safe (s : state) : Prop := mkSafe { safe1 : I1 s; safe2 : I2 s; safe_dag : Dag s; safe4 : I4 s }.

Lemma raw_node s s1 id n : Raw s s1 -> node_at s1 id n ->
  (exists n0, node_at s id n0 /\ node_rel n = node_rel n0 /\ node_refs n = node_refs n0)
  \/ (length (nodes s) <= id /\ node_rel n = 0 /\ forall r, In r (node_refs n) -> r < id).
Proof.
  intros R Hn. destruct (Nat.lt_ge_cases id (length (nodes s))) as [Hlt|Hge]; [left|right; split; [exact Hge|exact (raw_new _ _ R id n Hge Hn)]].
  destruct (node_at_ex s id Hlt) as [n0 E]. destruct (raw_old _ _ R id n0 E) as (n1 & Hn1 & Hr1).
  unfold node_at in *. rewrite Hn in Hn1. injection Hn1 as <-. eauto.
Qed.

Lemma raw_safe s s1 : Inv s -> Raw s s1 -> Safe s1.
Proof.
  intros I R. constructor.
  - intros id Hin. destruct (raw_refs _ _ R id Hin) as [Hold|[Hlo Hhi]].
    + destruct (inv1 _ I id Hold) as (n & Hn & Hr).
      destruct (raw_old _ _ R id n Hn) as (n1 & Hn1 & Hr1 & _). exists n1. split; [auto|lia].
    + destruct (node_at_ex s1 id Hhi) as [n E].
      exists n. split; [exact E|]. apply (raw_new _ _ R id n Hlo E).
  - intros id n Hn. destruct (raw_node _ _ _ _ R Hn) as [(n0 & E & -> & _)|(_ & -> & _)]; [exact (inv2 _ I id n0 E)|lia].
  - intros id n r Hn Hr. destruct (raw_node _ _ _ _ R Hn) as [(n0 & E & _ & Hf)|(_ & _ & Hnew)]; [|exact (Hnew r Hr)].
    rewrite Hf in Hr. exact (inv_dag _ I id n0 r E Hr).
  - unfold I4. pose proof (raw_pool _ _ R). pose proof (inv4 _ I) as H4. unfold I4 in H4. lia.
Qed.

Lemma release_node_refs n : node_refs (fst (release_node n)) = [].
Proof. destruct n as [r|e]; reflexivity. Qed.
Lemma release_node_rel n : node_rel (fst (release_node n)) = S (node_rel n).
Proof. destruct n as [r|e]; reflexivity. Qed.
Lemma release_node_freed n : node_rel n = 0 -> snd (release_node n) = node_resv_live n.
Proof. destruct n as [r|e]; cbn; [|reflexivity]. intros ->. destruct (r_resv r); reflexivity. Qed.
Lemma release_node_resv n : node_resv_live (fst (release_node n)) = 0%Z.
Proof. destruct n as [r|e]; reflexivity. Qed.

Lemma release_nodes s j n : node_at s j n ->
  nodes (release j s) = upd_nth j (fst (release_node n)) (nodes s) /\ slots (release j s) = slots s
  /\ pool (release j s) = (pool s - snd (release_node n))%Z.
Proof. unfold node_at, release. intros ->. destruct (release_node n) as [n' f]. auto. Qed.

Lemma release_cnt s j n id : node_at s j n ->
  cnt (release j s) id + count_occ Nat.eq_dec (node_refs n) id = cnt s id.
Proof.
  intros Hn. destruct (release_nodes s j n Hn) as (Hns & Hsl & _).
  unfold cnt, all_refs. rewrite Hns, Hsl, !count_occ_app.
  pose proof (count_flat_map_upd node_refs (nodes s) j n (fst (release_node n)) id Hn) as H.
  rewrite release_node_refs in H. cbn [count_occ] in H. lia.
Qed.

Lemma release_in s j n id : node_at s j n -> In id (all_refs (release j s)) -> In id (all_refs s).
Proof. intros Hn. rewrite !in_refs_cnt. pose proof (release_cnt s j n id Hn). lia. Qed.

Lemma release_cnt_le j s id : cnt (release j s) id <= cnt s id.
Proof.
  destruct (nth_error (nodes s) j) as [n|] eqn:E; [pose proof (release_cnt s j n id E); lia|].
  unfold release. rewrite E. apply le_n.
Qed.

Lemma release_node_at_ne s j id : id <> j -> nth_error (nodes (release j s)) id = nth_error (nodes s) id.
Proof.
  intros Hne. unfold release. destruct (nth_error (nodes s) j) as [n|] eqn:E; [|reflexivity].
  destruct (release_node n). cbn [nodes]. apply nth_error_upd_nth_ne. auto.
Qed.

Lemma node_at_release s k n id m : node_at s k n -> node_at (release k s) id m ->
  (id = k /\ m = fst (release_node n)) \/ (id <> k /\ node_at s id m).
Proof.
  intros Hn Hm. unfold node_at in Hm. destruct (Nat.eq_dec id k) as [->|Hne]; [left|right; rewrite release_node_at_ne in Hm; auto].
  destruct (release_nodes s k n Hn) as (Hns & _). rewrite Hns, nth_error_upd_nth_eq in Hm by (eapply node_at_lt; eauto).
  injection Hm as <-. auto.
Qed.

Lemma release_length s j : length (nodes (release j s)) = length (nodes s).
Proof.
  unfold release. destruct (nth_error (nodes s) j) as [n|]; [|reflexivity].
  destruct (release_node n). cbn [nodes]. apply upd_nth_length.
Qed.

Lemma release_slots j s : slots (release j s) = slots s.
Proof. unfold release. destruct (nth_error (nodes s) j) as [n|]; [destruct (release_node n)|]; reflexivity. Qed.
Lemma release_reg_bytes j s id : reg_bytes (release j s) id = reg_bytes s id.
Proof.
  unfold reg_bytes, get_reg. destruct (Nat.eq_dec id j) as [->|Hne].
  - unfold release. destruct (nth_error (nodes s) j) as [n|] eqn:E; [|rewrite E; reflexivity].
    assert (Hj : j < length (nodes s)) by (apply nth_error_Some; congruence).
    destruct n as [r|e]; cbn [release_node nodes]; rewrite nth_error_upd_nth_eq by exact Hj; reflexivity.
  - rewrite release_node_at_ne by exact Hne. reflexivity.
Qed.

(* a preorder that every release respects is respected by the whole pass *)
Lemma settle_from_rel (P : state -> state -> Prop) :
  (forall c, P c c) -> (forall a b c, P a b -> P b c -> P a c) -> (forall j c, P c (release j c)) ->
  forall k pre cur, P cur (settle_from k pre cur).
Proof.
  intros Hr Ht Hs k pre. induction k as [|k IH]; intros cur; [apply Hr|]. cbn [settle_from].
  eapply Ht; [|apply IH]. destruct (_ && _); [apply Hs|apply Hr].
Qed.
Lemma settle_from_keeps {A} (f : state -> A) : (forall j s, f (release j s) = f s) ->
  forall k pre cur, f (settle_from k pre cur) = f cur.
Proof. intros H. apply (settle_from_rel (fun a b => f b = f a)); [reflexivity|intros a b c -> ->; reflexivity|exact H]. Qed.
Lemma settle_slots pre cur : slots (settle pre cur) = slots cur.
Proof. apply (settle_from_keeps slots release_slots). Qed.
Lemma settle_reg_bytes pre cur id : reg_bytes (settle pre cur) id = reg_bytes cur id.
Proof. apply (settle_from_keeps (fun s => reg_bytes s id)). intros j s. apply release_reg_bytes. Qed.
Lemma settle_from_cnt_le k pre cur id : cnt (settle_from k pre cur) id <= cnt cur id.
Proof.
  apply (settle_from_rel (fun a b => cnt b id <= cnt a id)); [intros; apply le_n|intros a b c H1 H2; exact (Nat.le_trans _ _ _ H2 H1)|].
  intros j c. apply release_cnt_le.
Qed.

(* releasing a live node that nothing refers to *)
Lemma release_safe cur k n : Safe cur -> node_at cur k n -> cnt cur k = 0 -> node_rel n = 0 -> Safe (release k cur).
Proof.
  intros [Q1 Q2 Qd Q4] En C0 Hrel0. destruct (release_nodes cur k n En) as (Hns & Hsl & Hpool). constructor.
  - intros id Hin. pose proof (release_in cur k n id En Hin) as Hin0.
    destruct (Q1 id Hin0) as (m & Hm & Hr).
    assert (id <> k). { intros ->. apply in_refs_cnt in Hin0. lia. }
    exists m. split; [|exact Hr]. unfold node_at. rewrite release_node_at_ne; auto.
  - intros id m Hm. destruct (node_at_release _ _ _ _ _ En Hm) as [[-> ->]|[_ Hm']]; [|exact (Q2 id m Hm')].
    rewrite release_node_rel. lia.
  - intros id m r Hm Hr. destruct (node_at_release _ _ _ _ _ En Hm) as [[-> ->]|[_ Hm']]; [|exact (Qd id m r Hm' Hr)].
    rewrite release_node_refs in Hr. destruct Hr.
  - unfold I4 in *. rewrite Hpool, live_resv_sum, Hns.
    pose proof (sum_resv_upd (nodes cur) k n (fst (release_node n)) En) as Hs.
    rewrite release_node_resv in Hs. rewrite (release_node_freed n Hrel0). rewrite live_resv_sum in Q4. lia.
Qed.

Section Settle.
  Variables (pre s1 : state).
  Hypothesis (Ipre : Inv pre) (R : Raw pre s1).

  (* after the nodes [k ..] have been visited: they are settled, the nodes below [k] are as the operation left them *)
  Record Pass (k : nat) (cur : state) : Prop := mkPass {
    pass_safe : Safe cur;
    pass_len : length (nodes cur) = length (nodes s1);
    pass_k : k <= length (nodes cur);
    pass_below : forall id n, id < k -> node_at cur id n -> node_at s1 id n;
    pass_above : forall id n, k <= id -> node_at cur id n -> node_rel n = 0 -> In id (all_refs cur) }.

  Lemma pass_init : Pass (length (nodes s1)) s1.
  Proof.
    refine (mkPass _ _ (raw_safe _ _ Ipre R) eq_refl (le_n _) (fun _ _ _ H => H) _).
    intros id n Hk Hn. apply node_at_lt in Hn. lia.
  Qed.

  (* the release test of [settle_from] holds only of a node that is still live *)
  Lemma cond_rel0 k n : node_at s1 k n -> (0 <? cnt pre k) || (length (nodes pre) <=? k) = true -> node_rel n = 0.
  Proof.
    intros Hs1 Hc. apply orb_true_iff in Hc as [Hc|Hc].
    - apply Nat.ltb_lt in Hc. apply in_refs_cnt in Hc.
      destruct (inv1 _ Ipre k Hc) as (n0 & Hn0 & Hr0).
      destruct (raw_old _ _ R k n0 Hn0) as (n1 & Hn1 & Hr1 & _).
      unfold node_at in *. rewrite Hs1 in Hn1. injection Hn1 as <-. lia.
    - apply Nat.leb_le in Hc. apply (raw_new _ _ R k n Hc Hs1).
  Qed.

  Lemma pass_step k cur : Pass (S k) cur ->
    Pass k (if (cnt cur k =? 0) && ((0 <? cnt pre k) || (length (nodes pre) <=? k)) then release k cur else cur).
  Proof.
    intros [Q Ql Qk Hbelow Habove].
    destruct (node_at_ex cur k Qk) as [n En].
    pose proof (Hbelow k n (Nat.lt_succ_diag_r k) En) as Hs1.
    destruct ((cnt cur k =? 0) && ((0 <? cnt pre k) || (length (nodes pre) <=? k))) eqn:C.
    - apply andb_true_iff in C as [C0 C1]. apply Nat.eqb_eq in C0.
      refine (mkPass _ _ (release_safe cur k n Q En C0 (cond_rel0 k n Hs1 C1)) ?[len] ?[bound] ?[below] ?[above]).
      [len]: { rewrite release_length. exact Ql. }
      [bound]: { rewrite release_length. lia. }
      [below]: { intros id m Hlt Hm. destruct (node_at_release _ _ _ _ _ En Hm) as [[-> _]|[_ Hm']]; [lia|].
        apply (Hbelow id m); [lia|exact Hm']. }
      [above]: { intros id m Hge Hm Hr. destruct (node_at_release _ _ _ _ _ En Hm) as [[-> ->]|[Hne Hm']].
        * rewrite release_node_rel in Hr. discriminate.
        * (* the released node referred only to older nodes *)
          assert (Hin : In id (all_refs cur)) by (apply (Habove id m); [lia|exact Hm'|exact Hr]).
          apply in_refs_cnt. apply in_refs_cnt in Hin.
          pose proof (release_cnt cur k n id En) as Hc.
          assert (count_occ Nat.eq_dec (node_refs n) id = 0).
          { apply count_occ_not_In. intros Hi. pose proof (safe_dag _ Q k n id En Hi). lia. }
          lia. }
    - refine (mkPass _ _ Q Ql (Nat.lt_le_incl _ _ Qk) ?[below] ?[above]).
      [below]: { intros id m Hlt Hm. apply Hbelow; [lia|exact Hm]. }
      [above]: { intros id m Hge Hm Hr. destruct (Nat.eq_dec id k) as [->|Hne]; [|apply (Habove id m); auto; lia].
        apply andb_false_iff in C as [C|C].
        * apply Nat.eqb_neq in C. apply in_refs_cnt. lia.
        * apply orb_false_iff in C as [Ca Cb]. apply Nat.ltb_ge in Ca. apply Nat.leb_gt in Cb.
          (* an old node with no reference before the operation was already released *)
          exfalso. unfold node_at in Hm. rewrite En in Hm. injection Hm as <-.
          destruct (raw_node _ _ _ _ R Hs1) as [(n0 & E0 & Hr0 & _)|(Hge' & _)]; [|lia].
          assert (Hin : In k (all_refs pre)) by (apply (inv3 _ Ipre k n0 E0); lia).
          apply in_refs_cnt in Hin. lia. }
  Qed.

  Lemma pass_all k cur : Pass k cur -> Pass 0 (settle_from k pre cur).
  Proof.
    revert cur; induction k as [|k IH]; intros cur P; [exact P|].
    cbn [settle_from]. apply IH. apply pass_step. exact P.
  Qed.

  Lemma settle_length : length (nodes (settle pre s1)) = length (nodes s1).
  Proof. unfold settle. apply (pass_len _ _ (pass_all _ _ pass_init)). Qed.

  Theorem settle_inv : Inv (settle pre s1).
  Proof.
    unfold settle. destruct (pass_all _ _ pass_init) as [[Q1 Q2 Qd Q4] _ _ _ Habove].
    exact (mkInv _ Q1 Q2 (fun id n Hn Hr => Habove id n (Nat.le_0_l id) Hn Hr) Qd Q4).
  Qed.
End Settle.
