(* C18 - sink faults.  Whatever the script, what was emitted is a prefix of the fault-free bytes (induction over
   write_all).  The other theorems line script entries up with calls: AcceptAll^k serves the first k non-empty calls, a
   script that `refuses` the next call ends the run there, a soft script on a healthy sink changes nothing. *)
From Coq Require Import List ZArith Bool Lia.
From AV Require Import Base.ListX Model.C18_Fault.
Import ListNotations.

Lemma is_prefix_refl a : is_prefix a a.
Proof. exists []. now rewrite app_nil_r. Qed.
Lemma is_prefix_nil a : is_prefix [] a.
Proof. now exists a. Qed.
Lemma is_prefix_app_r a b c : is_prefix a b -> is_prefix a (b ++ c).
Proof. intros [r ->]. exists (r ++ c). now rewrite app_assoc. Qed.
Lemma is_prefix_app_l a b c : is_prefix b c -> is_prefix (a ++ b) (a ++ c).
Proof. intros [r ->]. exists r. now rewrite app_assoc. Qed.

Lemma write_all_prefix : forall script sticky buf o out s',
  write_all script sticky buf = (o, out, s') ->
  is_prefix out buf /\ (o = Done -> out = buf).
Proof.
  induction script as [|r script IH]; intros sticky [|b buf] o out s'; cbn [write_all].
  - intros [= <- <- <-]. split; [apply is_prefix_refl|reflexivity].
  - destruct sticky; intros [= <- <- <-]; [split; [apply is_prefix_nil|discriminate]|split; [apply is_prefix_refl|reflexivity]].
  - intros [= <- <- <-]. split; [apply is_prefix_refl|reflexivity].
  - destruct r as [n| | | |].
    + (* a short write: the rest of the buffer is written by the recursive call *)
      set (k := Nat.min (Nat.max n 1) (length (b :: buf))).
      destruct (write_all script sticky (skipn k (b :: buf))) as [[o1 out1] s1] eqn:E.
      intros [= <- <- <-]. destruct (IH _ _ _ _ _ E) as [Hp Hd]. split.
      * rewrite <- (firstn_skipn k (b :: buf)) at 2. now apply is_prefix_app_l.
      * intros D. rewrite (Hd D). apply firstn_skipn.
    + (* AcceptAll *) intros [= <- <- <-]. split; [apply is_prefix_refl|reflexivity].
    + (* Interrupted *) apply IH.
    + (* Zero *) intros [= <- <- <-]. split; [apply is_prefix_nil|discriminate].
    + (* Fail *) intros [= <- <- <-]. split; [apply is_prefix_nil|discriminate].
Qed.

Theorem run_prefix : forall calls script sticky o out,
  run script sticky calls = (o, out) ->
  is_prefix out (bytes_of_calls calls) /\ (o = Done -> out = bytes_of_calls calls).
Proof.
  unfold bytes_of_calls.
  induction calls as [|c cs IH]; intros script sticky o out; cbn [run map concat].
  - intros [= <- <-]. split; [apply is_prefix_refl|reflexivity].
  - destruct c as [b|]; cbn [call_bytes].
    + destruct (write_all script sticky b) as [[o1 out1] s1] eqn:E.
      destruct (write_all_prefix _ _ _ _ _ _ E) as [Hp Hd].
      destruct o1.
      * (* the call wrote all of b; then the rest of the run *)
        rewrite (Hd eq_refl). destruct (run s1 sticky cs) as [o2 out2] eqn:E2.
        intros [= <- <-]. destruct (IH _ _ _ _ E2) as [Hp2 Hd2]. split.
        -- now apply is_prefix_app_l.
        -- intros D. now rewrite (Hd2 D).
      * (* the call failed having written out1 *)
        intros [= <- <-]. split; [now apply is_prefix_app_r|discriminate].
    + destruct (flush1 script sticky) as [o1 s1]. destruct o1.
      * (* the flush succeeded *) cbn [app]. apply IH.
      * (* the flush failed *) intros [= <- <-]. split; [apply is_prefix_nil|discriminate].
Qed.

Corollary ok_all_accepted : forall calls script sticky out,
  run script sticky calls = (Done, out) -> out = bytes_of_calls calls.
Proof. intros calls script sticky out H. now apply (run_prefix _ _ _ _ _ H). Qed.

Corollary emitted_prefix : forall calls script sticky,
  is_prefix (snd (run script sticky calls)) (bytes_of_calls calls).
Proof.
  intros calls script sticky. destruct (run script sticky calls) as [o out] eqn:E.
  now apply (run_prefix _ _ _ _ _ E).
Qed.

Lemma bytes_of_calls_cons c cs : bytes_of_calls (c :: cs) = call_bytes c ++ bytes_of_calls cs.
Proof. reflexivity. Qed.

(* a script entry answers one write(), not one call: an empty Write asks the sink nothing, so the k-th AcceptAll
   meets call k only when no call is empty *)
Lemma run_accept_prefix : forall k calls rest sticky,
  k <= length calls -> forallb nonempty_call calls = true ->
  run (repeat AcceptAll k ++ rest) sticky calls =
  let '(o, out) := run rest sticky (skipn k calls) in (o, bytes_of_calls (firstn k calls) ++ out).
Proof.
  induction k as [|k IH]; intros calls rest sticky Hk Hne.
  - cbn [repeat app skipn firstn]. destruct (run rest sticky calls). reflexivity.
  - destruct calls as [|c cs]; [cbn in Hk; lia|].
    cbn [forallb] in Hne. apply andb_true_iff in Hne as [Hc Hcs].
    cbn [length] in Hk. cbn [repeat app skipn firstn]. rewrite bytes_of_calls_cons.
    destruct c as [[|b bs]|]; [discriminate| |]; cbn [run write_all flush1 call_bytes]; rewrite IH by (assumption || lia).
    + (* a non-empty write *) destruct (run rest sticky (skipn k cs)) as [o out]. now rewrite app_assoc.
    + (* a flush *) reflexivity.
Qed.

Lemma nth_nonempty calls k : k < length calls -> forallb nonempty_call calls = true ->
  nonempty_call (nth k calls Flush) = true.
Proof. intros Hk Hne. apply (proj1 (forallb_forall _ _) Hne), nth_In, Hk. Qed.

(* the sink's next answer is a hard fault for call c: an error, Ok(0) on a write, Interrupted on a flush (std does not
   retry flush), or a dead device *)
Definition refuses (script : list resp) (sticky : bool) (c : call) : Prop :=
  match script with
  | [] => sticky = true
  | Fail :: _ => True
  | Zero :: _ => is_write c = true
  | Interrupted :: _ => is_write c = false
  | _ => False
  end.

Lemma run_refused script sticky c cs : nonempty_call c = true -> refuses script sticky c ->
  run script sticky (c :: cs) = (Failed, []).
Proof.
  intros Hc Hr. destruct script as [|r s]; cbn [refuses] in Hr.
  - subst sticky. destruct c as [[|b bs]|]; [discriminate|reflexivity|reflexivity].
  - destruct r as [n| | | |]; [contradiction|contradiction| | |].
    + (* Interrupted *) destruct c as [b|]; [discriminate|reflexivity].
    + (* Zero *) destruct c as [[|b bs]|]; [discriminate|reflexivity|discriminate].
    + (* Fail *) destruct c as [[|b bs]|]; [discriminate|reflexivity|reflexivity].
Qed.

Theorem hard_fault_at_k calls k rest sticky :
  k < length calls -> forallb nonempty_call calls = true -> refuses rest sticky (nth k calls Flush) ->
  run (repeat AcceptAll k ++ rest) sticky calls = (Failed, bytes_of_calls (firstn k calls)).
Proof.
  intros Hk Hne Hr. rewrite run_accept_prefix, (skipn_nth_cons k calls Flush Hk) by (assumption || lia).
  rewrite run_refused by (apply nth_nonempty || exact Hr; assumption). now rewrite app_nil_r.
Qed.

(* once the script is used up a healthy sink takes whatever it is given *)
Lemma write_all_healthy b : write_all [] false b = (Done, b, []).
Proof. destruct b; reflexivity. Qed.

Lemma write_all_soft : forall script buf, forallb soft script = true ->
  exists s', write_all script false buf = (Done, buf, s') /\ forallb soft s' = true.
Proof.
  induction script as [|r script IH]; intros buf Hs.
  - exists []. split; [apply write_all_healthy|reflexivity].
  - cbn [forallb] in Hs. apply andb_true_iff in Hs as [Hr Hs].
    destruct buf as [|b buf]; [cbn [write_all]; eexists; split; [reflexivity|cbn [forallb]; now rewrite Hr]|].
    cbn [write_all]. destruct r as [n| | | |]; [| | |discriminate|discriminate].
    + set (k := Nat.min (Nat.max n 1) (length (b :: buf))).
      destruct (IH (skipn k (b :: buf)) Hs) as (s' & E & Hs'). rewrite E.
      exists s'. split; [now rewrite firstn_skipn|exact Hs'].
    + exists script. split; [reflexivity|exact Hs].
    + apply IH, Hs.
Qed.

Theorem soft_faults_absorbed : forall calls script,
  forallb soft script = true -> forallb is_write calls = true ->
  run script false calls = (Done, bytes_of_calls calls).
Proof.
  induction calls as [|c cs IH]; intros script Hs Hw; [reflexivity|].
  cbn [forallb] in Hw. apply andb_true_iff in Hw as [Hc Hcs].
  destruct c as [b|]; [|discriminate]. cbn [run].
  destruct (write_all_soft script b Hs) as (s' & E & Hs'). rewrite E.
  rewrite (IH s' Hs' Hcs). reflexivity.
Qed.

Lemma run_healthy : forall cs, run [] false cs = (Done, bytes_of_calls cs).
Proof.
  induction cs as [|[b|] cs IH]; [reflexivity| |].
  - cbn [run]. rewrite write_all_healthy, IH. reflexivity.
  - cbn [run flush1]. rewrite IH. reflexivity.
Qed.

Lemma write_all_accept n s sticky b bs :
  write_all (Accept n :: s) sticky (b :: bs) =
  let k := Nat.min (Nat.max n 1) (length (b :: bs)) in
  let '(o, out, s') := write_all s sticky (skipn k (b :: bs)) in (o, firstn k (b :: bs) ++ out, s').
Proof. reflexivity. Qed.

Lemma run_one_soft r b bs cs : soft r = true ->
  run [r] false (Write (b :: bs) :: cs) = (Done, bytes_of_calls (Write (b :: bs) :: cs)).
Proof.
  intros Hr. cbn [run]. destruct r as [n| | | |]; [| | |discriminate|discriminate].
  - (* Accept n: the short write, then the rest *)
    rewrite write_all_accept. cbv zeta. rewrite write_all_healthy. cbv beta iota.
    rewrite firstn_skipn, run_healthy. reflexivity.
  - (* AcceptAll *) cbn [write_all]. rewrite run_healthy. reflexivity.
  - (* Interrupted: retried *) cbn [write_all]. rewrite run_healthy. reflexivity.
Qed.

(* the two soft scripts of the harness, with flush calls allowed: a short write or an Interrupted
   at a (non-empty) write call k changes nothing *)
Theorem soft_fault_at_k : forall calls k r,
  k < length calls -> forallb nonempty_call calls = true -> is_write (nth k calls Flush) = true ->
  (r = Interrupted \/ exists n, r = Accept n) ->
  run (repeat AcceptAll k ++ [r]) false calls = (Done, bytes_of_calls calls).
Proof.
  intros calls k r Hk Hne Hw Hr. pose proof (nth_nonempty calls k Hk Hne) as Hc.
  rewrite run_accept_prefix, (skipn_nth_cons k calls Flush Hk) by (assumption || lia).
  destruct (nth k calls Flush) as [[|b bs]|] eqn:Ec; try discriminate.
  rewrite run_one_soft by (destruct Hr as [->|[n ->]]; reflexivity).
  rewrite <- Ec, <- (skipn_nth_cons k calls Flush Hk). unfold bytes_of_calls.
  now rewrite <- concat_app, <- map_app, firstn_skipn.
Qed.

Example fault_example :
  run (script_of 1 2) (sticky_of 1) [Write [1;2;3]%Z; Flush; Write [4;5]%Z; Write [6]%Z] = (Failed, [1;2;3]%Z).
Proof. reflexivity. Qed.
Example short_example :
  run (script_of 2 0) (sticky_of 2) [Write [1;2;3]%Z; Flush; Write [4;5]%Z] = (Done, [1;2;3;4;5]%Z).
Proof. reflexivity. Qed.

(* list_eqb and prefixb, which Model/D_C18.v computes with, decide = and is_prefix *)
Lemma list_eqb_eq a b : list_eqb a b = true <-> a = b.
Proof. exact (eqb_list_eq_all Z.eqb Z.eqb_eq a b). Qed.
Lemma prefixb_spec a b : prefixb a b = true <-> is_prefix a b.
Proof.
  revert b. induction a as [|x a IH]; intros b; cbn [prefixb].
  - split; [intros _; apply is_prefix_nil|reflexivity].
  - destruct b as [|y b].
    + split; [discriminate|intros [r Hr]; discriminate].
    + destruct (Z.eqb_spec x y) as [->|N].
      * rewrite IH. split; intros [r Hr]; exists r; [now rewrite Hr|now inversion Hr].
      * split; [discriminate|intros [r Hr]; cbn [app] in Hr; congruence].
Qed.
