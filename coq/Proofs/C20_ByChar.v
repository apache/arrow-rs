(* C20 — substring_by_char: the byte offsets computed by ascii_bounds / utf8_bounds delimit exactly
   the requested characters. *)
From Coq Require Import List NArith ZArith Lia.
From AV Require Import Base.ListX Base.Utf8 Model.C20_Like Model.C20_Substr Proofs.C20_Utf8 Proofs.C20_Layout Proofs.C20_Substr.
Import ListNotations.

(* the byte offset at which each character of s starts, counting from o: the model's char_starts seen from the code points *)
Fixpoint char_offsets (s : list N) (o : nat) : list nat :=
  match s with [] => [] | c :: r => o :: char_offsets r (o + length (encode c)) end.

Lemma char_starts_conts t u o : Forall (fun b => cont b = true) t ->
  char_starts (t ++ u) o = char_starts u (o + length t).
Proof.
  intros F. revert o. induction F as [|b t Hb _ IH]; intros o; cbn [app char_starts length].
  - now rewrite Nat.add_0_r.
  - rewrite Hb, IH. f_equal. lia.
Qed.

Lemma char_starts_utf8 s : forall o, char_starts (utf8 s) o = char_offsets s o.
Proof.
  induction s as [|c r IH]; intros o; [reflexivity|].
  rewrite utf8_cons. destruct (encode_shape c) as (b0 & t & Ec & Hb & Ht). rewrite Ec.
  cbn [app char_starts char_offsets]. rewrite Hb, (char_starts_conts t (utf8 r) (S o) Ht), IH, Ec.
  cbn [length]. do 2 f_equal. lia.
Qed.

Lemma char_offsets_length s : forall o, length (char_offsets s o) = length s.
Proof. induction s as [|c r IH]; intros o; cbn; [reflexivity|]. now rewrite IH. Qed.

Lemma nth_char_offsets s : forall o k d, k < length s -> nth k (char_offsets s o) d = o + blen (firstn k s).
Proof.
  induction s as [|c r IH]; intros o k d L; [cbn in L; lia|].
  destruct k as [|k]; cbn [char_offsets nth firstn]; [unfold blen; cbn; lia|].
  rewrite IH by (cbn in L; lia). rewrite blen_cons. lia.
Qed.
(* with the end offset as default the same formula holds for every index: char_indices().nth(k).map_or(len, |(offset, _)| offset) *)
Lemma nth_char_offsets_or_end s o k : nth k (char_offsets s o) (o + blen s) = o + blen (firstn k s).
Proof.
  destruct (Nat.lt_ge_cases k (length s)); [now apply nth_char_offsets|].
  now rewrite nth_overflow, firstn_all2 by (rewrite ?char_offsets_length; assumption).
Qed.

Lemma len_le_blen s : length s <= blen s.
Proof.
  induction s as [|c r IH]; [unfold blen; cbn; lia|]. rewrite blen_cons. pose proof (encode_len c). cbn [length]. lia.
Qed.

Lemma skipn_blen_utf8 s a : skipn (blen (firstn a s)) (utf8 s) = utf8 (skipn a s).
Proof.
  rewrite <- (firstn_skipn a s) at 2. rewrite utf8_app. now apply skipn_app_exact.
Qed.

Lemma utf8_slice s a b : a <= b ->
  slice (utf8 s) (blen (firstn a s)) (blen (firstn b s)) = utf8 (slice s a b).
Proof.
  intros L. unfold slice at 2.
  assert (E : s = firstn a s ++ firstn (b - a) (skipn a s) ++ skipn b s).
  { rewrite app_assoc, <- firstn_plus. replace (a + (b - a)) with b by lia. now rewrite firstn_skipn. }
  assert (Eb : firstn b s = firstn a s ++ firstn (b - a) (skipn a s)).
  { rewrite <- firstn_plus. f_equal. lia. }
  rewrite Eb, blen_app. rewrite E at 1. rewrite !utf8_app. apply slice_app_mid.
Qed.

Lemma slice_ascii s a b : is_ascii s = true -> is_ascii (slice s a b) = true.
Proof.
  unfold is_ascii, slice. rewrite !forallb_forall, <- !Forall_forall. intros H.
  apply Forall_firstn, Forall_skipn. exact H.
Qed.

Lemma nth_z_nat z l d : (0 <= z)%Z -> nth_z z l d = nth (Z.to_nat z) l d.
Proof.
  intros Hz. unfold nth_z. destruct (Z.ltb_spec z (Z.of_nat (length l))); [reflexivity|].
  symmetry. apply nth_overflow. lia.
Qed.

(* utf8_bounds' local `so` and `eo` under names *)
Definition start_offset (v : list N) (start : Z) : nat :=
  if (0 <=? start)%Z then nth_z start (char_starts v 0) (length v)
  else nth_z (- start - 1) (rev (char_starts v 0)) 0.
Definition end_offset (v : list N) (len : option Z) (so : nat) : nat :=
  match len with
  | None => length v
  | Some n => if (Z.of_nat (length v - so) <=? n)%Z then length v else nth_z n (char_starts (skipn so v) so) (length v)
  end.
Lemma utf8_bounds_eq v start len :
  utf8_bounds v start len = (start_offset v start, end_offset v len (start_offset v start)).
Proof. reflexivity. Qed.

(* counting characters from the front, or from the back, and falling off either end, is sel_lo *)
Lemma start_offset_utf8 s start :
  start_offset (utf8 s) start = blen (firstn (Z.to_nat (sel_lo (Z.of_nat (length s)) start)) s).
Proof.
  unfold start_offset, sel_lo. change (length (utf8 s)) with (blen s). rewrite char_starts_utf8.
  destruct (Z.leb_spec 0 start) as [Hs|Hs].
  - rewrite nth_z_nat, (nth_char_offsets_or_end s 0) by assumption.
    now rewrite Z2Nat.inj_min, Nat2Z.id, firstn_min_length.
  - rewrite nth_z_nat by lia. destruct (Nat.lt_ge_cases (Z.to_nat (- start - 1)) (length s)) as [Lt|Ge].
    + rewrite rev_nth, char_offsets_length, nth_char_offsets by (rewrite ?char_offsets_length; lia).
      cbn [Nat.add]. do 2 f_equal. lia.
    + rewrite nth_overflow by (rewrite rev_length, char_offsets_length; lia).
      now replace (Z.to_nat (Z.max (Z.of_nat (length s) + start) 0)) with 0 by lia.
Qed.

(* from the a-th character on; the right-hand side is sel_hi when a is sel_lo *)
Lemma end_offset_utf8 s len a : (0 <= a <= Z.of_nat (length s))%Z -> (match len with Some k => 0 <= k | None => True end)%Z ->
  end_offset (utf8 s) len (blen (firstn (Z.to_nat a) s))
  = blen (firstn (Z.to_nat match len with Some k => Z.min (a + k) (Z.of_nat (length s)) | None => Z.of_nat (length s) end) s).
Proof.
  intros Ha Hlen. unfold end_offset. change (length (utf8 s)) with (blen s). set (an := Z.to_nat a).
  destruct len as [k|]; [|now rewrite Nat2Z.id, firstn_all].
  rewrite skipn_blen_utf8, char_starts_utf8.
  assert (Hr : blen s = blen (firstn an s) + blen (skipn an s)) by (rewrite <- blen_app; now rewrite firstn_skipn).
  destruct (Z.leb_spec (Z.of_nat (blen s - blen (firstn an s))) k) as [Le|Gt].
  - (* at least as many characters asked for as bytes are left *)
    pose proof (len_le_blen (skipn an s)) as Hle. rewrite skipn_length in Hle.
    now rewrite firstn_all2 by (subst an; lia).
  - rewrite nth_z_nat, Hr, nth_char_offsets_or_end, <- blen_app, <- firstn_plus by assumption.
    subst an. now rewrite Z2Nat.inj_min, Nat2Z.id, Z2Nat.inj_add, firstn_min_length by lia.
Qed.

Lemma utf8_bounds_spec s start len : (match len with Some k => 0 <= k | None => True end)%Z ->
  utf8_bounds (utf8 s) start len
  = (blen (firstn (Z.to_nat (sel_lo (Z.of_nat (length s)) start)) s),
     blen (firstn (Z.to_nat (sel_hi (Z.of_nat (length s)) start len)) s)).
Proof.
  intros Hlen. destruct (sel_range (Z.of_nat (length s)) start len) as (Ha & Hb); [lia|assumption|].
  rewrite utf8_bounds_eq, start_offset_utf8. f_equal.
  apply (end_offset_utf8 s len (sel_lo (Z.of_nat (length s)) start)); [lia|assumption].
Qed.

Theorem substring_by_char_spec_thm s start len : (match len with Some k => 0 <= k | None => True end)%Z ->
  forall asc : bool, (asc = true -> is_ascii s = true) ->
  substring_by_char_m asc (utf8 s) start len = utf8 (substring_by_char_spec s start len).
Proof.
  intros Hlen asc Hasc. destruct (sel_range (Z.of_nat (length s)) start len) as (Ha & Hb); [lia|assumption|].
  unfold substring_by_char_m, substring_by_char_spec.
  fold (sel_lo (Z.of_nat (length s)) start) (sel_hi (Z.of_nat (length s)) start len).
  destruct asc.
  - specialize (Hasc eq_refl). rewrite (utf8_ascii s Hasc). unfold ascii_bounds.
    symmetry. apply utf8_ascii. now apply slice_ascii.
  - rewrite utf8_bounds_spec by assumption. apply utf8_slice. lia.
Qed.
