(* C13 — integer <-> integer casts are exact range checks, per value and per column; time-unit and
   date conversions are exact products or truncating quotients. *)
From Coq Require Import List ZArith Bool Lia.
From AV Require Import Model.C13_Num Model.C13_Cast Proofs.C13_Pow Proofs.C13_Col.
Import ListNotations.
Local Open Scope Z_scope.

Lemma int_kernel_fn : forall b1 s1 b2 s2, exists f,
  value_fn (kernel_of (TInt b1 s1) (TInt b2 s2)) = Some f
  /\ forall v, fits b1 s1 v = true -> f v = num_cast b2 s2 v.
Proof.
  intros b1 s1 b2 s2. unfold kernel_of. cbn [mty_eqb].
  destruct ((b1 =? b2) && Bool.eqb s1 s2) eqn:E.
  - apply andb_true_iff in E. destruct E as [Eb Es]. apply Z.eqb_eq in Eb. apply Bool.eqb_prop in Es. subst.
    exists (fun v => Some v). split; [reflexivity|]. intros v Hv. unfold num_cast. rewrite Hv. reflexivity.
  - exists (num_cast b2 s2). split; reflexivity.
Qed.

Theorem int_cast_exact : forall b1 s1 b2 s2 v, fits b1 s1 v = true ->
  kernel_value (kernel_of (TInt b1 s1) (TInt b2 s2)) v = Some (if fits b2 s2 v then Some v else None).
Proof.
  intros b1 s1 b2 s2 v Hv. destruct (int_kernel_fn b1 s1 b2 s2) as (f & Hf & E).
  rewrite (kernel_value_fn _ f v Hf), E by assumption. reflexivity.
Qed.

Theorem int_column_cast_spec : forall b1 s1 b2 s2 safe c,
  (forall v, In (true, v) c -> fits b1 s1 v = true) ->
  refines (cast_model (TInt b1 s1) (TInt b2 s2) safe c) (num_cast b2 s2) safe c.
Proof.
  intros b1 s1 b2 s2 safe c Hc. destruct (int_kernel_fn b1 s1 b2 s2) as (f & Hf & E).
  apply (run_kernel_refines_fn _ f); [assumption|]. intros v Hi. apply E, Hc, Hi.
Qed.

Theorem int_cast_inverse : forall b1 s1 b2 s2 v w, fits b1 s1 v = true ->
  kernel_value (kernel_of (TInt b1 s1) (TInt b2 s2)) v = Some (Some w) ->
  w = v /\ kernel_value (kernel_of (TInt b2 s2) (TInt b1 s1)) w = Some (Some v).
Proof.
  intros b1 s1 b2 s2 v w Hv H. rewrite int_cast_exact in H by assumption.
  destruct (fits b2 s2 v) eqn:F; [|discriminate]. inversion H; subst w. split; [reflexivity|].
  rewrite int_cast_exact by assumption. rewrite Hv. reflexivity.
Qed.

Theorem bool_int_exact : forall bits sg v, (v = 0 \/ v = 1) ->
  kernel_value (kernel_of TBool (TInt bits sg)) v = Some (Some v)
  /\ kernel_value (kernel_of (TInt bits sg) TBool) v = Some (Some v).
Proof. intros bits sg v [-> | ->]; split; reflexivity. Qed.
Theorem int_bool_exact : forall bits sg v,
  kernel_value (kernel_of (TInt bits sg) TBool) v = Some (Some (if v =? 0 then 0 else 1)).
Proof. intros. reflexivity. Qed.

Definition units : list Z := [0; 1; 2; 3].
Lemma unit_mult_pos : forall u, In u units -> 0 < unit_mult u.
Proof. intros u [<-|[<-|[<-|[<-|[]]]]]; reflexivity. Qed.
Lemma unit_mult_pow : forall u, In u units -> unit_mult u = 10 ^ (3 * u) /\ 0 <= u.
Proof. intros u [<-|[<-|[<-|[<-|[]]]]]; split; (reflexivity || lia). Qed.

Lemma unit_ratio : forall u1 u2, In u1 units -> In u2 units -> unit_mult u1 <= unit_mult u2 ->
  exists k, 0 < k /\ unit_mult u2 = k * unit_mult u1 /\ Z.quot (unit_mult u2) (unit_mult u1) = k.
Proof.
  intros u1 u2 H1 H2. destruct (unit_mult_pow u1 H1) as [-> P1], (unit_mult_pow u2 H2) as [-> P2]. intros Hle.
  assert (L : u1 <= u2).
  { destruct (Z.le_gt_cases u1 u2) as [L|G]; [assumption|]. assert (10 ^ (3 * u2) < 10 ^ (3 * u1)) by (apply Z.pow_lt_mono_r; lia). lia. }
  assert (D : 10 ^ (3 * u2) = 10 ^ (3 * (u2 - u1)) * 10 ^ (3 * u1)) by (rewrite <- Z.pow_add_r by lia; f_equal; lia).
  assert (0 < 10 ^ (3 * (u2 - u1))) by (apply Z.pow_pos_nonneg; lia).
  assert (0 < 10 ^ (3 * u1)) by (apply Z.pow_pos_nonneg; lia).
  exists (10 ^ (3 * (u2 - u1))). split; [assumption|]. split; [exact D|]. rewrite D. apply Z.quot_mul. lia.
Qed.

Lemma unit_change_value : forall u1 u2 v,
  kernel_value (unit_change_kernel u1 u2) v = Some (rescale_time u1 u2 v).
Proof.
  intros u1 u2 v. unfold unit_change_kernel, rescale_time. cbv zeta.
  destruct (unit_mult u2 <? unit_mult u1); [reflexivity|]. destruct (unit_mult u2 =? unit_mult u1); reflexivity.
Qed.

(* the three arms of rescale_time (the i64 payload of Timestamp / Duration): k ticks become one, the
   same unit, one tick becomes k; k is the quotient of the two unit sizes the code computes *)
Inductive unit_change (u1 u2 v : Z) : option Z -> Prop :=
| to_coarser k : 0 < k -> unit_mult u1 = k * unit_mult u2 -> Z.quot (unit_mult u1) (unit_mult u2) = k ->
    unit_mult u2 < unit_mult u1 -> unit_change u1 u2 v (Some (Z.quot v k))
| to_same : unit_mult u2 = unit_mult u1 -> unit_change u1 u2 v (Some v)
| to_finer k : 0 < k -> unit_mult u2 = k * unit_mult u1 -> Z.quot (unit_mult u2) (unit_mult u1) = k ->
    unit_mult u1 < unit_mult u2 -> unit_change u1 u2 v (checked_mul 64 v k).

Lemma rescale_time_spec : forall u1 u2 v, In u1 units -> In u2 units -> unit_change u1 u2 v (rescale_time u1 u2 v).
Proof.
  intros u1 u2 v H1 H2. unfold rescale_time. cbv zeta.
  destruct (Z.ltb_spec (unit_mult u2) (unit_mult u1)) as [Hlt|Hge].
  - destruct (unit_ratio u2 u1 H2 H1 ltac:(lia)) as (k & Kp & Em & Eq). rewrite Eq. exact (to_coarser u1 u2 v k Kp Em Eq Hlt).
  - destruct (Z.eqb_spec (unit_mult u2) (unit_mult u1)) as [He|Hne]; [exact (to_same u1 u2 v He)|].
    destruct (unit_ratio u1 u2 H1 H2 Hge) as (k & Kp & Em & Eq). rewrite Eq. apply to_finer; (assumption || lia).
Qed.

Theorem temporal_unit_exact : forall u1 u2 v w, In u1 units -> In u2 units ->
  kernel_value (unit_change_kernel u1 u2) v = Some (Some w) ->
  (unit_mult u1 <= unit_mult u2 -> w * unit_mult u1 = v * unit_mult u2)
  /\ (unit_mult u2 < unit_mult u1 -> w = Z.quot (v * unit_mult u2) (unit_mult u1)).
Proof.
  intros u1 u2 v w H1 H2 Hk. rewrite unit_change_value in Hk. inversion Hk as [Hr]. clear Hk.
  pose proof (unit_mult_pos u2 H2) as P2. pose proof (rescale_time_spec u1 u2 v H1 H2) as S. rewrite Hr in S.
  inversion S as [k Kp Em Eq Hlt Ew|He Ew|k Kp Em Eq Hlt Ew].
  - (* coarser *) split; [lia|]. intros _. rewrite Em. symmetry. apply Z.quot_mul_cancel_r; lia.
  - (* same *) split; [intros _; rewrite He; reflexivity|lia].
  - (* finer *) apply checked_mul_inv in Ew. destruct Ew as [-> _]. split; [intros _; rewrite Em; ring|lia].
Qed.

Theorem temporal_unit_overflow : forall u1 u2 v, In u1 units -> In u2 units ->
  kernel_value (unit_change_kernel u1 u2) v = Some None <->
  unit_mult u1 < unit_mult u2 /\ fits 64 true (v * Z.quot (unit_mult u2) (unit_mult u1)) = false.
Proof.
  intros u1 u2 v H1 H2. rewrite unit_change_value.
  destruct (rescale_time_spec u1 u2 v H1 H2) as [k Kp Em Eq Hlt|He|k Kp Em Eq Hlt].
  - (* coarser *) split; [discriminate|lia].
  - (* same *) split; [discriminate|lia].
  - (* finer *) rewrite Eq. unfold checked_mul. cbv zeta. destruct (fits 64 true (v * k)).
    + split; [discriminate|]. intros [_ H]. discriminate.
    + split; [intros _; split; [assumption|reflexivity]|reflexivity].
Qed.

Theorem temporal_unit_inverse : forall u1 u2 v w, In u1 units -> In u2 units -> unit_mult u1 <= unit_mult u2 ->
  kernel_value (unit_change_kernel u1 u2) v = Some (Some w) ->
  kernel_value (unit_change_kernel u2 u1) w = Some (Some v).
Proof.
  intros u1 u2 v w H1 H2 Hle Hk. pose proof (unit_mult_pos u1 H1) as P1.
  rewrite unit_change_value in *. inversion Hk as [Hr]. clear Hk. f_equal.
  pose proof (rescale_time_spec u1 u2 v H1 H2) as S. rewrite Hr in S.
  inversion S as [k Kp Em Eq Hlt Ew|He Ew|k Kp Em Eq Hlt Ew]; [lia| |].
  - (* same *) subst w.
    destruct (rescale_time_spec u2 u1 v H2 H1) as [k' _ _ _ Hlt'|_|k' _ _ _ Hlt']; [lia|reflexivity|lia].
  - (* finer, so coarser on the way back, by the same k *) apply checked_mul_inv in Ew. destruct Ew as [-> _].
    destruct (rescale_time_spec u2 u1 (v * k) H2 H1) as [k' _ _ Eq' _|He'|k' _ _ _ Hlt']; [|lia|lia].
    rewrite <- Eq', Eq, Z.quot_mul by lia. reflexivity.
Qed.

Theorem date32_date64_exact : forall v, fits 32 true v = true ->
  kernel_value (kernel_of TDate32 TDate64) v = Some (Some (v * 86400000))
  /\ fits 64 true (v * 86400000) = true
  /\ kernel_value (kernel_of TDate64 TDate32) (v * 86400000) = Some (Some v).
Proof.
  intros v Hv. split; [reflexivity|]. pose proof (fits_elim _ _ _ Hv) as B. unfold imin, imax in B.
  change (2 ^ (32 - 1)) with 2147483648 in B.
  split.
  - apply fits_intro. unfold imin, imax. change (2 ^ (64 - 1)) with 9223372036854775808. lia.
  - cbn [kernel_of mty_eqb kernel_value]. change MS_DAY with 86400000. rewrite Z.quot_mul by lia.
    unfold num_cast. rewrite Hv. reflexivity.
Qed.
