(* C14 — JSON TapeDecoder: one decode call on a ++ b = a call on a followed (if a was consumed
   completely) by a call on b: the bulk operations never look across the cut. *)
From Coq Require Import List Arith NArith Bool Lia.
From AV Require Import Base.ListX Model.C14_Json.
Import ListNotations.
Local Open Scope N_scope.

Definition st_of (r : jres) : jstatus := snd r.

Lemma span_app p a b : span p (a ++ b) =
  match span p a with
  | (s1, []) => let '(s2, r2) := span p b in (s1 ++ s2, r2)
  | (s1, r1) => (s1, r1 ++ b)
  end.
Proof.
  induction a as [|x a IH]; cbn [app span].
  - destruct (span p b); reflexivity.
  - destruct (p x); [|reflexivity]. rewrite IH. destruct (span p a) as [s1 r1].
    destruct r1 as [|y r1]; [destruct (span p b); reflexivity|reflexivity].
Qed.

Lemma span_all_nil p a s1 : span p a = (s1, []) -> s1 = a.
Proof.
  revert s1; induction a as [|x a IH]; intros s1 H; cbn [span] in H; [now inversion H|].
  destruct (p x); [|discriminate]. destruct (span p a) as [s r] eqn:E. inversion H; subst. f_equal. now apply IH.
Qed.

Lemma snd_span_app p a b :
  snd (span p (a ++ b)) = match snd (span p a) with [] => snd (span p b) | r1 => r1 ++ b end.
Proof. rewrite span_app. destruct (span p a) as [s1 [|c r1]]; [destruct (span p b)|]; reflexivity. Qed.

(* the zip loop compares with what is left of the literal L from idx on, and resumes there *)
Lemma lit_zip_app L : forall a b idx,
  lit_zip (skipn idx L) (a ++ b) idx =
  match lit_zip (skipn idx L) a idx with
  | (idx', [], true) => lit_zip (skipn idx' L) b idx'
  | (idx', rest, ok) => (idx', rest ++ b, ok)
  end.
Proof.
  induction a as [|x a IH]; intros b idx.
  - replace (lit_zip (skipn idx L) [] idx) with (idx, @nil N, true) by now destruct (skipn idx L). reflexivity.
  - destruct (skipn idx L) as [|e1 es] eqn:E; [reflexivity|]. cbn [app lit_zip].
    destruct (x =? e1); [|destruct a; reflexivity]. apply skipn_S in E. rewrite <- E. apply IH.
Qed.

Lemma with_stack_idem t s s' : with_stack (with_stack t s') s = with_stack t s.
Proof. reflexivity. Qed.

(* one iteration of the \uXXXX loop, without the tape: it wants a byte, goes on with new digits, has the
   code point, or fails leaving rest *)
Inductive ures := UNeed | UNext (h l : N) (rest : list N) | UDone (c : N) | UFail (rest : list N).
Definition ustep (h l : N) (idx : nat) (buf : list N) : ures :=
  let on_byte (f : N -> list N -> ures) := match buf with [] => UNeed | b :: r => f b r end in
  let hex (k : N -> ures) b r := match parse_hex b with Some x => k x | None => UFail r end in
  if (idx <=? 3)%nat then on_byte (fun b r => hex (fun x => UNext ((h * 16) mod 65536 + x) l r) b r)
  else if (idx =? 4)%nat then
    if negb (is_surrogate h) then UDone h else on_byte (fun b r => if b =? 92 then UNext h l r else UFail r)
  else if (idx =? 5)%nat then on_byte (fun b r => if b =? 117 then UNext h l r else UFail r)
  else if (idx <=? 9)%nat then on_byte (fun b r => hex (fun x => UNext h ((l * 16) mod 65536 + x) r) b r)
  else match surrogate_pair l h with Some c => UDone c | None => UFail buf end.

Lemma unicode_loop_step k t st h l idx buf :
  unicode_loop (S k) t st h l idx buf =
  match ustep h l idx buf with
  | UNeed => (with_stack t (JUnicode h l idx :: st), [], JOk)
  | UNext h' l' r => unicode_loop k t st h' l' (S idx) r
  | UDone c => (MkTape (t_elems t) (t_row t) (t_bytes t ++ utf8_enc c) (t_offsets t) st, buf, JOk)
  | UFail r => (with_stack t (JUnicode h l idx :: st), r, JErr)
  end.
Proof.
  cbn [unicode_loop]. unfold ustep.
  destruct (idx <=? 3)%nat; [destruct buf; [|destruct (parse_hex _)]; reflexivity|].
  destruct (idx =? 4)%nat; [destruct (negb _); [|destruct buf; [|destruct (_ =? _)]]; reflexivity|].
  destruct (idx =? 5)%nat; [destruct buf; [|destruct (_ =? _)]; reflexivity|].
  destruct (idx <=? 9)%nat; [destruct buf; [|destruct (parse_hex _)]; reflexivity|].
  destruct (surrogate_pair l h); reflexivity.
Qed.

Lemma ustep_shape h l idx buf :
  match ustep h l idx buf with
  | UNeed => buf = []
  | UNext _ _ _ => (idx <= 9)%nat
  | _ => True
  end.
Proof.
  unfold ustep.
  destruct (Nat.leb_spec idx 3); [destruct buf; [|destruct (parse_hex _)]; auto; lia|].
  destruct (Nat.eqb_spec idx 4); [destruct (negb _); [|destruct buf; [|destruct (_ =? _)]]; auto; lia|].
  destruct (Nat.eqb_spec idx 5); [destruct buf; [|destruct (_ =? _)]; auto; lia|].
  destruct (Nat.leb_spec idx 9); [destruct buf; [|destruct (parse_hex _)]; auto|].
  destruct (surrogate_pair l h); exact I.
Qed.

Lemma ustep_app h l idx a b :
  ustep h l idx (a ++ b) =
  match ustep h l idx a with
  | UNeed => ustep h l idx b
  | UNext h' l' r => UNext h' l' (r ++ b)
  | UDone c => UDone c
  | UFail r => UFail (r ++ b)
  end.
Proof.
  unfold ustep.
  destruct (idx <=? 3)%nat; [destruct a; [|cbn [app]; destruct (parse_hex _)]; reflexivity|].
  destruct (idx =? 4)%nat; [destruct (negb _); [|destruct a; [|cbn [app]; destruct (_ =? _)]]; reflexivity|].
  destruct (idx =? 5)%nat; [destruct a; [|cbn [app]; destruct (_ =? _)]; reflexivity|].
  destruct (idx <=? 9)%nat; [destruct a; [|cbn [app]; destruct (parse_hex _)]; reflexivity|].
  destruct (surrogate_pair l h); reflexivity.
Qed.

Lemma unicode_stack_irrel : forall k t s' st h l idx buf,
  unicode_loop k (with_stack t s') st h l idx buf = unicode_loop k t st h l idx buf.
Proof.
  induction k as [|k IH]; intros t s' st h l idx buf; [reflexivity|].
  rewrite !unicode_loop_step. destruct (ustep h l idx buf); [reflexivity|apply IH|reflexivity|reflexivity].
Qed.

Lemma unicode_enough : forall k1 k2 t st h l idx buf,
  (11 - idx < k1)%nat -> (11 - idx < k2)%nat ->
  unicode_loop k1 t st h l idx buf = unicode_loop k2 t st h l idx buf.
Proof.
  induction k1 as [|k1 IH]; intros k2 t st h l idx buf H1 H2; [lia|].
  destruct k2 as [|k2]; [lia|]. rewrite !unicode_loop_step.
  pose proof (ustep_shape h l idx buf) as Hs. destruct (ustep h l idx buf); try reflexivity. apply IH; lia.
Qed.

(* If a ends inside the escape, the loop on a stops pending at some JUnicode h' l' idx', and the loop on a ++ b is the
   loop on b restarted there with the fuel the decoder itself passes, S (11 - idx') (first disjunct). *)
Lemma unicode_app : forall k t st h l idx a b, (11 - idx < k)%nat ->
  match unicode_loop k t st h l idx a with
  | (t1, [], JOk) =>
      (exists h' l' idx', t1 = with_stack t (JUnicode h' l' idx' :: st) /\
         unicode_loop k t st h l idx (a ++ b) = unicode_loop (S (11 - idx')) t st h' l' idx' b)
      \/ unicode_loop k t st h l idx (a ++ b) = (t1, b, JOk)
  | (t1, rest, s) => unicode_loop k t st h l idx (a ++ b) = (t1, rest ++ b, s)
  end.
Proof.
  induction k as [|k IH]; intros t st h l idx a b Hk; [lia|].
  rewrite (unicode_loop_step k t st h l idx a). pose proof (ustep_shape h l idx a) as Hs.
  destruct (ustep h l idx a) as [|h' l' r|c|r] eqn:E.
  - (* nothing read: b is read from the same point *)
    subst a. left. exists h, l, idx. split; [reflexivity|]. apply unicode_enough; lia.
  - rewrite unicode_loop_step, ustep_app, E. apply IH; lia.
  - rewrite unicode_loop_step, ustep_app, E. destruct a; [right|]; reflexivity.
  - rewrite unicode_loop_step, ustep_app, E. destruct r; reflexivity.
Qed.

Section P.
Variable batch_size : nat.
Variable flatten : bool.
Notation jdecode := (jdecode batch_size flatten).
Notation jrun1 := (jrun1 batch_size flatten).

(* one loop iteration with its two exits made explicit *)
Notation step_res := (jres + tape * list N)%type.
Definition jstep (t : tape) (buf : list N) : step_res :=
  @jarm batch_size flatten step_res inl (fun t' b' => inr (t', b')) t buf.

Ltac split_goal :=
  repeat match goal with
         | |- context [if ?c then _ else _] => destruct c
         | |- context [match ?x with _ => _ end] => destruct x
         end.

(* The free theorem of jarm's type: jarm is polymorphic in the answer type A and only hands its results to ret and rec.
   Coq does not derive it, so every leaf of every arm is visited (split_goal) and closed by reflexivity. *)
Lemma jarm_param {A} (ret : jres -> A) (rec : tape -> list N -> A) t buf :
  @jarm batch_size flatten A ret rec t buf = match jstep t buf with inl r => ret r | inr (t', b') => rec t' b' end.
Proof. unfold jstep, jarm. destruct (t_stack t) as [|[] st]; cbv iota; split_goal; reflexivity. Qed.

Lemma jdecode_unfold f t b r :
  jdecode (S f) t (b :: r) = match jstep t (b :: r) with inl res => res | inr (t', b') => jdecode f t' b' end.
Proof. cbn [C14_Json.jdecode]. apply (jarm_param (fun x => x) (jdecode f)). Qed.
Lemma jdecode_nil f t : jdecode f t [] = (t, [], JOk).
Proof. destruct f; reflexivity. Qed.

Lemma jdecode_mono : forall f t buf R,
  jdecode f t buf = R -> st_of R <> JOof -> jdecode (S f) t buf = R.
Proof.
  induction f as [|f IH]; intros t buf R H Hn.
  - destruct buf as [|b r]; [rewrite jdecode_nil in *; exact H|]. cbn in H. subst R. cbn in Hn. congruence.
  - destruct buf as [|b r]; [rewrite jdecode_nil in *; exact H|].
    rewrite jdecode_unfold in H. rewrite jdecode_unfold.
    destruct (jstep t (b :: r)) as [res|[t' b']]; [exact H|]. apply IH; assumption.
Qed.
Lemma jdecode_mono_le : forall f f' t buf R, (f <= f')%nat ->
  jdecode f t buf = R -> st_of R <> JOof -> jdecode f' t buf = R.
Proof.
  intros f f' t buf R Hle. induction Hle as [|f' Hle IH]; intros H Hn; [exact H|].
  apply jdecode_mono; auto.
Qed.

(* ra is the iteration's result on a, rab its result on a ++ b: either the iteration stopped inside a and b is
   left untouched, or it used up a, and then either stops there too (left) or is the iteration on b from where a
   left it (right; also when the iteration on a returned for lack of input).  inr (t2, []) alone does not tell which:
   the Literal and Unicode arms ask for more input by going round the loop with the empty rest (rec t' []), where the
   other arms return (t, [], JOk), and an arm whose token ends with the last byte of a goes round with [] as well. *)
Definition ok_after (ra rab : step_res) (b : list N) : Prop :=
  match ra with
  | inr (t2, []) => rab = inr (t2, b) \/ rab = jstep t2 b      (* a token ended with a | more input wanted *)
  | inr (t2, (_ :: _) as a2) => rab = inr (t2, a2 ++ b)
  | inl (t1, [], JOk) => rab = jstep t1 b                       (* returned for lack of input *)
  | inl (t1, rest, s) => rab = inl (t1, rest ++ b, s)           (* any other return: an error, a full batch *)
  end.

(* the iteration stopped at a byte of a, leaving r of it: b stays untouched behind r *)
Lemma ok_inr t' r b : ok_after (inr (t', r)) (inr (t', r ++ b)) b.
Proof. destruct r; [left|]; reflexivity. Qed.
Lemma ok_err t' r b : ok_after (inl (t', r, JErr)) (inl (t', r ++ b, JErr)) b.
Proof. destruct r; reflexivity. Qed.
Lemma ok_full t' c r b : ok_after (inl (t', c :: r, JOk)) (inl (t', c :: r ++ b, JOk)) b.
Proof. reflexivity. Qed.

(* an arm that skips a run of bytes satisfying p and then looks at one byte c *)
Ltac look_arm p a b :=
  rewrite (snd_span_app p a b); destruct (snd (span p a)) as [|c r1]; cbn [app].
Ltac open_step := unfold jstep, jarm; cbn [t_stack t_elems t_row t_bytes t_offsets].
(* all of a was skipped: what is left is the iteration on b in the same state, whose stack is given by Est *)
Ltac same_state Est := unfold ok_after, jstep, jarm; rewrite Est; reflexivity.

Lemma jstep_app : forall t a b, a <> [] -> ok_after (jstep t a) (jstep t (a ++ b)) b.
Proof.
  intros t a b Ha. unfold jstep at 1 2, jarm.
  destruct (t_stack t) as [|[ |i|i| | | | | |high low idx|l idx] st] eqn:Est; cbv iota.
  - (* no state: start of a row *)
    look_arm json_whitespace a b.
    + destruct (batch_size <=? t_row t)%nat eqn:E; unfold ok_after, jstep, jarm; rewrite Est, E; reflexivity.
    + destruct (batch_size <=? t_row t)%nat; [apply ok_full|].
      destruct ((c =? 91) && flatten); [apply ok_inr|apply (ok_inr _ (c :: r1))].
  - (* TopLevelList *)
    look_arm ws_or_comma a b.
    + destruct (batch_size <=? t_row t)%nat eqn:E; unfold ok_after, jstep, jarm; rewrite Est, E; reflexivity.
    + destruct (batch_size <=? t_row t)%nat; [apply ok_full|].
      destruct (c =? 93); [apply ok_inr|apply (ok_inr _ (c :: r1))].
  - (* Object *)
    look_arm ws_or_comma a b; [same_state Est|].
    destruct (c =? 34); [apply ok_inr|]. destruct (c =? 125); [apply ok_inr|apply ok_err].
  - (* List *)
    look_arm ws_or_comma a b; [same_state Est|].
    destruct (c =? 93); [apply ok_inr|apply (ok_inr _ (c :: r1))].
  - (* String *)
    rewrite (span_app not_str_special a b). destruct (span not_str_special a) as [s1 [|c r1]].
    + destruct (span not_str_special b) as [s2 r2] eqn:E2. unfold ok_after. open_step.
      rewrite E2, <- app_assoc. reflexivity.
    + cbn [app]. destruct (c =? 92); apply ok_inr.
  - (* Value *)
    look_arm json_whitespace a b; [same_state Est|].
    destruct (c =? 34); [apply ok_inr|]. destruct ((c =? 45) || ((48 <=? c) && (c <=? 57))); [apply ok_inr|].
    destruct (c =? 110); [apply ok_inr|]. destruct (c =? 102); [apply ok_inr|]. destruct (c =? 116); [apply ok_inr|].
    destruct (c =? 91); [apply ok_inr|]. destruct (c =? 123); [apply ok_inr|apply ok_err].
  - (* Number *)
    rewrite (span_app num_char a b). destruct (span num_char a) as [s1 [|c r1]].
    + destruct (span num_char b) as [s2 r2] eqn:E2. unfold ok_after. open_step.
      rewrite E2, <- app_assoc. reflexivity.
    + apply (ok_inr _ (c :: r1)).
  - (* Colon *)
    look_arm json_whitespace a b; [same_state Est|].
    destruct (c =? 58); [apply ok_inr|apply ok_err].
  - (* Escape *)
    destruct a as [|x a]; [congruence|]. cbn [app].
    destruct (x =? 117); [apply ok_inr|]. destruct (escape_char x); [apply ok_inr|apply ok_err].
  - (* Unicode *)
    pose proof (unicode_app (S (11 - idx)) t st high low idx a b (Nat.lt_succ_diag_r _)) as U.
    destruct (unicode_loop (S (11 - idx)) _ st high low idx a) as [[t1 [|c rest]] [| |]].
    2-6: rewrite U; reflexivity.
    destruct U as [(h' & l' & idx' & -> & U)|U].
    + (* the escape continues in b *)
      right. rewrite U. rewrite <- (unicode_stack_irrel _ _ (JUnicode h' l' idx' :: st)). reflexivity.
    + left. now rewrite U.
  - (* Literal *)
    rewrite lit_zip_app.
    destruct (lit_zip (skipn idx (lit_bytes l)) a idx) as [[idx' [|c rest]] [|]]; cbn [negb].
    + destruct (Nat.eqb_spec idx' (length (lit_bytes l))) as [->|El].
      * (* the literal ends with a *)
        left. rewrite skipn_all. cbn [lit_zip negb]. now rewrite Nat.eqb_refl.
      * right. open_step. reflexivity.
    + apply ok_err.
    + destruct (idx' =? length (lit_bytes l))%nat; apply ok_inr.
    + apply ok_err.
Qed.

(* the property as Props states it; both calls, on a and on b, run with the fuel f of the call on a ++ b *)
Definition split_ok (f : nat) (t : tape) (a b : list N) (R : jres) : Prop :=
  match jdecode f t a with
  | (t1, [], JOk) => jdecode f t1 b = R
  | (t1, rest, JOk) => R = (t1, rest ++ b, JOk)
  | (t1, rest, JErr) => R = (t1, rest ++ b, JErr)
  | (_, _, JOof) => False
  end.

Theorem jsplit : forall f t a b R, jdecode f t (a ++ b) = R -> st_of R <> JOof -> split_ok f t a b R.
Proof.
  induction f as [|f IH]; intros t a b R H Hn;
    (destruct a as [|x a]; [unfold split_ok; rewrite jdecode_nil; exact H|]).
  - (* no fuel *) cbn in H. subst R. cbn in Hn. congruence.
  - destruct b as [|y b].
    { (* nothing follows a: the cases are the result R itself, by what is left and the status *)
      rewrite app_nil_r in H. unfold split_ok. rewrite H. destruct R as [[t1 rest] s0].
      destruct rest as [|c rest]; destruct s0 as [| |].
      - (* [], JOk *) apply jdecode_nil.
      - (* [], JErr *) reflexivity.
      - (* [], JOof *) now elim Hn.
      - (* c :: rest, JOk *) now rewrite app_nil_r.
      - (* c :: rest, JErr *) now rewrite app_nil_r.
      - (* c :: rest, JOof *) now elim Hn. }
    pose proof (jstep_app t (x :: a) (y :: b) ltac:(discriminate)) as Hs.
    unfold split_ok.
    change ((x :: a) ++ y :: b) with (x :: (a ++ y :: b)) in H. rewrite jdecode_unfold in H.
    change (x :: (a ++ y :: b)) with ((x :: a) ++ y :: b) in H. rewrite jdecode_unfold.
    destruct (jstep t (x :: a)) as [[[t1 rest] s0]|[t2 a2]].
    + (* the iteration on a returns *)
      destruct rest as [|c rest]; destruct s0 as [| |]; rewrite Hs in H.
      * (* [], JOk: all of a consumed by this iteration, which stops for lack of input *)
        rewrite jdecode_unfold. exact H.
      * (* [], JErr *) subst R. reflexivity.
      * (* [], JOof *) subst R. now elim Hn.
      * (* c :: rest, JOk *) subst R. reflexivity.
      * (* c :: rest, JErr *) subst R. reflexivity.
      * (* c :: rest, JOof *) subst R. now elim Hn.
    + (* the iteration on a goes round the loop *)
      destruct a2 as [|c a2].
      * (* with nothing left of a: the two sides of ok_after *)
        destruct Hs as [Hs|Hs]; rewrite Hs in H.
        -- (* a token ended with a: b is decoded from t2 with the fuel that is left *)
           rewrite jdecode_nil. apply jdecode_mono; assumption.
        -- (* more input wanted: the same iteration goes on in b *)
           rewrite jdecode_nil. rewrite jdecode_unfold. exact H.
      * rewrite Hs in H. specialize (IH t2 (c :: a2) (y :: b) R H Hn). unfold split_ok in IH.
        destruct (jdecode f t2 (c :: a2)) as [[t1 rest] s0]. destruct s0; [|exact IH|exact IH].
        destruct rest; [|exact IH]. apply jdecode_mono; assumption.
Qed.

Theorem jdecode_is_jrun1 : forall buf f t R, jdecode f t buf = R -> st_of R <> JOof -> jrun1 f t buf = R.
Proof.
  induction buf as [|x buf IH]; intros f t R H Hn.
  - rewrite jdecode_nil in H. exact H.
  - cbn [C14_Json.jrun1]. pose proof (jsplit f t [x] buf R H Hn) as Hs. unfold split_ok in Hs.
    destruct (jdecode f t [x]) as [[t1 [|c rest]] [| |]].
    + (* [], JOk *) apply IH; assumption.
    + (* [], JErr *) symmetry; exact Hs.
    + (* [], JOof *) contradiction.
    + (* c :: rest, JOk *) symmetry; exact Hs.
    + (* c :: rest, JErr *) symmetry; exact Hs.
    + (* c :: rest, JOof *) contradiction.
Qed.

End P.
