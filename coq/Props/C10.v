(* C10 — property theorems only: each closed by [exact] and followed by Print Assumptions. *)
From Coq Require Import List ZArith Bool Arith Permutation.
From AV Require Import Model.C10_Order Model.C10_Sort Model.C10_Rank Model.C10_Heap Model.C10_Dict Model.D_C10.
From AV Require Import Proofs.C10_Float Proofs.C10_Cmp Proofs.C10_Bytes Proofs.C10_MCmp Proofs.C10_Sort Proofs.C10_SortImpl.
From AV Require Import Proofs.C10_Kernels Proofs.C10_Partition Proofs.C10_Rank Proofs.C10_Examples Proofs.C10_Heap Proofs.C10_SortDict.
Import ListNotations.

(* Used below:  tpo c  :=  (forall a, c a a = Eq) /\ (forall a b, c b a = CompOpp (c a b)) /\
   (forall a b d, c a b <> Gt -> c b d <> Gt -> c a d <> Gt)   — a 3-way comparator that is a total preorder
   (Proofs/C10_Cmp.v);  bytes l := every element of l is in [0, 256);  wf_col: bytes are bytes and a float of width w
   is a bit pattern in [0, 2^w) tagged with h = 2^(w-1) (Proofs/C10_MCmp.v). *)

(* ---- 1. floats.  The integer key of f16/f32/f64::total_cmp (x ^ (((x >> (w-1)) as unsigned) >> 1), compared as
   signed) orders bit patterns exactly like IEEE-754 totalOrder (sign, then magnitude; reversed for negatives),
   for every width w and all bit patterns: NaN payloads, signed zeros, subnormals included. *)
Theorem float_key_is_totalOrder : forall w x y : Z,
  (0 < w)%Z -> (0 <= x < 2 ^ w)%Z -> (0 <= y < 2 ^ w)%Z ->
  total_cmp_key w x y = total_order (2 ^ (w - 1)) x y.
Proof. exact float_key_total_order. Qed.
Print Assumptions float_key_is_totalOrder.

(* ---- 2. the slot comparator (nulls by nulls_first, values reversed by descending, children under child_opts)
   is a total preorder for all four option combinations and all (nested) values ... *)
Theorem cmp_total_preorder : forall nf desc : bool,
  (forall p : oval, cmp_opts nf desc p p = Eq) /\
  (forall p q : oval, cmp_opts nf desc q p = CompOpp (cmp_opts nf desc p q)) /\
  (forall p q r : oval, cmp_opts nf desc p q <> Gt -> cmp_opts nf desc q r <> Gt -> cmp_opts nf desc p r <> Gt).
Proof. exact cmp_opts_tpo. Qed.
Print Assumptions cmp_total_preorder.

(* ... whose equivalence is equality of logical values (consistency with array equality: -0 <> +0, NaNs by payload,
   null = null) *)
Theorem cmp_eq_iff_equal : forall (nf desc : bool) (p q : oval), cmp_opts nf desc p q = Eq <-> p = q.
Proof. exact cmp_opts_eq_iff. Qed.
Print Assumptions cmp_eq_iff_equal.

(* ---- 3. make_comparator as arrow-cmp builds it — compare_impl's four null-buffer cases, the float key, the list zip
   loop, and a byte comparison [bc] that orders byte strings lexicographically — computes the specification
   comparator on every pair of slots of two well-formed columns. *)
Theorem make_comparator_is_spec : forall (bc : list Z -> list Z -> comparison),
  (forall x y, bytes x -> bytes y -> bc x y = bytes_cmp x y) ->
  forall (nf desc : bool) (a b : list oval) (i j : nat),
  wf_col a -> wf_col b -> i < length a -> j < length b ->
  m_cmp_idx bc nf desc a b i j = cmp_idx nf desc a b i j.
Proof. exact m_cmp_idx_spec. Qed.
Print Assumptions make_comparator_is_spec.

(* the byte-string fast paths order like the byte strings: sort_bytes' (4-byte prefix, length, full) comparator, *)
Theorem sort_bytes_prefix_cmp_is_lex : forall a b : list Z, bytes a -> bytes b -> cmp_bytes_prefix a b = bytes_cmp a b.
Proof. exact cmp_bytes_prefix_lex. Qed.
Print Assumptions sort_bytes_prefix_cmp_is_lex.
(* the 128-bit inline key of the view types (12 zero-padded bytes big-endian, then the length), *)
Theorem inline_key_is_lex : forall a b : list Z, bytes a -> bytes b -> length a <= 12 -> length b <= 12 ->
  (inline_key a ?= inline_key b)%Z = bytes_cmp a b.
Proof. exact inline_key_lex. Qed.
Print Assumptions inline_key_is_lex.
(* compare_unchecked / cmp_mixed / is_lt (inline keys, else 4-byte prefix, else full), and the view equality fast paths *)
Theorem view_cmp_is_lex : forall a b : list Z, bytes a -> bytes b -> view_cmp a b = bytes_cmp a b.
Proof. exact view_cmp_lex. Qed.
Print Assumptions view_cmp_is_lex.
Theorem view_eq_is_eq : forall a b : list Z, bytes a -> bytes b -> view_eq a b = list_eqb a b.
Proof. exact view_eq_spec. Qed.
Print Assumptions view_eq_is_eq.

(* ---- 4. sorting.  For ANY implementation [so] of slice::sort_unstable_by and [se] of select_nth_unstable_by that
   meet their documented contracts (a sorted permutation; a permutation with the n-th element in place, nothing
   greater before it, nothing smaller after it) and consult the comparator only on the slice's elements,
   sort_to_indices — early exits, partition_validity, the v_limit computation, sort_unstable_by / partial_sort,
   null placement, truncation — returns, for every array, every SortOptions and every limit, an index list that
   the sort predicate accepts (code 1: a duplicate-free list of in-range indices of length min(limit, n),
   non-decreasing under the comparator, no omitted row below a kept row).  [vc]/[value] are the value extraction and
   value comparison of the kernel; they only have to agree with the value order on the valid slots. *)
Theorem sort_impl_sorted_perm :
  forall (V : Type)
    (so : (nat * V -> nat * V -> comparison) -> list (nat * V) -> list (nat * V))
    (se : (nat * V -> nat * V -> comparison) -> nat -> list (nat * V) -> list (nat * V)),
  (forall c l, tpo c -> Permutation (so c l) l /\ sortedb c (so c l) = true) ->
  (forall c n l, tpo c -> n < length l ->
     Permutation (se c n l) l /\
     exists p, nth_error (se c n l) n = Some p /\
       Forall (fun x => c x p <> Gt) (firstn n (se c n l)) /\
       Forall (fun y => c p y <> Gt) (skipn (S n) (se c n l))) ->
  (forall c1 c2 l, (forall x y, In x l -> In y l -> c1 x y = c2 x y) -> so c1 l = so c2 l) ->
  (forall c1 c2 n l, (forall x y, In x l -> In y l -> c1 x y = c2 x y) -> se c1 n l = se c2 n l) ->
  forall (vc : V -> V -> comparison) (value : nat -> V) (a : list oval) (nf desc : bool),
  (forall i j u v, slot a i = Some u -> slot a j = Some v ->
     vc (value i) (value j) = vcmp (child_nf nf desc) u v) ->
  forall limit : option nat,
  sort_check (cmp_opts nf desc) a limit (sort_to_indices so se vc value a nf desc limit) = 1%Z.
Proof. exact (@sort_to_indices_check). Qed.
Print Assumptions sort_impl_sorted_perm.

(* the building block: sort_unstable_by(array, limit, cmp) — a full sort when limit = len, otherwise partial_sort =
   select_nth_unstable_by(limit - 1) followed by a sort of the part before it — is a permutation whose first `limit`
   elements are in order and not above anything after them *)
Theorem partial_sort_contract :
  forall (T : Type) (so : (T -> T -> comparison) -> list T -> list T) (se : (T -> T -> comparison) -> nat -> list T -> list T),
  (forall c l, tpo c -> Permutation (so c l) l /\ sortedb c (so c l) = true) ->
  (forall c n l, tpo c -> n < length l ->
     Permutation (se c n l) l /\
     exists p, nth_error (se c n l) n = Some p /\
       Forall (fun x => c x p <> Gt) (firstn n (se c n l)) /\
       Forall (fun y => c p y <> Gt) (skipn (S n) (se c n l))) ->
  forall (c : T -> T -> comparison) (k : nat) (l : list T), tpo c -> k <= length l ->
  Permutation (sort_unstable_by so se c k l) l /\
  sortedb c (firstn k (sort_unstable_by so se c k l)) = true /\
  (forall x y, In x (firstn k (sort_unstable_by so se c k l)) -> In y (skipn k (sort_unstable_by so se c k l)) -> c x y <> Gt).
Proof. exact (@sort_unstable_by_contract). Qed.
Print Assumptions partial_sort_contract.

(* what code 1 of the sort predicate means (the judge applied to every real sort_to_indices / lexsort_to_indices
   output by the correspondence run): for a total preorder c, [out] has length min(limit, n), has no duplicates, is in
   range, is non-decreasing for every pair of positions, and no omitted row is below a kept row *)
Theorem sort_predicate_meaning : forall (R : Type) (c : R -> R -> comparison) (rows : list R) (limit : option nat) (out : list nat),
  tpo c -> sort_check c rows limit out = 1%Z ->
  length out = out_len (length rows) limit /\ NoDup out /\ (forall i, In i out -> i < length rows) /\
  (forall l1 i l2 j l3 x y, out = l1 ++ i :: l2 ++ j :: l3 ->
     nth_error rows i = Some x -> nth_error rows j = Some y -> c x y <> Gt) /\
  (forall i j x y, In i out -> j < length rows -> ~ In j out ->
     nth_error rows i = Some x -> nth_error rows j = Some y -> c x y <> Gt).
Proof. exact (@sort_check_sound). Qed.
Print Assumptions sort_predicate_meaning.

(* the tuple order of lexsort — LexicographicalComparator::compare, the first non-Equal column comparator — is a total
   preorder on row numbers for any columns and per-column options, so the predicate above judges lexsort outputs too *)
Theorem lexsort_is_tuple_order : forall cols : list (bool * bool * list oval),
  (forall i, lex_idx cols i i = Eq) /\
  (forall i j, lex_idx cols j i = CompOpp (lex_idx cols i j)) /\
  (forall i j k, lex_idx cols i j <> Gt -> lex_idx cols j k <> Gt -> lex_idx cols i k <> Gt).
Proof. exact lex_idx_tpo. Qed.
Print Assumptions lexsort_is_tuple_order.

(* lexsort_topk, the bounded max-heap path of lexsort_to_indices (fully modelled: push + sift_up_worst_heap while fewer than
   `limit` rows are retained, else replace the root when the new row is smaller + sift_down_worst_heap; final sort by the
   oracle): for every total preorder, row count and limit >= 1 its result passes the sort predicate, i.e. it is the sorted
   list of the `limit` smallest rows. *)
Theorem heap_topk_correct :
  forall (cmp : nat -> nat -> comparison), tpo cmp ->
  forall (limit : nat), 0 < limit ->
  forall (so : (nat -> nat -> comparison) -> list nat -> list nat) (n : nat),
  (forall c l, tpo c -> Permutation (so c l) l /\ sortedb c (so c l) = true) ->
  sort_check cmp (seq 0 n) (Some limit) (lexsort_topk so n limit cmp) = 1%Z.
Proof. exact lexsort_topk_check. Qed.
Print Assumptions heap_topk_correct.

(* sort_dictionary: sorting the (key index, rank of the dictionary value) tuples — ranks computed under child_opts, only the
   KEY nulls partitioned away, so valid keys pointing at null dictionary values travel among the "valids" with the rank
   of a null — yields an output the predicate accepts for the comparator on the LOGICAL values of the dictionary array. *)
Theorem sort_dictionary_sorted_perm :
  forall (so : (nat * nat -> nat * nat -> comparison) -> list (nat * nat) -> list (nat * nat))
         (se : (nat * nat -> nat * nat -> comparison) -> nat -> list (nat * nat) -> list (nat * nat)),
  (forall c l, tpo c -> Permutation (so c l) l /\ sortedb c (so c l) = true) ->
  (forall c n l, tpo c -> n < length l ->
     Permutation (se c n l) l /\
     exists p, nth_error (se c n l) n = Some p /\
       Forall (fun x => c x p <> Gt) (firstn n (se c n l)) /\
       Forall (fun y => c p y <> Gt) (skipn (S n) (se c n l))) ->
  (forall c1 c2 l, (forall x y, In x l -> In y l -> c1 x y = c2 x y) -> so c1 l = so c2 l) ->
  (forall c1 c2 n l, (forall x y, In x l -> In y l -> c1 x y = c2 x y) -> se c1 n l = se c2 n l) ->
  forall (keys : list (option nat)) (values : list oval) (nf desc : bool) (limit : option nat),
  (forall i k, nth i keys None = Some k -> k < length values) ->
  sort_check (cmp_opts nf desc) (dict_col keys values) limit (sort_dictionary so se keys values nf desc limit) = 1%Z.
Proof. exact sort_dictionary_check. Qed.
Print Assumptions sort_dictionary_sorted_perm.

(* sort_list / sort_list_view / sort_fixed_size_list: every valid list carries the slice of its elements' child ranks and
   slices are compared like &[u32] (lexicographically, then by length); for lists whose elements are slots of the child
   array the output passes the predicate for the list comparator (elements under child_opts, nulls inside lists included) *)
Theorem sort_list_sorted_perm :
  forall (so : (nat * list nat -> nat * list nat -> comparison) -> list (nat * list nat) -> list (nat * list nat))
         (se : (nat * list nat -> nat * list nat -> comparison) -> nat -> list (nat * list nat) -> list (nat * list nat)),
  (forall c l, tpo c -> Permutation (so c l) l /\ sortedb c (so c l) = true) ->
  (forall c n l, tpo c -> n < length l ->
     Permutation (se c n l) l /\
     exists p, nth_error (se c n l) n = Some p /\
       Forall (fun x => c x p <> Gt) (firstn n (se c n l)) /\
       Forall (fun y => c p y <> Gt) (skipn (S n) (se c n l))) ->
  (forall c1 c2 l, (forall x y, In x l -> In y l -> c1 x y = c2 x y) -> so c1 l = so c2 l) ->
  (forall c1 c2 n l, (forall x y, In x l -> In y l -> c1 x y = c2 x y) -> se c1 n l = se c2 n l) ->
  forall (child a : list oval) (nf desc : bool) (limit : option nat),
  (forall i u, slot a i = Some u -> exists l, u = VList l /\ forall o, In o l -> In o child) ->
  sort_check (cmp_opts nf desc) a limit (sort_list so se child a nf desc limit) = 1%Z.
Proof. exact sort_list_check. Qed.
Print Assumptions sort_list_sorted_perm.

(* the contracts are satisfiable: insertion sort (the instance run by the extracted model) meets all four *)
Theorem sort_oracle_instance : forall T : Type,
  (forall (c : T -> T -> comparison) l, tpo c -> Permutation (isort c l) l /\ sortedb c (isort c l) = true) /\
  (forall (c : T -> T -> comparison) n l, tpo c -> n < length l ->
     Permutation (iselect c n l) l /\
     exists p, nth_error (iselect c n l) n = Some p /\
       Forall (fun x => c x p <> Gt) (firstn n (iselect c n l)) /\
       Forall (fun y => c p y <> Gt) (skipn (S n) (iselect c n l))) /\
  (forall (c1 c2 : T -> T -> comparison) l, (forall x y, In x l -> In y l -> c1 x y = c2 x y) -> isort c1 l = isort c2 l) /\
  (forall (c1 c2 : T -> T -> comparison) n l, (forall x y, In x l -> In y l -> c1 x y = c2 x y) -> iselect c1 n l = iselect c2 n l).
Proof. exact (fun T => conj (@isort_contract T) (conj (@iselect_contract T) (conj (@isort_ext T) (@iselect_ext T)))). Qed.
Print Assumptions sort_oracle_instance.

(* ---- 5. rank.  rank_impl (sort, reverse when descending, the backwards windows(2) loop with its run counter) gives
   every slot the rank of the specification — nulls: the null count (nulls first) or the length; a valid value:
   the nulls before it plus the number of valid values not after it, ties sharing the highest rank — for any sorter
   meeting the sort contract, any total preorder on values and an equality test consistent with it. *)
Theorem rank_spec_holds :
  forall (so : (val * nat -> val * nat -> comparison) -> list (val * nat) -> list (val * nat)),
  (forall c l, tpo c -> Permutation (so c l) l /\ sortedb c (so c l) = true) ->
  forall (vc : val -> val -> comparison), tpo vc ->
  forall (veq : val -> val -> bool), (forall x y, veq x y = is_eq_c (vc x y)) ->
  forall (nf desc : bool) (a : list oval),
  rank_m so vc veq nf desc a = rank_spec vc nf desc a.
Proof. exact rank_m_spec. Qed.
Print Assumptions rank_spec_holds.

(* boolean_rank (null/true/false counts, the [false, true, null] table for the four option combinations, the index
   (is_null << 1) | (value & !is_null)) is the same specification on boolean columns *)
Theorem boolean_rank_spec_holds : forall (nf desc : bool) (a : list oval),
  Forall (fun o : oval => match o with None => True | Some v => v = VInt 0 \/ v = VInt 1 end) a ->
  boolean_rank nf desc a = rank_spec (vcmp false) nf desc a.
Proof. exact boolean_rank_spec. Qed.
Print Assumptions boolean_rank_spec_holds.

(* ranks embed the order: not-after implies rank <=, strictly before implies rank < — why sorting dictionaries and
   lists by the ranks of their values (sort_dictionary, sort_list, child_rank) is sorting by the comparator *)
Theorem rank_order_embedding : forall (vc : val -> val -> comparison) (desc : bool) (a : list oval) (u v : val),
  tpo vc ->
  (rev_if desc (vc u v) <> Gt -> count_le desc vc a u <= count_le desc vc a v) /\
  (In (Some v) a -> rev_if desc (vc u v) = Lt -> count_le desc vc a u < count_le desc vc a v).
Proof. exact (fun vc desc a u v H => conj (count_le_mono vc desc a u v H) (count_le_strict vc desc a u v H)). Qed.
Print Assumptions rank_order_embedding.

(* ---- 6. partition.  The ranges computed from the boundary mask start at row 0 and after every set bit, end at the
   next start / the row count; and partition(columns).ranges() is the specification: a new range starts exactly
   where a row differs from its predecessor in some column (null = null, null <> value). *)
Theorem partition_ranges_spec : forall b : list bool,
  map fst (ranges_some b) = 0 :: map (fun i => i + 1) (set_indices b) /\
  map snd (ranges_some b) = map (fun i => i + 1) (set_indices b) ++ [length b + 1].
Proof. exact ranges_some_spec. Qed.
Print Assumptions partition_ranges_spec.

Theorem partition_spec_holds : forall cols : list (list oval),
  (forall c c', In c cols -> In c' cols -> length c = length c') ->
  partition_m cols = partition_spec cols.
Proof. exact partition_m_spec. Qed.
Print Assumptions partition_spec_holds.

(* ---- 7. comparison kernels.  compare_op — its case analysis on the two (optional) null buffers and scalar flags,
   with the word formulas (l ^ r) | (l & r & ne), !(l | r) | (l & r & eq), !l | ne, l & eq taken bit by bit —
   returns per row what the comparator says: eq/neq/lt/lt_eq/gt/gt_eq are null when either side is null,
   distinct/not_distinct never are (null is not distinct from null), with scalar broadcasting on either side.
   [is_eq]/[is_lt] are the element tests of the physical type, consistent with the value order. *)
Theorem cmp_kernels_agree :
  forall (is_eq is_lt : val -> val -> bool) (ok : val -> Prop),
  (forall a b, ok a -> ok b -> is_eq a b = is_eq_c (vcmp false a b)) ->
  (forall a b, ok a -> ok b -> is_lt a b = is_lt_c (vcmp false a b)) ->
  forall (op : cop) (l_s r_s : bool) (l r : list oval),
  (forall i v, slot l i = Some v -> ok v) -> (forall i v, slot r i = Some v -> ok v) ->
  (l_s = true -> length l = 1) -> (r_s = true -> length r = 1) ->
  (l_s = false -> r_s = false -> length l = length r) ->
  compare_op is_eq is_lt op l_s r_s l r = Some (kernels_spec op l_s r_s l r).
Proof. exact compare_op_spec. Qed.
Print Assumptions cmp_kernels_agree.

(* the element tests run by the extracted kernel model (bit equality for floats, the view equality shortcuts, is_lt through
   the float key / view keys) meet the two hypotheses above on well-formed non-nested values *)
Theorem kernel_element_tests_ok : forall (ty : list Z) (a b : val),
  (wf_val a /\ match a with VList _ => False | _ => True end) ->
  (wf_val b /\ match b with VList _ => False | _ => True end) ->
  m_is_eq ty a b = is_eq_c (vcmp false a b) /\ m_is_lt ty a b = is_lt_c (vcmp false a b).
Proof. exact (fun ty a b Ha Hb => conj (m_is_eq_ok ty a b Ha Hb) (m_is_lt_ok ty a b Ha Hb)). Qed.
Print Assumptions kernel_element_tests_ok.

(* the value comparators run by the extracted sort model (float key, slice cmp, sort_bytes' prefix comparator, view keys)
   meet the hypothesis of sort_impl_sorted_perm on well-formed non-nested values, for any child null order *)
Theorem sort_value_cmp_ok : forall (ty : list Z) (cnf : bool) (a b : val),
  (wf_val a /\ match a with VList _ => False | _ => True end) ->
  (wf_val b /\ match b with VList _ => False | _ => True end) ->
  m_value_cmp ty a b = vcmp cnf a b.
Proof. exact m_value_cmp_ok. Qed.
Print Assumptions sort_value_cmp_ok.
