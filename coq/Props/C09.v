(* C09 — property theorems only. *)
From Coq Require Import List Bool NArith ZArith.
From AV Require Import Gen.Consts Model.C09_Layout Model.C09_Validate Model.C09_Gaps Model.C01_Access Proofs.C09_Accept Proofs.C09_GenTie Proofs.C09_Refuted.
Import ListNotations.

(* A per-node implication between validators lifts to whole array trees of any shape and depth. *)
Theorem node_implication_lifts_to_trees : forall (P Q : parr -> bool),
  (forall a, P a = true -> Q a = true) -> forall a, tree_all P a = true -> tree_all Q a = true.
Proof. exact tree_all_impl. Qed.
Print Assumptions node_implication_lifts_to_trees.

(* Acceptance implies specification validity: for every array tree (any nesting) over the covered
   types — Null, Boolean, all fixed-width primitives, FixedSizeBinary, (Large)Binary, (Large)List, (Large)ListView,
   FixedSizeList (nullable child, or offset 0), Struct (offset 0), Dictionary, RunEndEncoded — with
   physically realisable buffers, if the transcription of ArrayData::validate_full accepts then the
   independent validator written from the format specification accepts.
   Not covered by this theorem (correspondence run only): Utf8 content, views, unions
   (type ids are not validated by arrow-rs: known finding F5), Struct / non-nullable FixedSizeList at a
   non-zero offset (validation ignores the offset: known finding F4). *)
Theorem accept_implies_valid : forall a,
  tree_all phys a = true -> tree_all covered a = true -> impl_validate_full a = true -> spec_valid a = true.
Proof. intros a Hp. exact (accept_implies_valid_tree a (tree_all_impl _ _ phys_addressable a Hp)). Qed.
Print Assumptions accept_implies_valid.

(* non-vacuity: a nested List<Int32> with a validity bitmap, offsets [0,2,2,3] and a 3-element child meets
   every hypothesis and is accepted *)
Example accept_nonvacuous :
  let child := PArr (TFixed 4) 3 0 None [[1;0;0;0; 2;0;0;0; 3;0;0;0]%N] [] in
  let a := PArr (TList false true (TFixed 4)) 3 0
             (Some {| nb_bytes := [5%N]; nb_off := 0; nb_len := 3; nb_count := 1 |})
             [[0;0;0;0; 2;0;0;0; 2;0;0;0; 3;0;0;0]%N] [child] in
  tree_all phys a = true /\ tree_all covered a = true /\ impl_validate_full a = true /\ spec_valid a = true.
Proof. vm_compute. repeat split. Qed.

(* The inline-view threshold of the models is the constant of the current source tree. *)
Theorem model_constants_match_source :
  Z.of_N max_inline_view_len = arrow_data_byte_view__MAX_INLINE_VIEW_LEN.
Proof. exact tie_max_inline_view_len. Qed.
Print Assumptions model_constants_match_source.

(* ---- the hypothesis [covered] cannot be dropped: at the known gaps the transcribed validator accepts what the
   specification rejects (witnesses in Proofs/C09_Refuted.v, decided by computation; the correspondence run
   reports the same inputs against the real ArrayData::validate_full as KNOWN-FINDING F4 / F5) *)
Theorem accept_implies_valid_struct_offset_refuted : exists a,
  tree_all phys a = true /\ impl_validate_full a = true /\ spec_valid a = false /\
  match p_ty a with TStruct _ => p_off a <> 0%nat | _ => False end.
Proof. exists w_struct_offset. destruct (gap_refutes _ (proj1 struct_offset_gap)) as (Hp & Hi & Hs). now repeat split. Qed.
Print Assumptions accept_implies_valid_struct_offset_refuted.

Theorem accept_implies_valid_fixed_size_list_offset_refuted : exists a,
  tree_all phys a = true /\ impl_validate_full a = true /\ spec_valid a = false /\
  match p_ty a with TFixedList _ false _ => p_off a <> 0%nat | _ => False end.
Proof. exists w_fsl_offset. destruct (gap_refutes _ (proj1 fsl_offset_gap)) as (Hp & Hi & Hs). now repeat split. Qed.
Print Assumptions accept_implies_valid_fixed_size_list_offset_refuted.

Theorem accept_implies_valid_union_type_ids_refuted : exists a,
  tree_all phys a = true /\ impl_validate_full a = true /\ spec_valid a = false /\
  match p_ty a with TUnion _ _ => True | _ => False end.
Proof. exists w_union_ids. destruct (gap_refutes _ (proj1 union_ids_gap)) as (Hp & Hi & Hs). now repeat split. Qed.
Print Assumptions accept_implies_valid_union_type_ids_refuted.

(* the known-gap classifier names each witness (kinds 1, 2, 3 of Model/C09_Gaps.v), and every tree over the covered
   types is outside the classifier: a gap node is never a covered node *)
Theorem gap_nodes_are_not_covered : forall a k, gap_kind a = Some k -> k <> 0%Z -> covered a = false.
Proof. exact gap_not_covered. Qed.
Print Assumptions gap_nodes_are_not_covered.

(* what the F4 gap costs downstream (C01): on the accepted struct witness, value(1) addresses child slot 2 of a
   2-slot child — the slot does not exist (arrow-rs answers with a safe panic there, see known finding F4) *)
Theorem accepted_struct_offset_addresses_missing_child_slot :
  impl_validate_full w_struct_offset = true /\
  forallb (child_slots_in_bounds w_struct_offset) (child_slots w_struct_offset 1) = false.
Proof. exact (conj (proj1 (proj2 (gap_refutes _ (proj1 struct_offset_gap)))) struct_offset_child_slot_missing). Qed.
Print Assumptions accepted_struct_offset_addresses_missing_child_slot.
