(* C01 — property theorems only.  "Every array returned by a safe API is well formed ...
   consequently no sequence of safe calls on such results can read outside a buffer."
   The well-formedness predicate is [spec_valid] (Model/C09_Layout.v, written from the Arrow format
   specification); the harness applies its extraction to every array real kernels return.  The
   theorems below are the "consequently" clause: on a node the specification accepts, the byte
   ranges the unchecked typed accessors touch lie inside the buffers, and the child slots they
   dereference exist.  With [accept_implies_valid] (Props/C09.v) the same follows from acceptance by
   arrow-rs's own validators. *)
From Coq Require Import List Arith Bool ZArith.
From AV Require Import Model.C09_Layout Model.C09_Validate Model.C01_Access Proofs.C09_Accept Proofs.C01_Bounds.
Import ListNotations.

Theorem validity_bitmap_read_in_bounds : forall a i,
  spec_nulls a = true -> (i < p_len a)%nat -> null_read_in_bounds a i = true.
Proof. exact spec_nulls_read. Qed.
Print Assumptions validity_bitmap_read_in_bounds.

Theorem fixed_width_reads_in_bounds : forall a i,
  spec_node a = true -> (i < p_len a)%nat ->
  match p_ty a with TBool | TFixed _ | TFixedBin _ | TDict _ _ _ | TView _ => True | _ => False end ->
  forallb (read_in_bounds a) (own_reads a i) = true.
Proof. intros a i H Hi _. now apply own_reads_ok. Qed.
Print Assumptions fixed_width_reads_in_bounds.

Theorem binary_reads_in_bounds : forall large utf8 len off nulls bufs kids i,
  let a := PArr (TBin large utf8) len off nulls bufs kids in
  spec_node a = true -> (i < len)%nat -> forallb (read_in_bounds a) (own_reads a i) = true.
Proof. intros. now apply own_reads_ok. Qed.
Print Assumptions binary_reads_in_bounds.

Theorem list_reads_and_child_range_in_bounds : forall large nullable c len off nulls bufs kids i,
  let a := PArr (TList large nullable c) len off nulls bufs kids in
  spec_node a = true -> (i < len)%nat ->
  forallb (read_in_bounds a) (own_reads a i) = true /\ forallb (child_slots_in_bounds a) (child_slots a i) = true.
Proof. intros. split; [now apply own_reads_ok | now apply child_slots_ok]. Qed.
Print Assumptions list_reads_and_child_range_in_bounds.

Theorem dictionary_key_indexes_existing_value : forall kw ks v len off nulls bufs kids i,
  let a := PArr (TDict kw ks v) len off nulls bufs kids in
  spec_node a = true -> (i < len)%nat -> forallb (child_slots_in_bounds a) (child_slots a i) = true.
Proof. intros. now apply child_slots_ok. Qed.
Print Assumptions dictionary_key_indexes_existing_value.

Theorem fixed_size_list_child_range_in_bounds : forall n nullable c len off nulls bufs kids i,
  let a := PArr (TFixedList n nullable c) len off nulls bufs kids in
  spec_node a = true -> (i < len)%nat -> forallb (child_slots_in_bounds a) (child_slots a i) = true.
Proof. intros. now apply child_slots_ok. Qed.
Print Assumptions fixed_size_list_child_range_in_bounds.

(* ---- the remaining nested layouts *)
Theorem listview_reads_and_child_range_in_bounds : forall large nullable c len off nulls bufs kids i,
  let a := PArr (TListView large nullable c) len off nulls bufs kids in
  spec_node a = true -> (i < len)%nat ->
  forallb (read_in_bounds a) (own_reads a i) = true /\ forallb (child_slots_in_bounds a) (child_slots a i) = true.
Proof. intros. split; [now apply own_reads_ok | now apply child_slots_ok]. Qed.
Print Assumptions listview_reads_and_child_range_in_bounds.

Theorem struct_child_slots_in_bounds : forall fs len off nulls bufs kids i,
  let a := PArr (TStruct fs) len off nulls bufs kids in
  spec_node a = true -> (i < len)%nat -> forallb (child_slots_in_bounds a) (child_slots a i) = true.
Proof. intros. now apply child_slots_ok. Qed.
Print Assumptions struct_child_slots_in_bounds.

Theorem union_reads_and_child_slot_in_bounds : forall dense fs len off nulls bufs kids i,
  let a := PArr (TUnion dense fs) len off nulls bufs kids in
  spec_node a = true -> (i < len)%nat ->
  forallb (read_in_bounds a) (own_reads a i) = true /\ forallb (child_slots_in_bounds a) (child_slots a i) = true.
Proof. intros. split; [now apply own_reads_ok | now apply child_slots_ok]. Qed.
Print Assumptions union_reads_and_child_slot_in_bounds.

(* the physical index RunEndBuffer::get_physical_index finds (partition point x <= offset + i over all run ends)
   exists in the values child *)
Theorem run_end_physical_index_in_bounds : forall rw v len off nulls bufs kids i,
  let a := PArr (TRee rw v) len off nulls bufs kids in
  spec_node a = true -> (i < len)%nat -> forallb (child_slots_in_bounds a) (child_slots a i) = true.
Proof. intros. now apply child_slots_ok. Qed.
Print Assumptions run_end_physical_index_in_bounds.

(* ---- every data type at once *)
Theorem every_accessor_read_in_bounds : forall a i,
  spec_node a = true -> (i < p_len a)%nat -> forallb (read_in_bounds a) (own_reads a i) = true.
Proof. exact own_reads_ok. Qed.
Print Assumptions every_accessor_read_in_bounds.

Theorem every_dereferenced_child_slot_exists : forall a i,
  spec_node a = true -> (i < p_len a)%nat -> forallb (child_slots_in_bounds a) (child_slots a i) = true.
Proof. exact child_slots_ok. Qed.
Print Assumptions every_dereferenced_child_slot_exists.

(* ---- "no sequence of safe calls on such results can read outside a buffer": on a tree the specification
   accepts, every chain of value() calls of any depth that starts at an in-range slot arrives at an in-range slot
   of a valid node, where the validity-bitmap read, every accessor read and every child slot are again in
   bounds (induction over the chain, [reach] in Model/C01_Access.v) *)
Theorem accessor_chains_never_leave_buffers : forall a i b m,
  spec_valid a = true -> (i < p_len a)%nat -> reach a i b m ->
  (m < p_len b)%nat /\ null_read_in_bounds b m = true /\
  forallb (read_in_bounds b) (own_reads b m) = true /\ forallb (child_slots_in_bounds b) (child_slots b m) = true.
Proof. exact accessor_chain_ok. Qed.
Print Assumptions accessor_chains_never_leave_buffers.

(* the same from acceptance by the transcription of arrow-rs's own ArrayData::validate_full (Props/C09.v) *)
Theorem validated_accessor_chains_never_leave_buffers : forall a i b m,
  tree_all phys a = true -> tree_all covered a = true -> impl_validate_full a = true ->
  (i < p_len a)%nat -> reach a i b m ->
  (m < p_len b)%nat /\ null_read_in_bounds b m = true /\
  forallb (read_in_bounds b) (own_reads b m) = true /\ forallb (child_slots_in_bounds b) (child_slots b m) = true.
Proof. intros a i b m Hp%(tree_all_impl _ _ phys_addressable) Hc Hv. apply accessor_chain_ok. now apply accept_implies_valid_tree. Qed.
Print Assumptions validated_accessor_chains_never_leave_buffers.

(* non-vacuity: Struct<List<Int32>> at offset 1: slot 0 of the struct reaches, through the struct field and the
   list offsets [2,3), element 2 of the Int32 leaf *)
Example chain_nonvacuous :
  let leaf := PArr (TFixed 4) 3 0 None [[1;0;0;0; 2;0;0;0; 3;0;0;0]%N] [] in
  let lst := PArr (TList false true (TFixed 4)) 3 0 None [[0;0;0;0; 2;0;0;0; 3;0;0;0; 3;0;0;0]%N] [leaf] in
  let st := PArr (TStruct [(true, TList false true (TFixed 4))]) 2 1 None [] [lst] in
  spec_valid st = true /\ reach st 0 leaf 2.
Proof.
  split; [vm_compute; reflexivity|].
  eapply reach_step with (j := 0%nat) (s := 1%Z) (n := 1%Z) (k := 1%nat);
    [vm_compute; left; reflexivity | reflexivity | vm_compute; split; [discriminate | reflexivity] |].
  eapply reach_step with (j := 0%nat) (s := 2%Z) (n := 1%Z) (k := 2%nat);
    [vm_compute; left; reflexivity | reflexivity | vm_compute; split; [discriminate | reflexivity] |].
  apply reach_here.
Qed.
