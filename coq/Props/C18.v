(* C18 — Truncation and I/O faults are reported, never turned into wrong rows: a writer whose sink fails stops with an
   error and a prefix of its output; a reader given a cut file returns the whole frames in front of the cut, or rejects. *)
From Coq Require Import List Arith ZArith Bool.
From AV Require Import Model.C18_Fault Model.C18_Frame Model.C18_Avro Proofs.C18_Fault Proofs.C18_Frame Proofs.C18_Avro.
Import ListNotations.

(* ---------------------------------------------------------------- writers: sink faults
   A writer is the sequence of sink calls it performs with `?` propagation; a sink is a script of
   responses (one per call), arbitrary. *)

(* emitted_is_prefix + ok_implies_all_accepted, for EVERY script: whatever the sink does, the bytes
   it accepted are a prefix of the fault-free output, and the run reports success only if every byte
   was accepted. *)
Theorem emitted_is_prefix_and_ok_implies_all_accepted :
  forall (calls : list call) (script : list resp) (sticky : bool) (o : outcome) (out : list Z),
  run script sticky calls = (o, out) ->
  is_prefix out (bytes_of_calls calls) /\ (o = Done -> out = bytes_of_calls calls).
Proof. exact run_prefix. Qed.
Print Assumptions emitted_is_prefix_and_ok_implies_all_accepted.

(* fault_propagates: the first hard fault (an I/O error on a write or flush call, or Ok(0) on a
   write call) at call k, the calls before it accepted in full: the run ends in Err and the bytes
   emitted are exactly those of the first k calls, whatever the sink would answer afterwards. *)
Theorem fault_propagates :
  forall (calls : list call) (k : nat) (rest : list resp) (sticky : bool) (r : resp),
  k < length calls -> forallb nonempty_call calls = true ->
  (r = Fail \/ r = Zero /\ is_write (nth k calls Flush) = true) ->
  run (repeat AcceptAll k ++ r :: rest) sticky calls = (Failed, bytes_of_calls (firstn k calls)).
Proof.
  intros calls k rest sticky r Hk Hne Hr. apply hard_fault_at_k; [exact Hk|exact Hne|].
  destruct Hr as [->|[-> Hw]]; [exact I|exact Hw].
Qed.
Print Assumptions fault_propagates.

(* the same for a sink that is dead from call k on *)
Theorem fault_propagates_sticky :
  forall (calls : list call) (k : nat),
  k < length calls -> forallb nonempty_call calls = true ->
  run (repeat AcceptAll k) true calls = (Failed, bytes_of_calls (firstn k calls)).
Proof. intros calls k Hk Hne. rewrite <- (app_nil_r (repeat AcceptAll k)). now apply hard_fault_at_k. Qed.
Print Assumptions fault_propagates_sticky.

(* interrupted_retried (and short writes completed): a writer that only writes delivers every byte
   and reports success under ANY mix of short writes and Interrupted errors *)
Theorem interrupted_retried :
  forall (calls : list call) (script : list resp),
  forallb soft script = true -> forallb is_write calls = true ->
  run script false calls = (Done, bytes_of_calls calls).
Proof. exact soft_faults_absorbed. Qed.
Print Assumptions interrupted_retried.

(* ... and with flush calls present, for one Interrupted / short write at a write call k *)
Theorem interrupted_or_short_at_k :
  forall (calls : list call) (k : nat) (r : resp),
  k < length calls -> forallb nonempty_call calls = true -> is_write (nth k calls Flush) = true ->
  (r = Interrupted \/ exists n, r = Accept n) ->
  run (repeat AcceptAll k ++ [r]) false calls = (Done, bytes_of_calls calls).
Proof. exact soft_fault_at_k. Qed.
Print Assumptions interrupted_or_short_at_k.

(* ---------------------------------------------------------------- readers: truncation *)

(* ipc_stream_truncation: for every list of well-formed messages, with or without the end-of-stream
   marker, and every cut position k, the stream reader's framing loop returns exactly the first n
   messages (never one that was not written, never reordered), n being the number of frames that lie
   completely before k; a clean end is reported only within 3 bytes after a message boundary or on
   the complete stream, every other cut is an error; the complete stream yields everything.
   [body_len] (how the body length is read from the metadata) is arbitrary. *)
Theorem ipc_stream_truncation :
  forall (body_len : list Z -> option Z) (ms : list (list Z * list Z)) (with_eos : bool) (k : nat),
  Forall (wf_msg body_len) ms -> k <= length (encode ms with_eos) ->
  exists (n : nat) (t : tail),
    decode_all body_len (firstn k (encode ms with_eos)) = (firstn n ms, t) /\
    n <= length ms /\ length (encode (firstn n ms) false) <= k /\
    (t = End -> k < length (encode (firstn n ms) false) + 4 \/
                (n = length ms /\ with_eos = true /\ k = length (encode ms with_eos))) /\
    (k = length (encode ms with_eos) -> n = length ms /\ t = End).
Proof.
  intros body_len ms e k W Hk. destruct (stream_truncation body_len ms e k W Hk) as (n & t & H1 & H2 & H3 & _ & H4 & H5).
  exact (ex_intro _ n (ex_intro _ t (conj H1 (conj H2 (conj H3 (conj H4 H5)))))).
Qed.
Print Assumptions ipc_stream_truncation.

(* footer_truncation_rejected (conditional form, with the coincidence set explicit): a Parquet file
   cut at k passes the footer checks IF AND ONLY IF the original bytes in front of k already are a
   footer tail: a magic at k-4 and an in-range metadata length at k-8. *)
Theorem footer_truncation_rejected_parquet :
  forall (file : list Z) (k : nat), k <= length file ->
  pq_footer_ok (firstn k file) = true <->
  (8 <= k /\ (sub file (k - 4) 4 = par1 \/ sub file (k - 4) 4 = pare) /\
   (le (sub file (k - 8) 4) + 8 <= Z.of_nat k)%Z).
Proof. exact pq_footer_cut_iff. Qed.
Print Assumptions footer_truncation_rejected_parquet.

Theorem footer_truncation_rejected_ipc_file :
  forall (file : list Z) (k : nat), k <= length file ->
  ipc_footer_ok (firstn k file) = true <->
  (10 <= k /\ sub file (k - 6) 6 = arrow1 /\
   (0 <= signed 32 (le (sub file (k - 10) 4)))%Z /\
   (signed 32 (le (sub file (k - 10) 4)) + 10 <= Z.of_nat k)%Z).
Proof. exact ipc_footer_cut_iff. Qed.
Print Assumptions footer_truncation_rejected_ipc_file.

(* ... hence a file whose payload contains no magic in front of a cut point is rejected at EVERY
   proper truncation *)
Theorem footer_truncation_rejected_no_embedded_footer_parquet :
  forall (file : list Z),
  (forall k, k < length file -> sub file (k - 4) 4 <> par1 /\ sub file (k - 4) 4 <> pare) ->
  forall k, k < length file -> pq_footer_ok (firstn k file) = false.
Proof. exact pq_no_embedded_footer. Qed.
Print Assumptions footer_truncation_rejected_no_embedded_footer_parquet.

Theorem footer_truncation_rejected_no_embedded_footer_ipc_file :
  forall (file : list Z),
  (forall k, k < length file -> sub file (k - 6) 6 <> arrow1) ->
  forall k, k < length file -> ipc_footer_ok (firstn k file) = false.
Proof. exact ipc_no_embedded_footer. Qed.
Print Assumptions footer_truncation_rejected_no_embedded_footer_ipc_file.

(* avro_ocf_truncation: for every 16-byte sync marker, every sequence of blocks (row count, data) and
   every cut position k, the block reader returns exactly the blocks that lie completely before the
   cut and then a clean end: never an error, never rows of a partial block. *)
Theorem avro_ocf_truncation :
  forall (sync : list Z), length sync = 16 ->
  forall (bl : list (Z * list Z)) (k : nat),
  Forall wf_block bl -> k <= length (enc_blocks sync bl) ->
  exists n : nat,
    read_all_blocks sync (firstn k (enc_blocks sync bl)) = (firstn n bl, End) /\
    n <= length bl /\ length (enc_blocks sync (firstn n bl)) <= k /\
    (n = length bl \/ k < length (enc_blocks sync (firstn (S n) bl))) /\
    (k = length (enc_blocks sync bl) -> n = length bl).
Proof. exact blocks_truncation. Qed.
Print Assumptions avro_ocf_truncation.
