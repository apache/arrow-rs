(* C03 — property theorems only: each closed by [exact] and followed by Print Assumptions.
   [logical c] is the row-by-row reading of a physical column (values buffer + optional validity
   buffer, arbitrary payload under null slots); the right-hand sides are the naive definitions. *)
From Coq Require Import List Arith ZArith Bool.
From AV Require Import Model.C03_Select Model.C03_Coalesce.
From AV Require Import Proofs.C03_Filter Proofs.C03_Kernels Proofs.C03_Gc Proofs.C03_CoalesceP.
From AV Require Model.C19_Bits.
Import ListNotations.

(* The ranges produced by the slice iterator enumerate exactly the positions produced by the index
   iterator: the two families of iteration strategies visit the same rows in the same order. *)
Theorem slices_are_indices : forall f : list bool,
  flat_map (fun se : nat * nat => seq (fst se) (snd se - fst se)) (C19_Bits.runs f) = C19_Bits.positions f.
Proof. exact C19_Runs.runs_spans. Qed.
Print Assumptions slices_are_indices.

(* ... and the ranges are non-empty, increasing and separated by at least one unselected row *)
Theorem slices_are_maximal_runs : forall f : list bool, separated 0 (C19_Bits.runs f).
Proof. exact runs_are_separated. Qed.
Print Assumptions slices_are_maximal_runs.

(* filter, for every iteration strategy a FilterPredicate may carry (None only when nothing is
   selected, All only when everything is), every mask (nulls = not selected), every column. *)
Theorem filter_refines : forall (s : strategy) (c : pcol Z) (m : pcol bool),
  wf_col c -> wf_col m -> length (fst m) <= length (fst c) -> strategy_ok s (prep_mask m) ->
  logical (filter_with s 0%Z c m) = filter_spec (logical c) (logical_mask m).
Proof. exact (fun s c m => filter_array_spec 0%Z s c m). Qed.
Print Assumptions filter_refines.

(* the strategy FilterBuilder::new chooses (selectivity thresholds) is one of those *)
Theorem filter_default_refines : forall (c : pcol Z) (m : pcol bool),
  wf_col c -> wf_col m -> length (fst m) <= length (fst c) ->
  logical (filter_M 0%Z c m) = filter_spec (logical c) (logical_mask m).
Proof. exact (filter_M_spec 0%Z). Qed.
Print Assumptions filter_default_refines.

Theorem strategy_irrelevant : forall (s1 s2 : strategy) (c : pcol Z) (m : pcol bool),
  wf_col c -> wf_col m -> length (fst m) <= length (fst c) ->
  strategy_ok s1 (prep_mask m) -> strategy_ok s2 (prep_mask m) ->
  logical (filter_with s1 0%Z c m) = logical (filter_with s2 0%Z c m).
Proof. exact (filter_strategy_irrelevant 0%Z). Qed.
Print Assumptions strategy_irrelevant.

(* take (with or without check_bounds): null index -> null row, valid index out of range -> error *)
Theorem take_refines : forall (cb : bool) (c : pcol Z) (idx : pcol Z),
  wf_col c -> wf_col idx ->
  option_map logical (take_M 0%Z cb c idx) = take_spec (logical c) (logical_idx idx).
Proof. exact (take_M_spec 0%Z). Qed.
Print Assumptions take_refines.

(* whatever lies under a null index slot (even an out-of-range or negative payload) is never
   observable and never turns into an error *)
Theorem take_null_index_never_reads : forall (cb : bool) (c : pcol Z) (iv iv' : list Z) (n : list bool),
  wf_col c -> length iv = length n -> length iv' = length n ->
  map2 mk_row iv n = map2 mk_row iv' n ->
  option_map logical (take_M 0%Z cb c (iv, Some n)) = option_map logical (take_M 0%Z cb c (iv', Some n)).
Proof. exact (take_null_payload_irrelevant 0%Z). Qed.
Print Assumptions take_null_index_never_reads.

Theorem take_all_null_indices : forall (cb : bool) (c : pcol Z) (iv : list Z),
  wf_col c ->
  option_map logical (take_M 0%Z cb c (iv, Some (repeat false (length iv)))) = Some (repeat None (length iv)).
Proof. exact (take_all_null_ok 0%Z). Qed.
Print Assumptions take_all_null_indices.

Theorem concat_refines : forall cs : list (pcol Z),
  Forall wf_col cs -> logical (concat_M cs) = concat_spec (map logical cs).
Proof. exact concat_M_spec. Qed.
Print Assumptions concat_refines.

Theorem interleave_refines : forall (cs : list (pcol Z)) (ps : list (nat * nat)),
  Forall wf_col cs -> option_map logical (interleave_M cs ps) = interleave_spec (map logical cs) ps.
Proof. exact interleave_M_spec. Qed.
Print Assumptions interleave_refines.

(* zip_impl's run-by-run copying (gap from falsy, run from truthy, tail from falsy), arrays or scalars *)
Theorem zip_refines : forall (ts : bool) (t : list (option Z)) (fs : bool) (f : list (option Z)) (m : pcol bool),
  wf_col m ->
  (ts = false -> length (fst m) <= length t) -> (fs = false -> length (fst m) <= length f) ->
  zip_M m ts t fs f = zip_spec (logical_mask m) ts t fs f.
Proof. exact zip_M_spec. Qed.
Print Assumptions zip_refines.

(* merge: the same run-by-run copy, array operands consumed through running offsets; the operands only
   need as many rows as the mask selects from them (extra rows are ignored) *)
Theorem merge_refines : forall (ts : bool) (t : list (option Z)) (fs : bool) (f : list (option Z)) (m : pcol bool),
  wf_col m ->
  (ts = false -> count_true (prep_mask m) <= length t) ->
  (fs = false -> length (fst m) - count_true (prep_mask m) <= length f) ->
  merge_M m ts t fs f = merge_spec (logical_mask m) ts t fs f.
Proof. exact merge_M_spec. Qed.
Print Assumptions merge_refines.

(* validity' = validity & !(mask & mask_validity) *)
Theorem nullif_refines : forall (c : pcol Z) (m : pcol bool),
  wf_col c -> wf_col m -> length (fst m) = length (fst c) ->
  logical (nullif_M c m) = nullif_spec (logical c) (logical_mask m).
Proof. exact nullif_M_spec. Qed.
Print Assumptions nullif_refines.

Theorem shift_refines : forall (c : pcol Z) (off : Z),
  wf_col c -> (Z.of_nat (length (fst c)) < 2 ^ 63)%Z ->
  logical (shift_M 0%Z c off) = shift_spec (logical c) off.
Proof. exact (shift_M_spec 0%Z). Qed.
Print Assumptions shift_refines.

Theorem slice_refines : forall (c : pcol Z) (off len : nat),
  logical (slice_M c off len) = slice_spec (logical c) off len.
Proof. exact slice_M_spec. Qed.
Print Assumptions slice_refines.

(* dictionary garbage collection (occupancy mask, key remap by rank, values filtered by the mask)
   keeps every row, and keeps exactly as many values as are referenced by a valid key *)
Theorem gc_refines : forall (keys : pcol Z) (values : list Z),
  keys_in_range keys (length values) ->
  dict_logical (fst (gc_M keys values)) (snd (gc_M keys values)) = dict_logical keys values.
Proof. exact gc_M_spec. Qed.
Print Assumptions gc_refines.

Theorem gc_values_count : forall (keys : pcol Z) (values : list Z),
  length (snd (gc_M keys values)) = count_true (occupancy keys (length values)).
Proof. exact gc_M_values_count. Qed.
Print Assumptions gc_values_count.

(* ---- BatchCoalescer, for every history of pushes / filtered pushes / index pushes / finishes /
   next_completed_batch calls, every target size > 0, with or without the bypass limit ---- *)
Theorem coalesce_rows : forall (c : cfg) (ops : list (cop Z)),
  0 < target c -> Forall wf_op ops ->
  all_rows (crun c ops) = rows_out ops.
Proof. exact (fun c ops Ht Hw => proj1 (crun_spec c ops Ht Hw)). Qed.
Print Assumptions coalesce_rows.

Theorem coalesce_inv : forall (c : cfg) (ops : list (cop Z)),
  0 < target c -> Forall wf_op ops ->
  length (buf (crun c ops)) < target c.
Proof. exact (fun c ops Ht Hw => proj2 (crun_spec c ops Ht Hw)). Qed.
Print Assumptions coalesce_inv.

(* a filtered push is a push of the filtered rows, whichever copy path (materialise / sparse) is taken *)
Theorem coalesce_filter_path_irrelevant : forall (c : cfg) (s : cst Z) (r : list (option Z)) (m : pcol bool),
  wf_col m -> push_filter c s r m = push c s (selected_rows (PushFilter r m)).
Proof. exact push_filter_is_push. Qed.
Print Assumptions coalesce_filter_path_irrelevant.

(* without a bypass limit the state machine is the naive coalescer (append, cut off full batches) *)
Theorem coalesce_naive : forall (c : cfg) (ops : list (cop Z)),
  0 < target c -> limit c = None -> Forall wf_op ops ->
  crun c ops = srun (target c) ops.
Proof. exact crun_is_srun. Qed.
Print Assumptions coalesce_naive.

(* ... hence every batch is non-empty and at most target rows, and the batches shorter than the target
   are at most as many as the explicit finish calls *)
Theorem coalesce_sizes : forall (c : cfg) (ops : list (cop Z)),
  0 < target c -> limit c = None -> Forall wf_op ops ->
  Forall (fun b : list (option Z) => 0 < length b <= target c) (batches (crun c ops)) /\
  short_batches (target c) (batches (crun c ops)) <= length (filter is_finish ops).
Proof. exact crun_sized. Qed.
Print Assumptions coalesce_sizes.

(* non-vacuity: a concrete history that splits, flushes, filters and pops *)
Example coalesce_example :
  let c := {| target := 3; limit := None; nonspec := false |} in
  let ops := [Push [Some 1; None; Some 3; Some 4]%Z;
              PushFilter [Some 5; Some 6; Some 7]%Z ([true; false; true], Some [true; true; false]);
              Finish; Pop; Push [Some 8]%Z] in
  batches (crun c ops) = [[Some 1; None; Some 3]; [Some 4; Some 5]]%Z /\ buf (crun c ops) = [Some 8%Z].
Proof. vm_compute. split; reflexivity. Qed.
