(* C19 — property theorems only: each closed by [exact] and followed by Print Assumptions. *)
From Coq Require Import List Arith NArith ZArith.
From AV Require Import Base.Bytes Model.C19_Bits Proofs.C19_Chunks Proofs.C19_Masks Proofs.C19_LowBit Proofs.C19_IndexIter.
Import ListNotations.
Local Open Scope N_scope.

(* Chunk iteration: bit j of the n-th u64 yielded by BitChunks::iter is exactly bit 64n+j of the
   addressed range, for every buffer, bit offset and length the constructor accepts. *)
Theorem chunks_spec : forall (bs : list N) (off len n j : nat),
  wf_bytes bs -> ((off + len + 7) / 8 <= length bs)%nat -> (n < len / 64)%nat -> (j < 64)%nat ->
  N.testbit (nth n (bitchunks_iter (bitchunks_new bs off len)) 0) (N.of_nat j)
  = nth (64 * n + j)%nat (bits_range bs off len) false.
Proof. exact (fun bs off len n j Hwf _ => bitchunks_iter_spec bs off len n j Hwf). Qed.
Print Assumptions chunks_spec.

Theorem chunks_count : forall (bs : list N) (off len : nat),
  length (bitchunks_iter (bitchunks_new bs off len)) = (len / 64)%nat.
Proof. exact bitchunks_count. Qed.
Print Assumptions chunks_count.

(* UnalignedBitChunk, single-word case: prefix & masks keep exactly the addressed bits,
   everything outside [lead, lead+len) reads as zero. *)
Theorem unaligned_single_word_spec : forall x len lead i,
  i < 64 -> lead < 8 -> 0 < len -> len + lead <= 64 ->
  N.testbit (N.land (N.land x (fst (suffix_mask len lead))) (prefix_mask lead)) i
  = (N.testbit x i && (lead <=? i) && (i <? len + lead))%bool.
Proof. exact single_word_spec. Qed.
Print Assumptions unaligned_single_word_spec.

Theorem unaligned_trailing_padding : forall len lead,
  (snd (suffix_mask len lead) + len + lead) mod 64 = 0 /\ snd (suffix_mask len lead) < 64.
Proof. exact trailing_padding_gen. Qed.
Print Assumptions unaligned_trailing_padding.

(* BitIndexIterator step: w & (w-1) clears exactly the lowest set bit, which is the one reported. *)
Theorem index_iter_step_clears_lowest : forall m t i,
  let w := (2 * m + 1) * 2^t in
  N.testbit (N.land w (w - 1)) i = (N.testbit w i && negb (i =? t))%bool.
Proof. exact clear_lowest. Qed.
Print Assumptions index_iter_step_clears_lowest.

Theorem index_iter_step_reports_min : forall m t i,
  N.testbit ((2 * m + 1) * 2^t) i = true -> t <= i.
Proof. exact lowest_is_min. Qed.
Print Assumptions index_iter_step_reports_min.

(* BitIndexIterator, the whole loop: over ANY list of u64 words (prefix, chunks, suffix of an
   UnalignedBitChunk) starting at chunk offset c, the iterator yields c + p for exactly the
   positions p of the set bits of the concatenated words, in increasing order; the inner-loop
   fuel of 64 steps is proved sufficient. *)
Theorem index_iter_yields_set_positions : forall ws c, Forall (fun w => w < 2^64) ws ->
  index_iter_words ws c = map (fun i => (c + Z.of_nat i)%Z) (positions (words_bits ws)).
Proof. exact index_iter_words_spec. Qed.
Print Assumptions index_iter_yields_set_positions.

(* BitChunks::remainder_bits (the byte-by-byte loop): bit j of the remainder word is bit 64*(len/64)+j of
   the addressed range for j < len mod 64 and zero above — for every buffer, offset and length. *)
Theorem remainder_spec : forall (bs : list N) (off len j : nat),
  wf_bytes bs -> ((off + len + 7) / 8 <= length bs)%nat ->
  N.testbit (remainder_bits (bitchunks_new bs off len)) (N.of_nat j)
  = if (j <? len mod 64)%nat then nth (64 * (len / 64) + j)%nat (bits_range bs off len) false else false.
Proof. exact (fun bs off len j Hwf _ => remainder_bits_spec bs off len j Hwf). Qed.
Print Assumptions remainder_spec.

(* UnalignedBitChunk::new when the addressed bytes fit in one u64 (ranges of up to 64 - offset%8 bits): for every
   buffer, pointer alignment, offset and length the constructor yields exactly one word whose bits [lead, lead+len)
   are the addressed bits and whose other bits are zero, with lead = offset mod 8 and trailing padding 64-(len+lead).
   (The align_to case — more than 16 addressed bytes — is tied to the code by the correspondence suite
   c19.unaligned and by the list-of-bool specifications of every iterator built on it; no theorem yet.) *)
Theorem unaligned_single_word_case : forall (bs : list N) (align off len : nat),
  wf_bytes bs -> (0 < len)%nat ->
  let lead := (off mod 8)%nat in
  let bytes_len := ((len + lead + 7) / 8)%nat in
  (bytes_len <= 8)%nat -> (off / 8 + bytes_len <= length bs)%nat ->
  let u := ubc_new bs align off len in
  u_lead u = N.of_nat lead /\ u_trail u = 64 - N.of_nat (len + lead) /\ u_chunks u = [] /\ u_suffix u = None /\
  exists p, u_prefix u = Some p /\
    forall i, (i < 64)%nat ->
      N.testbit p (N.of_nat i) = ((lead <=? i)%nat && (i <? lead + len)%nat && bit_at bs (8 * (off / 8) + i))%bool.
Proof. exact (fun bs align off len Hwf Hlen Hb _ => unaligned_single_word bs align off len Hwf Hlen Hb). Qed.
Print Assumptions unaligned_single_word_case.

(* UnalignedBitChunk::new when the addressed bytes span 9..16 bytes: a prefix word masked below the lead padding and
   a suffix word masked above the range; every bit is the addressed buffer bit or zero. *)
Theorem unaligned_two_word_case : forall (bs : list N) (align off len : nat),
  wf_bytes bs ->
  let lead := (off mod 8)%nat in
  let bytes_len := ((len + lead + 7) / 8)%nat in
  (8 < bytes_len <= 16)%nat -> (off / 8 + bytes_len <= length bs)%nat ->
  let u := ubc_new bs align off len in
  u_lead u = N.of_nat lead /\ u_trail u = N.of_nat (128 - (len + lead)) /\ u_chunks u = [] /\
  exists p q, u_prefix u = Some p /\ u_suffix u = Some q /\
    forall i, (i < 64)%nat ->
      N.testbit p (N.of_nat i) = ((lead <=? i)%nat && bit_at bs (8 * (off / 8) + i))%bool /\
      N.testbit q (N.of_nat i) = ((64 + i <? lead + len)%nat && bit_at bs (8 * (off / 8) + 64 + i))%bool.
Proof. exact (fun bs align off len Hwf Hb _ => unaligned_two_words bs align off len Hwf Hb). Qed.
Print Assumptions unaligned_two_word_case.
