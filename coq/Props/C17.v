(* C17 — property theorems only: each closed by [exact] and followed by Print Assumptions. *)
From Coq Require Import List NArith ZArith Bool.
From AV Require Import Base.Utf8 Model.C17_Avro Model.C17_Json Model.C17_Csv.
From AV Require Import Proofs.C17_Varint Proofs.C17_Avro Proofs.C17_Json Proofs.C17_Csv.
Import ListNotations.
Local Open Scope N_scope.

(* Avro long: the bytes write_long emits (zig-zag, 7-bit groups) are read back by get_long - through the
   one-byte, the 10-byte-array or the slow path of read_varint, whichever applies - for every i64, with any
   bytes following. *)
Theorem avro_long_roundtrip : forall (v : Z) (rest : list N), (- 2^63 <= v < 2^63)%Z ->
  get_long (write_long v ++ rest) = Some (v, rest).
Proof. exact get_long_write. Qed.
Print Assumptions avro_long_roundtrip.

Theorem avro_int_roundtrip : forall (v : Z) (rest : list N), (- 2^31 <= v < 2^31)%Z ->
  get_int (write_long v ++ rest) = Some (v, rest).
Proof. exact get_int_write. Qed.
Print Assumptions avro_int_roundtrip.

Theorem avro_varint_roundtrip : forall (v : N) (rest : list N), v < 2^64 ->
  read_varint (write_vlq 10 v ++ rest) = Some (v, rest).
Proof. exact read_varint_write. Qed.
Print Assumptions avro_varint_roundtrip.

(* Avro datum codec: for every schema, every well-formed datum (what the writer accepts) and every block
   size bk (bk = 0 is the single block arrow-avro writes; other values split arrays and maps into several
   blocks), decoding the encoding gives the datum back and leaves the following bytes untouched. *)
Theorem avro_decode_encode : forall (bk : nat) (s : schema) (d : datum) (rest : list N), wf s d ->
  decode s (encode bk false s d ++ rest) = Some (d, rest).
Proof. exact decode_encode. Qed.
Print Assumptions avro_decode_encode.

(* the same for the second block form of the format, a negative count followed by the byte size of the block
   (which a reader may use to skip the block): the sizes written must fit an i64 *)
Theorem avro_decode_encode_sized : forall (bk : nat) (s : schema) (d : datum) (rest : list N), wf s d ->
  (Z.of_nat (length (encode bk true s d)) < 2^63)%Z ->
  decode s (encode bk true s d ++ rest) = Some (d, rest).
Proof. exact decode_encode_sized. Qed.
Print Assumptions avro_decode_encode_sized.

Theorem avro_decode_encode_writer : forall (s : schema) (d : datum), wf s d ->
  decode s (encode_w s d) = Some (d, []).
Proof. exact decode_encode_writer. Qed.
Print Assumptions avro_decode_encode_writer.

(* decimal logical type: minimal two's complement bytes / sign extension to the Arrow integer width *)
Theorem avro_decimal_bytes_roundtrip : forall (w : nat) (v : Z), (0 < w)%nat ->
  (- 2^(8 * Z.of_nat w - 1) <= v < 2^(8 * Z.of_nat w - 1))%Z ->
  sign_fit w (minimal_twos (be_bytes w v)) = Some (be_bytes w v) /\ from_be (be_bytes w v) = v.
Proof. exact decimal_bytes_roundtrip. Qed.
Print Assumptions avro_decimal_bytes_roundtrip.

Theorem avro_decimal_fixed_roundtrip : forall (w n : nat) (v : Z) (R : list N), (0 < w)%nat -> (0 < n)%nat ->
  (- 2^(8 * Z.of_nat w - 1) <= v < 2^(8 * Z.of_nat w - 1))%Z ->
  sign_fit n (be_bytes w v) = Some R ->
  length R = n /\ sign_fit w R = Some (be_bytes w v) /\ from_be (be_bytes w v) = v.
Proof. exact decimal_fixed_roundtrip. Qed.
Print Assumptions avro_decimal_fixed_roundtrip.

(* JSON strings: whatever byte string the writer escapes, the reader's unescape returns it, together with
   the text after the closing quote - for the combination function of tape.rs and for the RFC one alike
   (the writer never emits a surrogate pair). *)
Theorem json_unescape_escape : forall (s rest : list N),
  unescape_m (escape s ++ 34 :: rest) = Some (s, rest) /\ unescape_s (escape s ++ 34 :: rest) = Some (s, rest).
Proof. exact (fun s rest => conj (unescape_escape_any sp_combine s rest) (unescape_escape_any sp_spec s rest)). Qed.
Print Assumptions json_unescape_escape.

(* ... in particular for the UTF-8 encoding of every list of scalar values (controls, non-BMP included), where
   the final UTF-8 validation of the tape also succeeds *)
Theorem json_unescape_escape_codepoints : forall (cps : list N), Forall (fun c => scalar c = true) cps ->
  string_value sp_combine (escape (flat_map Utf8.encode cps) ++ [34]) = Some (flat_map Utf8.encode cps).
Proof. exact (string_value_escape sp_combine). Qed.
Print Assumptions json_unescape_escape_codepoints.

(* \uXXXX escapes, RFC 8259 section 7: every scalar value written as one escape or as a surrogate pair is
   decoded to its UTF-8 bytes by the reader automaton with the RFC combination (S) ... *)
Theorem json_u_escape_spec : forall (c : N) (tail acc : list N), scalar c = true ->
  unescape_go sp_spec (u_escape c ++ tail) acc = unescape_go sp_spec tail (rev (Utf8.encode c) ++ acc).
Proof. exact u_escape_spec. Qed.
Print Assumptions json_u_escape_spec.

(* ... and by the combination written in tape.rs (M), for every scalar value: M = S *)
Theorem json_u_escape_impl : forall (c : N) (tail acc : list N), scalar c = true ->
  unescape_go sp_combine (u_escape c ++ tail) acc = unescape_go sp_combine tail (rev (Utf8.encode c) ++ acc).
Proof. exact u_escape_impl. Qed.
Print Assumptions json_u_escape_impl.

Theorem json_surrogate_combine_spec : forall (high low : N), sp_combine high low = sp_spec high low.
Proof. exact sp_combine_ok. Qed.
Print Assumptions json_surrogate_combine_spec.

(* CSV (rc d q e dbl / wc d q e crlf dbl are the reader / writer configurations of Proofs/C17_Csv.v: dbl = true
   is quote doubling read by the default reader, dbl = false escape-style quoting read with escape e):
   for every delimiter d and quote q (distinct, neither CR nor LF), LF or CRLF terminators, and every
   list of non-empty records of arbitrary fields (delimiters, quotes, CR, LF inside), the csv-core reader
   automaton splits the text the writer produced back into exactly those records and fields. *)
Theorem csv_split_quote : forall (d q e : N) (crlf : bool), d <> q -> d <> 10 -> d <> 13 -> q <> 10 -> q <> 13 ->
  forall rows : list (list (list N)), Forall (fun r => r <> []) rows ->
  split (rc d q e true) (write_rows (wc d q e crlf true) rows) = rows.
Proof. exact split_write_rows. Qed.
Print Assumptions csv_split_quote.

(* the same for escape-style quoting (double_quote = false) read with the same escape byte e, provided no
   field contains e: csv-core writes e unescaped inside a quoted field, so such a field cannot round-trip *)
Theorem csv_split_quote_escaped : forall (d q e : N) (crlf : bool), d <> q -> d <> 10 -> d <> 13 -> q <> 10 -> q <> 13 -> e <> q ->
  forall rows : list (list (list N)), Forall (fun r => r <> []) rows ->
  Forall (Forall (Forall (fun b => b <> e))) rows ->
  split (rc d q e false) (write_rows (wc d q e crlf false) rows) = rows.
Proof. exact split_write_rows_escaped. Qed.
Print Assumptions csv_split_quote_escaped.
