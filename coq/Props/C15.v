(* C15 — property theorems only: each closed by [exact] and followed by Print Assumptions. *)
From Coq Require Import List NArith Bool.
From AV Require Import Model.C15_PushBuf Model.C15_Machine Model.C15_Plan Proofs.C15_PushBuf Proofs.C15_Machine Proofs.C15_Drive Proofs.C15_Async Proofs.C15_Plan.
Import ListNotations.
Local Open Scope N_scope.

(* ------------------------------------------------------------------ PushBuffers *)

(* pushbuf_reads_file: whatever was pushed — in any order, with duplicates, supersets, early or
   unrelated ranges — as long as every pushed buffer carries the file's bytes of its range, a
   successful get_bytes returns exactly the file's bytes [start, start+len). *)
Theorem pushbuf_reads_file : forall (file : list N) (pb : pushbuf) (start len : N) (x : list N),
  Forall (consistent file) (pb_entries pb) -> get_bytes pb start len = Some x -> x = fslice file start len.
Proof. exact get_bytes_reads_file. Qed.
Print Assumptions pushbuf_reads_file.

(* the same for the std::io::Read view (get_read + read): bytes at the virtual offset, offset advances *)
Theorem pushbuf_read_reads_file : forall (file : list N) (pb : pushbuf) (n : N) (x : list N) (pb' : pushbuf),
  Forall (consistent file) (pb_entries pb) -> read pb n = (Some x, pb') ->
  x = fslice file (pb_offset pb) n /\ pb_offset pb' = pb_offset pb + n /\ pb_entries pb' = pb_entries pb.
Proof. exact read_reads_file. Qed.
Print Assumptions pushbuf_read_reads_file.

(* has_range is sufficient: what has_range promises, get_bytes delivers (DataRequest::get_chunks
   cannot hit its "Internal Error missing data" branch). *)
Theorem has_range_get_bytes_succeeds : forall (pb : pushbuf) (s e : N),
  s <= e -> has_range pb (s, e) = true -> exists x, get_bytes pb s (e - s) = Some x.
Proof. exact has_range_get_bytes. Qed.
Print Assumptions has_range_get_bytes_succeeds.

(* M = S: on file-consistent contents get_bytes is: the file's bytes iff ONE pushed range contains
   the request (the non-coalescing rule), independent of anything else. *)
Theorem pushbuf_get_bytes_is_spec : forall (file : list N) (pb : pushbuf) (s l : N),
  Forall (consistent file) (pb_entries pb) ->
  get_bytes pb s l = get_bytes_spec file (map (fun e => (e_st e, e_en e)) (pb_entries pb)) s l.
Proof. exact get_bytes_is_spec. Qed.
Print Assumptions pushbuf_get_bytes_is_spec.

(* independence of push order / duplicates: only the SET of entries matters *)
Theorem pushbuf_order_independent : forall (file : list N) (pb pb' : pushbuf) (s l : N),
  Forall (consistent file) (pb_entries pb) -> Forall (consistent file) (pb_entries pb') ->
  (forall e, In e (pb_entries pb) <-> In e (pb_entries pb')) ->
  get_bytes pb s l = get_bytes pb' s l.
Proof. exact get_bytes_order_independent. Qed.
Print Assumptions pushbuf_order_independent.

(* supplying more (later duplicates, supersets, unrelated ranges) never changes an answer *)
Theorem pushbuf_monotone : forall (pb : pushbuf) (extra : list entry) (s l : N) (x : list N),
  get_bytes pb s l = Some x -> get_bytes (pb_with_entries pb (pb_entries pb ++ extra)) s l = Some x.
Proof. exact get_bytes_monotone. Qed.
Print Assumptions pushbuf_monotone.

(* a superset delivery satisfies the request *)
Theorem pushbuf_superset_satisfies : forall (pb : pushbuf) (st en : N) (data : list N) (s e : N),
  st <= s -> e <= en ->
  has_range (pb_with_entries pb (pb_entries pb ++ [{| e_st := st; e_en := en; e_data := data |}])) (s, e) = true.
Proof. exact superset_satisfies. Qed.
Print Assumptions pushbuf_superset_satisfies.

(* ------------------------------------------------------------------ the decoder protocol
   For every planner (strategy trees [plan], frontier [fr_step], budget update [upd]) whose
   requests along the sync execution are well-formed ranges within the file: *)

(* schedule_independence: under EVERY schedule of pushes (any ranges of the file, any order, any
   number of calls, duplicates, supersets, early/unrelated ranges up to the whole file),
   try_decode / try_next_reader calls, clear_all_ranges calls and rebuilds at row-group boundaries,
   the rows handed out so far followed by what the sync reader would still read from the decoder's
   state are exactly the sync reader's rows; once Finished is returned the rows handed out ARE the
   sync reader's rows; and the decoder never hits an internal error. *)
Theorem schedule_independence :
  forall (Rw B U R : Type) (fr_step : nat -> B -> fstep B R) (plan : R -> phase Rw U) (upd : B -> U -> B) (file : list N),
  (forall r, phase_ok Rw U file (in_file_range file) (plan r)) ->
  forall (q : list nat) (b : B) (sched : list action),
  Forall (valid_action file) sched ->
  let '(m', evs) := run Rw B U R fr_step plan upd file (init Rw B U q b) sched in
  rows_of Rw evs ++ concat (rest Rw B U R fr_step plan upd file m') = sync_rows Rw B U R fr_step plan upd file q b
  /\ (In EFinished evs -> rows_of Rw evs = sync_rows Rw B U R fr_step plan upd file q b)
  /\ ~ In EError evs.
Proof. exact C15_Machine.schedule_independence. Qed.
Print Assumptions schedule_independence.

(* requests_in_file: every NeedsData of every run is non-empty and asks only for ranges within the file *)
Theorem requests_in_file :
  forall (Rw B U R : Type) (fr_step : nat -> B -> fstep B R) (plan : R -> phase Rw U) (upd : B -> U -> B) (file : list N),
  (forall r, phase_ok Rw U file (in_file_range file) (plan r)) ->
  forall (q : list nat) (b : B) (sched : list action) (rs : list range),
  Forall (valid_action file) sched ->
  In (ENeed rs) (snd (run Rw B U R fr_step plan upd file (init Rw B U q b) sched)) ->
  rs <> [] /\ Forall (in_file_range file) rs.
Proof. exact C15_Machine.requests_in_file. Qed.
Print Assumptions requests_in_file.

(* a NeedsData never asks for a range the buffer already holds *)
Theorem need_not_buffered :
  forall (Rw B U R : Type) (fr_step : nat -> B -> fstep B R) (plan : R -> phase Rw U) (upd : B -> U -> B) (file : list N),
  (forall r, phase_ok Rw U file (in_file_range file) (plan r)) ->
  forall (m m' : mach Rw B U) (rs : list range),
  inv Rw B U file m -> try_decode Rw B U R fr_step plan upd m = (m', RNeed rs) ->
  rs <> [] /\ Forall (fun r => has_range (m_buf Rw B U m') r = false) rs.
Proof. exact C15_Machine.need_not_buffered. Qed.
Print Assumptions need_not_buffered.

(* progress, partial supply: while part of the request is missing the decoder stays where it is and
   asks for exactly the missing ranges (so never again for a supplied one) *)
Theorem progress_partial_supply :
  forall (Rw B U R : Type) (fr_step : nat -> B -> fstep B R) (plan : R -> phase Rw U) (upd : B -> U -> B) (file : list N)
         (m : mach Rw B U) (req : list range) (k : list (list N) -> phase Rw U),
  inv Rw B U file m -> waiting Rw B U m req k -> needed_ranges (m_buf Rw B U m) req <> [] ->
  try_decode Rw B U R fr_step plan upd m = (m, RNeed (needed_ranges (m_buf Rw B U m) req)).
Proof. exact (fun Rw B U R fr_step plan upd file m req k _ => C15_Machine.progress_partial_supply Rw B U R fr_step plan upd m req k). Qed.
Print Assumptions progress_partial_supply.

(* progress, full supply: once every requested range is contained in one buffered range, the next
   try_decode yields a batch, finishes, or asks for the ranges of a strictly LATER phase (a
   continuation of the current one, or a later row group) — never the same NeedsData again. *)
Theorem progress_full_supply :
  forall (Rw B U R : Type) (fr_step : nat -> B -> fstep B R) (plan : R -> phase Rw U) (upd : B -> U -> B) (file : list N),
  (forall r, phase_ok Rw U file (in_file_range file) (plan r)) ->
  forall (m : mach Rw B U) (req : list range) (k : list (list N) -> phase Rw U) (m' : mach Rw B U) (res : dres Rw),
  inv Rw B U file m -> waiting Rw B U m req k ->
  needed_ranges (m_buf Rw B U m) req = [] -> try_decode Rw B U R fr_step plan upd m = (m', res) ->
  match res with
  | RNeed rs =>
      exists req' k', m_rg Rw B U m' = RGWait req' k' /\ rs = needed_ranges (m_buf Rw B U m') req' /\
        ((length (m_queue Rw B U m') < length (m_queue Rw B U m))%nat \/
         (m_queue Rw B U m' = m_queue Rw B U m /\ reach Rw U file (k (file_chunks file req)) (PNeed req' k')))
  | RData _ | RFinished => True
  | RReader _ | RError => False
  end.
Proof. exact C15_Machine.progress_full_supply. Qed.
Print Assumptions progress_full_supply.

(* the "later phase" order is well founded *)
Theorem later_phase_well_founded :
  forall (Rw U : Type) (file : list N), well_founded (sub_phase Rw U file).
Proof. exact C15_Machine.sub_phase_wf. Qed.
Print Assumptions later_phase_well_founded.

(* progress, end to end (liveness for every responsive schedule): a driver that answers the i-th
   NeedsData(rs) with ANY supply [sup i rs] of ranges within the file in which each requested range
   is contained in one supplied range — exact, supersets up to the whole file, duplicates, any
   order, additional unrelated ranges — reaches Finished within an explicit number of calls and has
   then produced exactly the sync reader's rows. *)
Theorem responsive_supply_completes :
  forall (Rw B U R : Type) (fr_step : nat -> B -> fstep B R) (plan : R -> phase Rw U) (upd : B -> U -> B) (file : list N),
  (forall r, phase_ok Rw U file (in_file_range file) (plan r)) ->
  forall (sup : nat -> list range -> list range) (q : list nat) (b : B) (fuel : nat),
  (forall i rs, Forall (in_file_range file) rs -> covering file (sup i rs) rs) ->
  (potential Rw B U R fr_step plan upd file (init Rw B U q b) < fuel)%nat ->
  drive_with Rw B U R fr_step plan upd file sup fuel O (init Rw B U q b)
  = (sync_rows Rw B U R fr_step plan upd file q b, true).
Proof. exact C15_Drive.responsive_supply_completes. Qed.
Print Assumptions responsive_supply_completes.

(* fair_supply_completes (schedule independence for every FAIR schedule, including partial supply):
   it is enough that each response delivers ranges of the file covering AT LEAST ONE of the requested
   ranges — one range per call, half of them, exact, supersets, duplicates, any order, additional
   ranges — for the decoder to reach Finished, within an explicit number of calls, with exactly the
   sync reader's rows. *)
Theorem fair_supply_completes :
  forall (Rw B U R : Type) (fr_step : nat -> B -> fstep B R) (plan : R -> phase Rw U) (upd : B -> U -> B) (file : list N),
  (forall r, phase_ok Rw U file (in_file_range file) (plan r)) ->
  forall (sup : nat -> list range -> list range) (q : list nat) (b : B) (fuel : nat),
  (forall i rs, rs <> [] -> Forall (in_file_range file) rs -> progressing file (sup i rs) rs) ->
  (potential Rw B U R fr_step plan upd file (init Rw B U q b)
   + ranges_left Rw B U R fr_step plan upd file (init Rw B U q b) < fuel)%nat ->
  drive_with Rw B U R fr_step plan upd file sup fuel O (init Rw B U q b)
  = (sync_rows Rw B U R fr_step plan upd file q b, true).
Proof. exact C15_Drive.fair_supply_completes. Qed.
Print Assumptions fair_supply_completes.

(* the canonical instance: supplying exactly the requested ranges *)
Theorem exact_supply_completes :
  forall (Rw B U R : Type) (fr_step : nat -> B -> fstep B R) (plan : R -> phase Rw U) (upd : B -> U -> B) (file : list N),
  (forall r, phase_ok Rw U file (in_file_range file) (plan r)) ->
  forall (q : list nat) (b : B) (fuel : nat),
  (potential Rw B U R fr_step plan upd file (init Rw B U q b) < fuel)%nat ->
  drive Rw B U R fr_step plan upd file fuel (init Rw B U q b) = (sync_rows Rw B U R fr_step plan upd file q b, true).
Proof. exact C15_Drive.exact_supply_completes. Qed.
Print Assumptions exact_supply_completes.

(* async stream: ParquetRecordBatchStream modelled as the RequestState machine (None / Outstanding /
   Done) around the same push decoder, polled by an executor; [delays] says how many times the
   future of the i-th fetch returns Pending.  For EVERY pending pattern the stream ends, within an
   explicit number of polls, having yielded exactly the sync reader's rows. *)
Theorem async_stream_reads_sync_rows :
  forall (Rw B U R : Type) (fr_step : nat -> B -> fstep B R) (plan : R -> phase Rw U) (upd : B -> U -> B) (file : list N),
  (forall r, phase_ok Rw U file (in_file_range file) (plan r)) ->
  forall (q : list nat) (b : B) (delays : list nat) (fuel : nat),
  (3 * potential Rw B U R fr_step plan upd file (init Rw B U q b) + list_sum delays + 2 < fuel)%nat ->
  stream_collect Rw B U R fr_step plan upd file fuel delays {| s_req := QNone; s_dec := init Rw B U q b |}
  = (sync_rows Rw B U R fr_step plan upd file q b, true).
Proof. exact C15_Async.async_stream_reads_sync_rows. Qed.
Print Assumptions async_stream_reads_sync_rows.

(* rebuild_at_boundary: at a row-group boundary into_builder().build() gives back the same decoder
   state (remaining row groups, remaining budget/selection, buffered bytes) *)
Theorem rebuild_at_boundary :
  forall (Rw B U : Type) (m : mach Rw B U) (bd : builder B),
  into_builder Rw B U m = Some bd -> build Rw B U bd = m.
Proof. exact C15_Machine.rebuild_at_boundary. Qed.
Print Assumptions rebuild_at_boundary.

(* ------------------------------------------------------------------ the replayed instance
   The planner the correspondence run replays against the real decoder (whole column chunks from the
   file metadata, predicate chain, projection, offset/limit budget: Model/C15_Plan.v) satisfies the
   hypothesis above as soon as the chunk ranges read from the metadata lie within the file, so the
   theorems apply to the very machine whose requests, row counts and buffered bytes are compared
   with the real ParquetPushDecoder's. *)
Theorem concrete_planner_in_file : forall (fp : fileplan) (file : list N),
  (forall g c, In c (nth g (fp_chunks fp) []) -> in_file_range file c) ->
  forall r, phase_ok unit budget file (in_file_range file) (c_plan fp r).
Proof. exact c_plan_in_file. Qed.
Print Assumptions concrete_planner_in_file.

Theorem concrete_schedule_independence : forall (fp : fileplan) (file : list N),
  (forall g c, In c (nth g (fp_chunks fp) []) -> in_file_range file c) ->
  forall (b : budget) (sched : list action),
  Forall (valid_action file) sched ->
  let '(m', evs) := run unit budget budget (nat * budget) (c_fr_step fp) (c_plan fp) c_upd file (c_init fp b) sched in
  (In EFinished evs -> rows_of unit evs = sync_rows unit budget budget (nat * budget) (c_fr_step fp) (c_plan fp) c_upd file (seq 0 (length (fp_rows fp))) b)
  /\ ~ In EError evs.
Proof. exact c_schedule_independence. Qed.
Print Assumptions concrete_schedule_independence.
