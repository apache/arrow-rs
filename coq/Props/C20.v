(* C20 — theorems (statements in full; proofs in Proofs/C20_*.v).
   Strings are lists of Unicode scalar values (N); `utf8` is their RFC 3629 encoding (Base/Utf8.v).
   S: like_spec / ilike_ascii_spec / starts_with_spec / ends_with_spec / contains_spec / substring_spec /
      substring_by_char_spec / length_spec / bit_length_spec / concat (Model/C20_Like.v, C20_Substr.v).
   M: the byte-level algorithms of arrow-string (same files), tied to the code by the correspondence run. *)
From Coq Require Import List NArith ZArith Bool.
From AV Require Import Base.Utf8 Model.C20_Like Model.C20_Substr.
From AV Require Import Proofs.C20_Utf8 Proofs.C20_Like Proofs.C20_Classify Proofs.C20_Layout Proofs.C20_Substr Proofs.C20_ByChar.
Import ListNotations.

(* ---- LIKE: every strategy Predicate::like selects (Eq, StartsWith, EndsWith, Contains, Regex)
        computes the reference matcher, for every pattern and every haystack *)
Theorem like_classify_sound : forall p h : list N,
  Forall (fun c => scalar c = true) p -> Forall (fun c => scalar c = true) h ->
  like_m (utf8 p) (utf8 h) = like_spec p h.
Proof. exact C20_Classify.like_classify_sound. Qed.
Print Assumptions like_classify_sound.

Theorem nlike_is_negation : forall p h : list N,
  Forall (fun c => scalar c = true) p -> Forall (fun c => scalar c = true) h ->
  nlike_m (utf8 p) (utf8 h) = negb (like_spec p h).
Proof. exact C20_Classify.nlike_is_negation. Qed.
Print Assumptions nlike_is_negation.

(* the scalar-pattern path (Predicate::evaluate_array: Eq length pre-check, StringViewArray
   prefix/suffix iterators, negation flag) *)
Theorem like_scalar_sound : forall (view neg : bool) (p h : list N),
  Forall (fun c => scalar c = true) p -> Forall (fun c => scalar c = true) h ->
  like_scalar_m view neg (utf8 p) (utf8 h) = xorb (like_spec p h) neg.
Proof. exact C20_Classify.like_scalar_sound. Qed.
Print Assumptions like_scalar_sound.

(* regex_like: the translated regex (leading-% and trailing-.* elision, escapes, trailing backslash),
   under the reference semantics of the fragment, is the matcher; for any character equality *)
Theorem regex_like_sound : forall (eqc : N -> N -> bool) (p s : list N),
  rx_is_match eqc (regex_like p) s = like_gen eqc p s.
Proof. exact C20_Like.regex_like_sound. Qed.
Print Assumptions regex_like_sound.

(* the per-row flag semantics used as the spec of regexp_is_match with a flags array (s, m, i on ASCII)
   restricts, for flags "s", to the reference semantics above *)
Theorem rx_flags_s_is_reference : forall (eqc : N -> N -> bool) (r : rx) (s : list N),
  rx_is_match_f eqc true false r s = rx_is_match eqc r s.
Proof. exact C20_Like.rx_flags_s_is_reference. Qed.
Print Assumptions rx_flags_s_is_reference.

(* ---- UTF-8 self-synchronisation: byte-level occurrence <-> code-point occurrence *)
Theorem utf8_substring_lemma : forall n h : list N,
  Forall (fun c => scalar c = true) n -> Forall (fun c => scalar c = true) h ->
  ((exists l r, utf8 h = l ++ utf8 n ++ r) <-> (exists h1 h2, h = h1 ++ n ++ h2)).
Proof. exact C20_Utf8.utf8_substring_lemma. Qed.
Print Assumptions utf8_substring_lemma.

Theorem utf8_prefix_lemma : forall n h : list N,
  Forall (fun c => scalar c = true) n -> Forall (fun c => scalar c = true) h ->
  ((exists r, utf8 h = utf8 n ++ r) <-> (exists h2, h = n ++ h2)).
Proof. exact C20_Utf8.utf8_prefix_lemma. Qed.
Print Assumptions utf8_prefix_lemma.

Theorem utf8_suffix_lemma : forall n h : list N,
  Forall (fun c => scalar c = true) n -> Forall (fun c => scalar c = true) h ->
  ((exists l, utf8 h = l ++ utf8 n) <-> (exists h1, h = h1 ++ n)).
Proof. exact C20_Utf8.utf8_suffix_lemma. Qed.
Print Assumptions utf8_suffix_lemma.

(* ---- starts_with / ends_with / contains kernels (byte level, incl. the StringView fast paths) *)
Theorem starts_with_sound : forall (view : bool) (h n : list N),
  Forall (fun c => scalar c = true) h -> Forall (fun c => scalar c = true) n ->
  starts_with_m view (utf8 h) (utf8 n) = starts_with_spec h n.
Proof. exact C20_Classify.starts_with_sound. Qed.
Print Assumptions starts_with_sound.

Theorem ends_with_sound : forall (view : bool) (h n : list N),
  Forall (fun c => scalar c = true) h -> Forall (fun c => scalar c = true) n ->
  ends_with_m view (utf8 h) (utf8 n) = ends_with_spec h n.
Proof. exact C20_Classify.ends_with_sound. Qed.
Print Assumptions ends_with_sound.

Theorem contains_sound : forall h n : list N,
  Forall (fun c => scalar c = true) h -> Forall (fun c => scalar c = true) n ->
  contains_m (utf8 h) (utf8 n) = contains_spec h n.
Proof. exact C20_Classify.contains_sound. Qed.
Print Assumptions contains_sound.

(* ---- ILIKE on ASCII text: the ASCII fast paths (IEqAscii, IStartsWithAscii, IEndsWithAscii) and the
        case-insensitive regex give LIKE under ASCII case folding, whichever path `is_ascii` selects *)
Theorem ilike_ascii_paths_sound : forall (haystacks_ascii : bool) (p h : list N),
  is_ascii p = true -> is_ascii h = true ->
  ilike_m haystacks_ascii (utf8 p) (utf8 h) = ilike_ascii_spec p h.
Proof. exact C20_Classify.ilike_ascii_paths_sound. Qed.
Print Assumptions ilike_ascii_paths_sound.

Theorem ilike_scalar_sound : forall (view neg haystacks_ascii : bool) (p h : list N),
  is_ascii p = true -> is_ascii h = true ->
  ilike_scalar_m view neg haystacks_ascii (utf8 p) (utf8 h) = xorb (ilike_ascii_spec p h) neg.
Proof. exact C20_Classify.ilike_scalar_sound. Qed.
Print Assumptions ilike_scalar_sound.

(* ---- substring (Utf8 / LargeUtf8: byte_substring over an offsets buffer and a values buffer with
        arbitrary valid data before and after; `bits` = width of the offset type) *)
Theorem substring_spec_thm : forall (bits start : Z) (len : option Z), (1 <= bits)%Z ->
  (- 2 ^ (bits - 1) <= start < 2 ^ (bits - 1))%Z ->
  (match len with Some n => 0 <= n < 2 ^ (bits - 1) | None => True end)%Z ->
  forall (vals : list (list N)) (pre post : list N),
  Forall (fun v => Forall (fun c => scalar c = true) v) vals ->
  Forall (fun c => scalar c = true) pre -> Forall (fun c => scalar c = true) post ->
  byte_substring_m bits (layout_offsets (utf8 pre) (map utf8 vals))
                   (layout_data (utf8 pre) (map utf8 vals) (utf8 post)) start len
  = mapM (fun v => option_map utf8 (substring_spec v start len)) vals.
Proof. exact (fun bits start len Hb Hs Hl vals pre post _ _ _ => C20_Substr.substring_spec_thm bits start len Hb Hs Hl vals pre post). Qed.
Print Assumptions substring_spec_thm.

Theorem substring_valid_utf8_or_err : forall (bits start : Z) (len : option Z), (1 <= bits)%Z ->
  (- 2 ^ (bits - 1) <= start < 2 ^ (bits - 1))%Z ->
  (match len with Some n => 0 <= n < 2 ^ (bits - 1) | None => True end)%Z ->
  forall (vals : list (list N)) (pre post : list N) (out : list (list N)),
  Forall (fun v => Forall (fun c => scalar c = true) v) vals ->
  Forall (fun c => scalar c = true) pre -> Forall (fun c => scalar c = true) post ->
  byte_substring_m bits (layout_offsets (utf8 pre) (map utf8 vals))
                   (layout_data (utf8 pre) (map utf8 vals) (utf8 post)) start len = Some out ->
  Forall (fun o => valid_utf8 o = true) out.
Proof. exact C20_Substr.substring_valid_utf8_or_err. Qed.
Print Assumptions substring_valid_utf8_or_err.

(* Utf8View: string_view_substring on one value *)
Theorem substring_view_spec : forall (v : list N) (start : Z) (len : option Z),
  Forall (fun c => scalar c = true) v -> (match len with Some n => 0 <= n | None => True end)%Z ->
  view_substring_elem (utf8 v) start len = option_map utf8 (substring_spec v start len).
Proof. exact (fun v start len _ => C20_Substr.view_substring_elem_spec v start len). Qed.
Print Assumptions substring_view_spec.

(* outside the range of the offset type the `as i32` casts change the result: the precondition of
   substring_spec is necessary (start = 2^32 on Utf8 returns the whole string) *)
Theorem substring_i32_cast_refuted :
  exists (v : list N) (start : Z),
    byte_substring_m 32 (layout_offsets [] [utf8 v]) (layout_data [] [utf8 v] []) start None
    <> mapM (fun v => option_map utf8 (substring_spec v start None)) [v].
Proof. exact C20_Substr.substring_i32_cast_refuted. Qed.
Print Assumptions substring_i32_cast_refuted.

(* ---- substring_by_char (ascii_bounds when the whole array is ASCII, utf8_bounds otherwise) *)
Theorem substring_by_char_spec_thm : forall (s : list N) (start : Z) (len : option Z),
  (match len with Some k => 0 <= k | None => True end)%Z ->
  forall all_ascii : bool, (all_ascii = true -> is_ascii s = true) ->
  substring_by_char_m all_ascii (utf8 s) start len = utf8 (substring_by_char_spec s start len).
Proof. exact C20_ByChar.substring_by_char_spec_thm. Qed.
Print Assumptions substring_by_char_spec_thm.

(* ---- length / bit_length over an offsets buffer *)
Theorem length_spec_thm : forall (bits : Z) (ss : list (list N)) (pre : list N), (1 <= bits)%Z ->
  Forall (fun s => (Z.of_nat (blen s) < 2 ^ (bits - 1))%Z) ss ->
  length_m bits (layout_offsets pre (map utf8 ss)) = map length_spec ss.
Proof. exact C20_Layout.length_spec_thm. Qed.
Print Assumptions length_spec_thm.

Theorem bit_length_spec_thm : forall (bits : Z) (ss : list (list N)) (pre : list N), (1 <= bits)%Z ->
  Forall (fun s => (8 * Z.of_nat (blen s) < 2 ^ (bits - 1))%Z) ss ->
  bit_length_m bits (layout_offsets pre (map utf8 ss)) = map bit_length_spec ss.
Proof. exact C20_Layout.bit_length_spec_thm. Qed.
Print Assumptions bit_length_spec_thm.

(* ---- concat_elements: the offsets/values the loop builds denote the row-wise concatenations *)
Theorem concat_elements_spec : forall (ls rs : list (list N)) (lpre lpost rpre rpost : list N),
  let r := concat_elements_m (layout_offsets lpre (map utf8 ls)) (layout_data lpre (map utf8 ls) lpost)
                             (layout_offsets rpre (map utf8 rs)) (layout_data rpre (map utf8 rs) rpost) in
  values_of (fst r) (snd r) = map utf8 (map2 (@app N) ls rs).
Proof. exact C20_Layout.concat_elements_spec_thm. Qed.
Print Assumptions concat_elements_spec.

Theorem concat_valid_utf8 : forall a b : list N,
  Forall (fun c => scalar c = true) a -> Forall (fun c => scalar c = true) b ->
  valid_utf8 (utf8 a ++ utf8 b) = true.
Proof. exact C20_Layout.concat_valid_utf8. Qed.
Print Assumptions concat_valid_utf8.

(* ---- non-vacuity: concrete instances (pattern "a\%_%é" on "a%xyé"; substring splitting "é") *)
Example like_example :
  like_m (utf8 [97; 92; 37; 95; 37; 233]%N) (utf8 [97; 37; 120; 121; 233]%N) = true
  /\ like_spec [97; 92; 37; 95; 37; 233]%N [97; 37; 120; 121; 233]%N = true
  /\ like_spec [37; 233]%N [233; 10]%N = false /\ like_spec [37; 233; 37]%N [10; 233; 10]%N = true.
Proof. vm_compute. auto. Qed.
Example substring_example :
  substring_spec [97; 233; 98]%N 1 (Some 1%Z) = None
  /\ substring_spec [97; 233; 98]%N 1 (Some 2%Z) = Some [233%N]
  /\ substring_spec [97; 233; 98]%N (-1) None = Some [98%N]
  /\ substring_by_char_spec [97; 233; 98]%N (-2) (Some 1%Z) = [233%N].
Proof. vm_compute. auto. Qed.
