(* C04 — property theorems only: each closed by [exact] and followed by Print Assumptions. *)
From Coq Require Import List Bool Arith NArith ZArith.
From AV Require Import Base.Bytes Model.C09_Layout Model.C04_Dict Model.C04_Walk Model.C04_Frame Model.C04_Flight Model.C04_Rebase Model.C04_Write.
From AV Require Import Proofs.C04_Dict Proofs.C04_Walk Proofs.C04_Frame Proofs.C04_Flight Proofs.C04_Write.
Import ListNotations.

(* ---------------------------------------------------------------- dictionaries ------------------- *)
(* Writer DictionaryTracker::insert_column / compare_dictionaries against reader update_dictionaries, for one
   dictionary id over ANY history of per-batch dictionaries (unchanged, extended, shrunk, replaced), both
   DictionaryHandling modes, with or without error_on_replacement: whenever the writer accepts the history,
   the dictionary a streaming reader holds when it decodes batch i is exactly the dictionary batch i was
   written with.  V is the (abstract) logical value of a dictionary entry with decidable equality. *)
Theorem dict_refinement : forall (V : Type) (veq : V -> V -> bool),
  (forall a b, veq a b = true <-> a = b) ->
  forall (eor : bool) (h : handling) (hist : list (list V)) (written : option (list V)) (obs : list (option (list V))),
  run V veq eor h written written hist = Some obs -> obs = map Some hist.
Proof. exact C04_Dict.dict_refinement. Qed.
Print Assumptions dict_refinement.

(* Stream writer, StreamEncoder and Flight (error_on_replacement = false) accept every history. *)
Theorem stream_never_rejects : forall (V : Type) (veq : V -> V -> bool),
  (forall a b, veq a b = true <-> a = b) ->
  forall (h : handling) (hist : list (list V)) (written : option (list V)),
  exists obs, run V veq false h written written hist = Some obs.
Proof. exact C04_Dict.stream_never_rejects. Qed.
Print Assumptions stream_never_rejects.

(* File format: the FileReader applies EVERY dictionary block before decoding any batch.  For a history the
   FileWriter accepts, the reader's final dictionary extends the dictionary of every batch, so every key of
   every batch still denotes the value it denoted when written. *)
Theorem file_dict_prefix : forall (V : Type) (veq : V -> V -> bool),
  (forall a b, veq a b = true <-> a = b) ->
  forall (h : handling) (d0 : list V) (hist : list (list V)) (ms : list (dmsg V)),
  emit V veq true h None (d0 :: hist) = Some ms ->
  exists final, fold_left (apply_msg V) ms None = Some final /\
                Forall (fun d => exists s, final = d ++ s) (d0 :: hist).
Proof. exact C04_Dict.file_dict_prefix. Qed.
Print Assumptions file_dict_prefix.

(* ... and a dictionary that does not extend the previous one is rejected by the FileWriter. *)
Theorem file_writer_rejects_replacement : forall (V : Type) (veq : V -> V -> bool),
  (forall a b, veq a b = true <-> a = b) ->
  forall (h : handling) (old d : list V),
  (forall s, d <> old ++ s) -> insert_column V veq true h (Some old) d = None.
Proof. exact C04_Dict.file_writer_rejects_replacement. Qed.
Print Assumptions file_writer_rejects_replacement.

(* ---------------------------------------------------------------- layout walk -------------------- *)
(* For every data type (any nesting depth) and metadata version — except RunEndEncoded under V4, see below —
   and a supply [cs] of the variadic buffer counts of the type's view arrays:
   write_array_data and append_variadic_buffer_counts consume exactly [cs] and emit exactly [cs];
   create_array, fed with the emitted counts, succeeds, pops exactly [cs], and consumes the same number of
   field nodes and the same sequence of buffers (kind by kind) as were written;
   skip_field (projection) succeeds, pops exactly [cs] and consumes as many nodes and buffers as create_array. *)
Theorem walk_agree : forall (t : dty) (v5 : bool), (v5 = true \/ ree_free t = true) ->
  forall (cs q : list nat), length cs = views t ->
  exists wt rt st,
    w_walk t v5 (cs ++ q) = (wt, q) /\ w_var t (cs ++ q) = (cs, q) /\
    r_walk t v5 (cs ++ q) = Some (rt, q) /\ s_walk t v5 (cs ++ q) = Some (st, q) /\
    nodes_of rt = nodes_of wt /\ bufs_of rt = bufs_of wt /\
    snodes_of st = nodes_of rt /\ sbufs_of st = length (bufs_of rt).
Proof. exact walk_agree_all. Qed.
Print Assumptions walk_agree.

(* whole record batches: the columns in schema order *)
Theorem walk_agree_batch : forall (v5 : bool) (cols : list dty),
  Forall (fun t => v5 = true \/ ree_free t = true) cols ->
  forall cs q, length cs = fold_right (fun t acc => views t + acc) 0 cols ->
  exists wt rt,
    w_batch cols v5 (cs ++ q) = (wt, q) /\ w_batch_var cols (cs ++ q) = (cs, q) /\
    r_batch cols v5 (cs ++ q) = Some (rt, q) /\
    nodes_of rt = nodes_of wt /\ bufs_of rt = bufs_of wt.
Proof. exact batch_agree. Qed.
Print Assumptions walk_agree_batch.

(* The full statement (no side condition) is FALSE for the faithful model: with MetadataVersion::V4 the writer
   emits a validity buffer for a RunEndEncoded array (has_validity_bitmap) that create_array never consumes. *)
Theorem walk_agree_v4_ree_refuted :
  let t := TRee 4 (TFixed 4) in
  exists wt rt, w_walk t false [] = (wt, []) /\ r_walk t false [] = Some (rt, []) /\ bufs_of rt <> bufs_of wt.
Proof. exact walk_v4_ree_differs. Qed.
Print Assumptions walk_agree_v4_ree_refuted.

(* ---------------------------------------------------------------- framing ------------------------ *)
(* pad_to_alignment's mask trick is the distance to the next multiple, for the four legal alignments *)
Theorem pad_to_alignment_correct : forall a len, (a = 8 \/ a = 16 \/ a = 32 \/ a = 64) ->
  pad_to_alignment a len = pad_spec a len /\ (len + pad_to_alignment a len) mod a = 0 /\ pad_to_alignment a len < a.
Proof. exact (fun a len Ha => pad_to_alignment_pow2 a len (aligned_pow2 a Ha)). Qed.
Print Assumptions pad_to_alignment_correct.

(* every framed message (prefix + metadata + padding + body) occupies padded_header_len + body bytes, both
   multiples of the alignment: messages and the FileWriter's footer blocks stay aligned; the tail padding of a
   record batch body is always 0 *)
Theorem frame_sizes : forall o m, (o_align o = 8 \/ o_align o = 16 \/ o_align o = 32 \/ o_align o = 64) ->
  (o_legacy o = true -> o_v5 o = false) ->
  length (frame_msg o m) = padded_header_len o (length (msg_meta m)) + length (body_bytes (o_align o) m) /\
  padded_header_len o (length (msg_meta m)) mod o_align o = 0 /\
  length (body_bytes (o_align o) m) mod o_align o = 0 /\
  (forall bufs, pad_to_alignment (o_align o) (batch_offset (o_align o) bufs) = 0).
Proof. exact (fun o m Ha => frame_sizes_pow2 o m (aligned_pow2 _ Ha)). Qed.
Print Assumptions frame_sizes.

(* MessageReader inverts the stream writer: for every alignment 8/16/32/64, V4 / V5, legacy (length only) and
   current (continuation marker + length) prefixes, every sequence of messages (schema / dictionary messages
   given as EncodedData, record batches given as metadata + buffer list) whose metadata is non-empty and below
   2^31 bytes, [bodylen] being any function that reads Message.bodyLength back from the (padded) metadata:
   reading the framed stream returns, message by message, the metadata (plus its alignment padding) and exactly
   the body bytes, then stops at the end-of-stream marker. *)
Theorem frame_roundtrip : forall (bodylen : list N -> nat) (o : wopts),
  (o_align o = 8 \/ o_align o = 16 \/ o_align o = 32 \/ o_align o = 64) ->
  (o_legacy o = true -> o_v5 o = false) ->
  forall (ms : list msg) (fuel : nat),
  Forall (fun m => msg_meta m <> [] /\
                   (N.of_nat (padded_metadata_len o (length (msg_meta m))) < 2147483648)%N /\
                   bodylen (msg_meta m ++ zeros (metadata_padding o (length (msg_meta m)))) = length (body_bytes (o_align o) m)) ms ->
  length ms < fuel ->
  unframe bodylen fuel (frame_stream o ms)
  = RDone (map (fun m => (msg_meta m ++ zeros (metadata_padding o (length (msg_meta m))), body_bytes (o_align o) m)) ms).
Proof. exact (fun bodylen o Ha _ => frame_roundtrip_pow2 bodylen o (aligned_pow2 _ Ha)). Qed.
Print Assumptions frame_roundtrip.

(* ---------------------------------------------------------------- slice re-basing ---------------- *)
(* reencode_offsets + get_byte_array_buffers / get_list_array_buffers: for every valid offsets buffer
   (non-negative, non-decreasing, last offset within the values), every array offset and non-zero length —
   including a non-zero first offset — slot i of the written (offsets', values') is slot off+i of the
   original, offsets' has len+1 entries and starts at 0. *)
Theorem rebase_logical : forall (A : Type) (offs : list Z) (values : list A) (off len i : nat),
  monotone 0 offs -> off + len + 1 <= length offs ->
  (nth (off + len) offs 0 <= Z.of_nat (length values))%Z -> i < len ->
  let '(o', v') := rebase offs values off len in
  var_slot o' v' i = var_slot offs values (off + i) /\ length o' = len + 1 /\ nth 0 o' 0%Z = 0%Z.
Proof. exact (fun A offs values off len i Hm Hl _ => rebase_logical_slots offs values off len i Hm Hl). Qed.
Print Assumptions rebase_logical.

(* get_or_truncate_buffer on a fixed-width layout keeps exactly the addressed elements *)
Theorem truncate_logical : forall (b : list N) (w off len i : nat),
  (off + len) * w <= length b -> i < len ->
  fixed_slot (truncate_fixed b w off len) w i = fixed_slot b w (off + i).
Proof. exact (fun b w off len i _ => truncate_fixed_slots b w off len i). Qed.
Print Assumptions truncate_logical.

(* validity bitmaps and boolean values of sliced arrays: Buffer::bit_slice (shared bytes when the bit offset is a
   multiple of 8, re-packed bits otherwise) keeps exactly the addressed bits, for every buffer, offset and length *)
Theorem bitmap_truncation : forall (b : list N) (off len i : nat), i < len ->
  bit_at (bit_slice b off len) i = bit_at b (off + i).
Proof. exact bit_slice_spec. Qed.
Print Assumptions bitmap_truncation.

(* The byte-level writer model (C04_Write.w_arr, compared with the real writer buffer by buffer) and the
   type-level walk agree: for every array tree that has the shape of its type, every slice the writer may take of
   it (s, l, ArrayData- or Array-level) and enough fuel, the model emits exactly as many field nodes and buffers
   as w_walk lists, and w_walk consumes exactly the variadic counts the array contributes. *)
Theorem writer_model_follows_walk : forall (v5 : bool) (t : dty) (a : parr), shaped t a ->
  forall (fuel s l : nat) (proper : bool), depth a < fuel ->
  forall q, let '(toks, rest) := w_walk t v5 (var_counts a ++ q) in
            length (fst (w_arr fuel v5 a s l proper)) = nodes_of toks /\
            length (snd (w_arr fuel v5 a s l proper)) = length (bufs_of toks) /\ rest = q.
Proof. exact w_arr_counts. Qed.
Print Assumptions writer_model_follows_walk.

(* ---------------------------------------------------------------- Flight split ------------------- *)
(* split_batch_for_grpc_response, for every batch, buffer size and size limit (a zero limit divides by zero in
   Rust and is excluded by the model's Nat division convention only through n_batches >= 1): the loop ends
   within num_rows iterations, the pieces are non-empty, in range, adjacent (each starts where the previous one
   ends, from row 0) and their concatenation is the batch: no row is lost, duplicated or reordered. *)
Theorem flight_split_concat : forall (A : Type) (rows : list A) (size max : N),
  let ps := split (length rows) size max in
  concat (map (slice_rows rows) ps) = rows /\
  Forall (fun p => 0 < snd p /\ fst p + snd p <= length rows) ps /\
  adjacent 0 ps.
Proof. exact @flight_split_concat_all. Qed.
Print Assumptions flight_split_concat.

Theorem flight_split_piece_rows : forall (num_rows : nat) (size max : N),
  Forall (fun p => snd p <= rows_per_batch num_rows (n_batches size max)) (split num_rows size max).
Proof. exact flight_split_piece_bound. Qed.
Print Assumptions flight_split_piece_rows.

(* non-vacuity: concrete instances of the hypotheses *)
Example dict_nonvacuous :
  run nat Nat.eqb false Delta None None [[1; 2]; [1; 2]; [1; 2; 3]; [7]; [7; 8]]
  = Some [Some [1; 2]; Some [1; 2]; Some [1; 2; 3]; Some [7]; Some [7; 8]] /\
  emit nat Nat.eqb false Delta None [[1; 2]; [1; 2]; [1; 2; 3]; [7]; [7; 8]]
  = Some [Full [1; 2]; DeltaMsg [3]; Full [7]; DeltaMsg [8]] /\
  emit nat Nat.eqb true Delta None [[1; 2]; [1; 2; 3]; [7]] = None.
Proof. vm_compute. repeat split. Qed.
Example walk_nonvacuous :
  let t := TStruct [(true, TList false true (TView true)); (false, TUnion true [(0%Z, TView false); (5%Z, TDict 4 true (TView true))])] in
  views t = 2 /\ w_var t [3; 1; 9] = ([3; 1], [9]) /\
  nodes_of (fst (w_walk t true [3; 1; 9])) = 6 /\ length (bufs_of (fst (w_walk t true [3; 1; 9]))) = 15.
Proof. vm_compute. repeat split. Qed.
Example frame_nonvacuous :
  let o := {| o_align := 16; o_legacy := true; o_v5 := false |} in
  let ms := [MEnc [1; 2; 3]%N []; MBatch [9; 9; 9; 9; 9]%N [[1; 2; 3]%N; []; [4]%N]] in
  unframe (fun meta => match meta with 9%N :: _ => 32 | _ => 0 end) 3 (frame_stream o ms)
  = RDone (map (fun m => (msg_meta m ++ zeros (metadata_padding o (length (msg_meta m))), body_bytes 16 m)) ms).
Proof. vm_compute. reflexivity. Qed.
Example split_nonvacuous : split 10 1000%N 300%N = [(0, 2); (2, 2); (4, 2); (6, 2); (8, 2)] /\ split 0 5%N 1%N = [] /\ split 3 0%N 7%N = [(0, 3)].
Proof. vm_compute. repeat split. Qed.
