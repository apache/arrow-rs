(* C16 — property theorems only: each closed by [exact] and followed by Print Assumptions.
   [run ops init] ranges over every state reachable by an operation history (clone / slice / wrap /
   drop / into_mutable / into_vec / unary_mut / try_unary_mut / into_builder / BooleanBuffer op= /
   claim / export / import / stream), in any order; an interleaving of per-thread histories is one
   such history.  [cnt s id] is the strong count of node [id] (references from live objects, live
   exported structures and live imported regions); [acts s i] are the references held by the object
   in slot [i]. *)
From Coq Require Import List Arith ZArith.
From AV Require Import Model.C16_Own Proofs.C16_Inv Proofs.C16_Ops Proofs.C16_Mut Proofs.C16_Excl Proofs.C16_Main.

(* IMMUTABILITY: one more operation [p], acting on slot [o_a p], does not change what any OTHER live
   object (buffer, array, boolean buffer, builder, vector, ...) shows. *)
Theorem immutability : forall (ops : list op) (p : op) (j : nat) (o : obj),
  get_slot (run ops init) j = Some o -> j <> o_a p ->
  view (step (run ops init) p) o = view (run ops init) o.
Proof. exact (fun ops p j o => immutability_l _ p j o (reach_inv ops) (reach_excl ops)). Qed.
Print Assumptions immutability.

(* ... and that object stays where it is (only the validity slot consumed by an array constructor goes away). *)
Theorem other_objects_stay : forall (ops : list op) (p : op) (j : nat),
  j <> o_a p -> (o_code p = 11 \/ o_code p = 13 -> j <> o_b p) -> j < length (slots (run ops init)) ->
  nth_error (slots (step (run ops init) p)) j = nth_error (slots (run ops init)) j.
Proof. exact (fun ops p j => other_slots_stay _ p j (reach_inv ops) (reach_excl ops)). Qed.
Print Assumptions other_objects_stay.

(* MUTATION REQUIRES UNIQUE OWNERSHIP: if an operation changes the content of an existing region, then
   every reference to that region is held by the object the operation acts on. *)
Theorem mutation_requires_unique : forall (ops : list op) (p : op) (id : nat),
  id < length (nodes (run ops init)) ->
  reg_bytes (step (run ops init) p) id <> reg_bytes (run ops init) id ->
  0 < count_occ Nat.eq_dec (acts (run ops init) (o_a p)) id
  /\ cnt (run ops init) id = count_occ Nat.eq_dec (acts (run ops init) (o_a p)) id.
Proof. exact (fun ops p id => mutation_requires_unique_l _ p id (reach_inv ops) (reach_excl ops)). Qed.
Print Assumptions mutation_requires_unique.

(* MutableBuffer, Vec and PrimitiveBuilder objects (which write without any run-time check) hold the
   only reference to their memory. *)
Theorem exclusive_objects_unique : forall (ops : list op) (i : nat) (o : obj) (id : nat),
  get_slot (run ops init) i = Some o -> is_excl_kind (okind o) = true -> In id (obj_refs o) ->
  cnt (run ops init) id = 1.
Proof. exact reach_excl. Qed.
Print Assumptions exclusive_objects_unique.

(* RELEASED EXACTLY ONCE: every node (memory region with its owner, exported C-Data structure) is
   released at most once, and it has been released exactly when nothing refers to it any more. *)
Theorem release_exactly_once : forall (ops : list op) (id : nat) (n : node),
  nth_error (nodes (run ops init)) id = Some n ->
  node_rel n <= 1 /\ (node_rel n = 1 <-> cnt (run ops init) id = 0).
Proof. exact (fun ops id n => release_exactly_once_l _ id n (reach_inv ops)). Qed.
Print Assumptions release_exactly_once.

(* Whatever a live object (buffer, array, builder, exported pair, stream) refers to has not been released. *)
Theorem no_use_after_release : forall (ops : list op) (i : nat) (o : obj) (h : handle),
  get_slot (run ops init) i = Some o -> In h (ohs o) ->
  exists n, nth_error (nodes (run ops init)) (hreg h) = Some n /\ node_rel n = 0.
Proof. exact (fun ops i o h => no_use_after_release_l _ i o h (reach_inv ops)). Qed.
Print Assumptions no_use_after_release.

(* A live imported region keeps the producer's structure alive, and a live exported structure keeps
   the exporter's buffers (and through them their custom owners) alive; references only go to older nodes. *)
Theorem import_keeps_exporter_alive : forall (ops : list op) (id : nat) (n : node) (r : nat),
  nth_error (nodes (run ops init)) id = Some n -> In r (node_refs n) ->
  r < id /\ exists m, nth_error (nodes (run ops init)) r = Some m /\ node_rel m = 0.
Proof. exact (fun ops id n r => keeps_alive_l _ id n r (reach_inv ops)). Qed.
Print Assumptions import_keeps_exporter_alive.

(* The memory an exported structure hands out (and the structure an imported region depends on) is never
   changed by any operation while that structure / region is alive. *)
Theorem exported_memory_immutable : forall (ops : list op) (p : op) (id : nat) (n : node) (r : nat),
  nth_error (nodes (run ops init)) id = Some n -> In r (node_refs n) ->
  reg_bytes (step (run ops init) p) r = reg_bytes (run ops init) r.
Proof. exact (fun ops p id n r => node_held_immutable _ p id n r (reach_inv ops) (reach_excl ops)). Qed.
Print Assumptions exported_memory_immutable.

(* Export then import of an Int32 array without validity (any slice of any region) yields an array that
   shows the same values; arrays with validity and Boolean arrays are covered by the correspondence run only. *)
Theorem export_import_roundtrip_partial : forall (s : state) (c : bool) (v : handle),
  hreg v < length (nodes s) -> hlen v mod 4 = 0 ->
  exists o, snd (import_arr (fst (export_arr s 4 c (v :: nil))) (snd (export_arr s 4 c (v :: nil)))) = Some o /\ okind o = 4 /\
            view (fst (import_arr (fst (export_arr s 4 c (v :: nil))) (snd (export_arr s 4 c (v :: nil))))) o = view s (mkO 4 (v :: nil) nil).
Proof. exact roundtrip_no_nulls. Qed.
Print Assumptions export_import_roundtrip_partial.

(* POOL ACCOUNTING: the pool counter (moved by reserve / resize / drop of reservations) equals the total
   size of the reservations of the regions that are alive, after every operation. *)
Theorem pool_accounting : forall (ops : list op), pool (run ops init) = live_resv (run ops init).
Proof. exact (fun ops => inv4 _ (reach_inv ops)). Qed.
Print Assumptions pool_accounting.

(* One step preserves the whole invariant from ANY state satisfying it (not only from [init]). *)
Theorem step_preserves_invariant : forall (s : state) (p : op), Inv s -> Excl s -> Inv (step s p) /\ Excl (step s p).
Proof. exact (fun s p I X => conj (C16_Exec.step_inv s p I X) (C16_Exec.step_excl s p I X)). Qed.
Print Assumptions step_preserves_invariant.
