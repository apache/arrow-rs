(* C07 — property theorems only: each closed by [exact] and followed by Print Assumptions.
   Models: Model/C07_Trunc.v (truncation), C07_Bloom.v (split-block bloom filter), C07_Stats.v
   (min/max accumulation and comparisons), C07_File.v (column chunk writer), C07_Spec.v (spec). *)
From Coq Require Import List NArith ZArith Arith Bool.
From AV Require Import Model.C07_Trunc Model.C07_Bloom Model.C07_Stats Model.C07_File Model.C07_Spec.
From AV Require Import Proofs.C07_Trunc Proofs.C07_Bloom Proofs.C07_MinMax Proofs.C07_Order Proofs.C07_Decimal.
From AV Require Import Proofs.C07_Utf8 Proofs.C07_Utf8Trunc Proofs.C07_FileM Proofs.C07_BaPath.
From AV Require Import Gen.Consts Proofs.C07_GenTie.
Import ListNotations.

(* ================================================================== truncation of byte-string bounds *)

(* The truncated minimum never exceeds the exact minimum (any column kind, any truncation length,
   UTF-8 aware or not); hence it is a lower bound of everything the exact minimum bounded. *)
Theorem truncate_min_le : forall (utf8 : bool) (tl : option nat) (d : list N),
  lex (fst (truncate_min_value utf8 tl d)) d <> Gt.
Proof. exact truncate_min_le_all. Qed.
Print Assumptions truncate_min_le.

(* When the writer reports a truncated maximum it is strictly greater than the exact maximum. *)
Theorem truncate_max_ge : forall (utf8 : bool) (tl : option nat) (d r : list N),
  truncate_max_value utf8 tl d = (r, true) -> lex d r = Lt.
Proof. exact truncate_max_gt_all. Qed.
Print Assumptions truncate_max_ge.

(* Exactness flags: "not truncated" means the stored bound is the exact one (so it is attained). *)
Theorem exact_flag_sound : forall (utf8 : bool) (tl : option nat) (d t : list N),
  (truncate_min_value utf8 tl d = (t, false) -> t = d) /\ (truncate_max_value utf8 tl d = (t, false) -> t = d).
Proof. exact exact_flags. Qed.
Print Assumptions exact_flag_sound.

(* The stored bounds still bound every value the exact bounds did. *)
Theorem truncated_bounds_cover : forall (utf8 : bool) (tl : option nat) (mn mx v : list N),
  lex mn v <> Gt -> lex v mx <> Gt ->
  lex (fst (truncate_min_value utf8 tl mn)) v <> Gt /\ lex v (fst (truncate_max_value utf8 tl mx)) <> Gt.
Proof. exact truncated_cover. Qed.
Print Assumptions truncated_bounds_cover.

(* increment: the result is strictly above every extension of its argument ... *)
Theorem increment_upper_bound : forall (d r : list N),
  increment d = Some r -> forall suffix, lex (d ++ suffix) r = Lt.
Proof. exact Proofs.C07_Trunc.increment_upper_bound. Qed.
Print Assumptions increment_upper_bound.

(* ... and it fails exactly on all-0xFF strings (then the bound is left untruncated). *)
Theorem increment_none_iff_all_ff : forall (d : list N), Forall (fun b => (b <= 255)%N) d ->
  (increment d = None <-> Forall (fun b => b = 255%N) d).
Proof. exact increment_none_iff. Qed.
Print Assumptions increment_none_iff_all_ff.

Theorem increment_carry : forall (p : list N) (b : N) (k : nat), b <> 255%N ->
  increment (p ++ b :: repeat 255%N k) = Some (p ++ (b + 1)%N :: repeat 0%N k).
Proof. exact Proofs.C07_Trunc.increment_carry. Qed.
Print Assumptions increment_carry.

(* UTF-8 columns: both stored bounds remain valid UTF-8 (surrogate gap and U+10FFFF included). *)
Theorem utf8_truncate_valid : forall (tl : option nat) (d : list N),
  valid_utf8 d = true -> valid_utf8 (fst (truncate_min_value true tl d)) = true.
Proof. exact truncate_min_utf8_valid. Qed.
Print Assumptions utf8_truncate_valid.

Theorem utf8_increment_valid : forall (tl : option nat) (d : list N),
  valid_utf8 d = true -> valid_utf8 (fst (truncate_max_value true tl d)) = true.
Proof. exact truncate_max_utf8_valid. Qed.
Print Assumptions utf8_increment_valid.

(* The UTF-8 codec of the model is a bijection between valid byte strings and scalar sequences. *)
Theorem utf8_decode_encode : forall (cs : list N), Forall (fun c => scalar c = true) cs ->
  decode (flat_map encode cs) = Some cs.
Proof. exact decode_encode. Qed.
Print Assumptions utf8_decode_encode.

Theorem utf8_encode_decode : forall (bs : list N) (cs : list N), decode bs = Some cs ->
  bs = flat_map encode cs /\ Forall (fun c => scalar c = true) cs.
Proof. exact decode_inv. Qed.
Print Assumptions utf8_encode_decode.

(* ================================================================== bloom filter *)

(* Every inserted hash tests positive, whatever else is inserted before or after it. *)
Theorem bloom_no_false_negative : forall (hs : list N) (f : sbbf) (h : N),
  (0 < length f)%nat -> Forall (fun x => (x < 2^64)%N) hs -> In h hs ->
  check_hash (fold_left insert_hash hs f) h = true.
Proof. exact no_false_negative. Qed.
Print Assumptions bloom_no_false_negative.

(* Folding k times (merging groups of 2^k adjacent blocks) keeps every positive answer, for every
   block count 2^k * n: the repository calls this "empirically demonstrated". *)
Theorem fold_preserves : forall (k n : nat) (f : sbbf) (h : N),
  (0 < n)%nat -> length f = (2^k * n)%nat -> (N.of_nat (length f) <= 2^32)%N -> (h < 2^64)%N ->
  check_hash f h = true -> check_hash (fold_n k f) h = true.
Proof. exact Proofs.C07_Bloom.fold_preserves. Qed.
Print Assumptions fold_preserves.

(* hash_to_block_index stays inside the filter (the Rust indexing cannot panic). *)
Theorem bloom_index_in_range : forall (n : nat) (h : N), (0 < n)%nat -> (h < 2^64)%N -> (block_index n h < n)%nat.
Proof. exact block_index_lt. Qed.
Print Assumptions bloom_index_in_range.

(* ================================================================== min/max accumulation *)

(* get_min_max + update_min/update_max over any split into mini-batches: for a comparison that is
   the strict part of a total preorder, the result bounds every non-NaN value, is attained, is not
   NaN as soon as a non-NaN value exists, and the NaN count is exact. *)
Theorem minmax_fold_bounds :
  forall (T : Type) (gt : T -> T -> bool) (nan : T -> bool) (le : T -> T -> bool),
  (forall a b c, le a b = true -> le b c = true -> le a c = true) ->
  (forall a b, le a b = true \/ le b a = true) ->
  (forall a b, gt a b = negb (le a b)) ->
  forall (float : bool) (batches : list (list T)) (mn mx : T) (nc : option nat),
  fold_left (fun st s => write_slice gt nan float s st) batches (None, None, None) = (Some mn, Some mx, nc) ->
  In mn (concat batches) /\ In mx (concat batches) /\
  (forall v, In v (concat batches) -> nan v = false ->
     nan mn = false /\ nan mx = false /\ le mn v = true /\ le v mx = true) /\
  (float = true -> nc = Some (length (filter nan (concat batches)))).
Proof. exact Proofs.C07_MinMax.minmax_fold_bounds. Qed.
Print Assumptions minmax_fold_bounds.

(* The column chunk model: chunk min/max merged from the pages bound every non-null, non-NaN value
   of every page, are attained, and the chunk null count is exact. *)
Theorem chunk_merges_pages :
  forall (T : Type) (gt : T -> T -> bool) (nan : T -> bool) (le : T -> T -> bool),
  (forall a b c, le a b = true -> le b c = true -> le a c = true) ->
  (forall a b, le a b = true \/ le b a = true) ->
  (forall a b, gt a b = negb (le a b)) ->
  forall (enc : T -> list N) (float can_trunc utf8 page_level : bool) (tl_index : option nat) (bs : nat)
         (pages : list (list (option T))),
  let w := run_pages T gt nan enc float true None can_trunc utf8 page_level tl_index bs pages in
  w_nulls T w = count_none (concat pages) /\
  match somes (concat pages) with
  | [] => w_cmin T w = None /\ w_cmax T w = None
  | _ => exists mn mx, w_cmin T w = Some mn /\ w_cmax T w = Some mx /\
         In mn (somes (concat pages)) /\ In mx (somes (concat pages)) /\
         forall v, In v (somes (concat pages)) -> nan v = false ->
           nan mn = false /\ nan mx = false /\ le mn v = true /\ le v mx = true
  end.
Proof. exact Proofs.C07_FileM.chunk_merges_pages. Qed.
Print Assumptions chunk_merges_pages.

(* String/Binary columns written through the arrow byte-array encoder. *)
Theorem byte_array_minmax_bounds : forall (batches : list (list (list N))) (mn mx : list N),
  fold_left (fun st s => ba_write s st) batches (None, None) = (Some mn, Some mx) ->
  In mn (concat batches) /\ In mx (concat batches) /\
  forall v, In v (concat batches) -> lex mn v <> Gt /\ lex v mx <> Gt.
Proof. exact ba_fold_bounds. Qed.
Print Assumptions byte_array_minmax_bounds.

(* ================================================================== compare_greater is the column order *)

(* f32/f64/f16::total_cmp (sign-mask xor trick) orders bit patterns by the IEEE totalOrder key of S. *)
Theorem total_cmp_is_total_order : forall (W a b : Z), (1 <= W)%Z -> (0 <= a < 2^W)%Z -> (0 <= b < 2^W)%Z ->
  gt_total W a b = (fkey W b <? fkey W a)%Z.
Proof. exact gt_total_is_key_order. Qed.
Print Assumptions total_cmp_is_total_order.

(* is_nan's threshold test is "exponent all ones and mantissa non-zero". *)
Theorem nan_test_is_ieee : forall (W u : Z), (W = 16 \/ W = 32 \/ W = 64)%Z -> (0 <= u < 2^W)%Z ->
  nan_bits W u = fnan W u.
Proof. exact (fun W u HW _ => nan_bits_is_fnan W u HW). Qed.
Print Assumptions nan_test_is_ieee.

(* UInt32/UInt64 are stored as i32/i64; comparing through as_u64 is the unsigned order. *)
Theorem unsigned_compare_is_order : forall (W a b : Z), (W = 32 \/ W = 64)%Z -> (0 <= a < 2^W)%Z -> (0 <= b < 2^W)%Z ->
  gt_unsigned (wrap_signed W a) (wrap_signed W b) = (b <? a)%Z.
Proof. exact gt_unsigned_is_order. Qed.
Print Assumptions unsigned_compare_is_order.

(* Decimals as big-endian two's complement bytes: for operands of equal length (every
   FIXED_LEN_BYTE_ARRAY decimal) compare_greater_byte_array_decimals is the order of the values. *)
Theorem decimal_compare_is_order_eqlen : forall (a b : list N),
  Forall (fun x => (x <= 255)%N) a -> Forall (fun x => (x <= 255)%N) b -> length a = length b -> a <> [] ->
  gt_decimal_bytes a b = (sval b <? sval a)%Z.
Proof. exact gt_decimal_eqlen. Qed.
Print Assumptions decimal_compare_is_order_eqlen.

(* Full intended statement (any two non-empty operands) is FALSE for the faithful model: with
   operands of different lengths whose extra leading bytes are sign extension the tails are compared
   unaligned (32768 = 00 80 00 is reported not greater than 32767 = 7F FF). *)
Theorem decimal_compare_is_order_refuted :
  exists a b : list N, Forall (fun x => (x <= 255)%N) a /\ Forall (fun x => (x <= 255)%N) b /\ a <> [] /\ b <> [] /\
    gt_decimal_bytes a b <> (sval b <? sval a)%Z.
Proof. exact gt_decimal_unequal_lengths_refuted. Qed.
Print Assumptions decimal_compare_is_order_refuted.

(* The spec's reading of a stored FLBA decimal bound is the signed big-endian value. *)
Theorem spec_decodes_flba_decimal : forall (l : list N), Forall (fun x => (x <= 255)%N) l -> l <> [] ->
  sdec KDF (length l) l = Some (sval l).
Proof. exact sdec_decimal_flba. Qed.
Print Assumptions spec_decodes_flba_decimal.

(* ================================================================== non-vacuity *)
Example truncate_max_example :
  truncate_max_value true (Some 2%nat) [97; 195; 169; 99]%N = ([98]%N, true) /\       (* "aéc" cut at 2 -> "b" *)
  truncate_max_value false (Some 2%nat) [97; 255; 0]%N = ([98; 0]%N, true) /\          (* carry over 0xFF *)
  truncate_max_value false (Some 2%nat) [255; 255; 7]%N = ([255; 255; 7]%N, false) /\  (* all 0xFF: left exact *)
  truncate_max_value true (Some 3%nat) [237; 159; 191; 97]%N = ([237; 159; 191; 97]%N, false). (* U+D7FF: no successor of equal width *)
Proof. vm_compute. repeat split. Qed.

Example fold_example :
  let f := fold_left insert_hash [12345678901234567890; 42; 18446744073709551615]%N (sbbf_new 8) in
  length (fold_n 2 f) = 2%nat /\ forallb (check_hash (fold_n 2 f)) [12345678901234567890; 42; 18446744073709551615]%N = true.
Proof. vm_compute. split; reflexivity. Qed.

(* The bloom-filter SALT of the model is the constant of the current source tree (coq/Gen/Consts.v is
   regenerated from /repo by rs2v on every run). *)
Theorem bloom_salt_matches_source : List.map Z.of_N SALT = parquet_bloom_filter__SALT.
Proof. exact tie_bloom_salt. Qed.
Print Assumptions bloom_salt_matches_source.
