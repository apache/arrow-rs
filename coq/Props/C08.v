(* C08 — Untrusted bytes yield an error or valid data, never an invalid array.
   Theorems about the guards between attacker-controlled integers and buffers (thrift compact protocol readers,
   Avro varint / OCF block layer, Arrow IPC node/buffer cursors).  The models are tied to arrow-rs by the
   correspondence run (probes c08.thrift_meta, c08.schema_probe, c08.avro_longs, c08.ipc_batch). *)
From Coq Require Import List NArith ZArith Bool.
From AV Require Import Base.Bytes Model.C08_Thrift Model.C08_Avro Model.C08_Ipc.
From AV Require Import Proofs.C08_Thrift Proofs.C08_Vlq Proofs.C08_Avro Proofs.C08_Ipc.
Import ListNotations.

(* ---- thrift: every reader returns Err or consumes at least one byte (structural termination on the input) *)
Theorem vlq_total_progress : forall bs v r,
  C08_Thrift.read_vlq bs = Ok v r -> (v < 2^64)%N /\ (length r < length bs)%nat.
Proof. exact read_vlq_bounded. Qed.
Print Assumptions vlq_total_progress.

Theorem list_begin_total_progress : forall bs,
  match read_list_begin bs with Ok _ r => (length r + 1 <= length bs)%nat | Err _ => True end.
Proof. exact (fun bs => eats_consumed 1 bs _ (read_list_begin_eats bs)). Qed.
Print Assumptions list_begin_total_progress.

Theorem field_begin_total_progress : forall last bs,
  match read_field_begin last bs with Ok _ r => (length r + 1 <= length bs)%nat | Err _ => True end.
Proof. exact (fun last bs => eats_consumed 1 bs _ (read_field_begin_eats last bs)). Qed.
Print Assumptions field_begin_total_progress.

(* read_bytes: the declared length is checked against the remaining input; the result is a slice of it *)
Theorem read_bytes_in_bounds : forall bs s r,
  read_bytes bs = Ok s r -> (length s + length r < length bs)%nat /\ exists p, bs = p ++ s ++ r.
Proof. exact Proofs.C08_Thrift.read_bytes_in_bounds. Qed.
Print Assumptions read_bytes_in_bounds.

(* skip: never grows the input, strictly consumes for every non-boolean field, whatever the depth budget *)
Theorem skip_total_progress : forall d ft bs r,
  skip d ft bs = Ok tt r ->
  (length r <= length bs)%nat /\ (is_bool_ty ft = false -> (length r < length bs)%nat).
Proof. exact skip_progress. Qed.
Print Assumptions skip_total_progress.

(* skip: the loops (struct fields, list / map elements) terminate: the model's input-length fuel is never
   exhausted, at any depth budget; at budget 0 the reader refuses (SkipDepth) *)
Theorem skip_depth_terminates : forall d ft bs,
  skip d ft bs <> Err e_fuel /\ skip 0 ft bs = Err e_inv.
Proof. exact (fun d ft bs => conj (ensures_nf _ _ (skip_eats d ft bs)) eq_refl). Qed.
Print Assumptions skip_depth_terminates.

(* the two footer decoders terminate on every byte string *)
Theorem footer_decoders_total : forall bs,
  meta_probe bs <> MErr e_fuel /\ schema_probe bs <> Err e_fuel.
Proof. split; [apply meta_loop_nf|apply schema_loop_nf]; apply Nat.lt_succ_diag_r. Qed.
Print Assumptions footer_decoders_total.

(* ---- varints *)
(* the thrift reader agrees with the bounded ULEB128 specification (<= 10 bytes, value < 2^64) wherever that is defined;
   the one-byte fast path is the general loop *)
Theorem vlq_agrees_spec : forall bs v r,
  varint_spec bs = Some (v, r) -> C08_Thrift.read_vlq bs = Ok v r.
Proof. exact read_vlq_agrees_spec. Qed.
Print Assumptions vlq_agrees_spec.

(* INTENDED: vlq_bounded — at most 10 bytes are consumed.  False for the pinned reader (no bound on continuation
   bytes; wrapping_shl folds later groups back into the low bits): *)
Theorem vlq_at_most_10_bytes_refuted :
  exists bs v r, C08_Thrift.read_vlq bs = Ok v r /\ (length bs - length r > 10)%nat.
Proof. exact Proofs.C08_Vlq.vlq_at_most_10_bytes_refuted. Qed.
Print Assumptions vlq_at_most_10_bytes_refuted.

Theorem vlq_decode_encode : forall n rest,
  (n < 2^64)%N -> C08_Thrift.read_vlq (uleb_enc 10 n ++ rest) = Ok n rest.
Proof. exact read_vlq_enc. Qed.
Print Assumptions vlq_decode_encode.

Theorem zigzag_decode_encode : forall z rest,
  (- 2^63 <= z < 2^63)%Z -> read_zig_zag (uleb_enc 10 (zigzag_enc z) ++ rest) = Ok z rest.
Proof. exact read_zig_zag_enc. Qed.
Print Assumptions zigzag_decode_encode.

(* ---- thrift list length guard.
   INTENDED (thrift_vec_len_le_input): the element count that read_thrift_vec hands to Vec::with_capacity is at most
   the number of input bytes.  REFUTED for the pinned code: footer 15 02 19 FC FF FF FF FF 07 00 requests 2^31-1
   SchemaElements from a 10-byte input. *)
Theorem thrift_vec_len_le_input_refuted :
  exists bs n, schema_alloc_request bs = Some n /\ (N.of_nat (length bs) < n)%N.
Proof. exact Proofs.C08_Vlq.thrift_vec_len_le_input_refuted. Qed.
Print Assumptions thrift_vec_len_le_input_refuted.

(* ... except for that request, the vector read_thrift_vec RETURNS (and the input it leaves) is bounded by the input,
   for every element reader that consumes at least one byte per element; and its loop terminates *)
Theorem thrift_vec_len_le_input_except_known : forall (A : Type) (rd : list N -> res A),
  (forall bs, match rd bs with Ok _ r => (length r + 1 <= length bs)%nat | Err _ => True end) ->
  (forall bs, rd bs <> Err e_fuel) ->
  forall e bs, read_thrift_vec rd e bs <> Err e_fuel /\
               forall v r, read_thrift_vec rd e bs = Ok v r -> (length v + length r < length bs)%nat.
Proof.
  intros A rd Hp Hn e bs. pose proof (thrift_vec_len rd (fun bs => ensures_intro _ _ (Hp bs) (Hn bs)) e bs) as H.
  exact (conj (ensures_nf _ _ H) (fun v r => ensures_ok _ _ _ _ H)).
Qed.
Print Assumptions thrift_vec_len_le_input_except_known.

(* ---- Avro *)
(* VLQDecoder::long: at most 10 bytes, and the shift never reaches 64 (no arithmetic panic in debug builds) *)
Theorem avro_vlq_bounded : forall bs,
  vlq_long bs 0 0 <> VPanic /\
  forall z r, vlq_long bs 0 0 = VVal z r -> (length r < length bs /\ length bs - length r <= 10)%nat.
Proof. exact vlq_long_bounded. Qed.
Print Assumptions avro_vlq_bounded.

(* read_varint (AvroCursor): the one-byte fast path, the 10-byte array path (additive accumulation with the continuation
   bits subtracted) and the slow path all compute the bounded ULEB128 specification, and report the bytes consumed *)
Theorem avro_read_varint_is_spec : forall bs, wf_bytes bs ->
  read_varint bs = match varint_spec bs with
                   | Some (v, r) => Some (v, N.of_nat (length bs - length r))
                   | None => None end.
Proof. exact read_varint_spec. Qed.
Print Assumptions avro_read_varint_is_spec.

Theorem varint_spec_decode_encode : forall n rest,
  (n < 2^64)%N -> varint_spec (uleb_enc 10 n ++ rest) = Some (n, rest).
Proof. exact varint_spec_enc. Qed.
Print Assumptions varint_spec_decode_encode.

(* block count / size sign rules and progress of the block decoder *)
Theorem avro_block_guards : forall bs c d s rest,
  decode_block bs = BBlock c d s rest -> (length rest + length d + 18 <= length bs)%nat /\ length s = 16%nat.
Proof. intros bs c d s rest E. pose proof (decode_block_inv bs) as H. now rewrite E in H. Qed.
Print Assumptions avro_block_guards.

(* the OCF reader loop of the model ends with Ok, Err or the explicit no-progress state, never by fuel or panic *)
Theorem avro_reader_total : forall sync bs,
  match read_blocks (S (length bs)) sync bs [] with ROk _ | RErr | RHang => True | _ => False end.
Proof. exact (fun sync bs => read_blocks_total _ sync bs [] (Nat.lt_succ_diag_r _)). Qed.
Print Assumptions avro_reader_total.

(* INTENDED: the reader loop makes progress on every input.  REFUTED: a block with count 0 and non-empty data *)
Theorem avro_reader_progress_refuted :
  exists bs, read_blocks (S (length bs)) (repeat 7%N 16) bs [] = RHang.
Proof. exact Proofs.C08_Avro.avro_reader_progress_refuted. Qed.
Print Assumptions avro_reader_progress_refuted.

(* ---- Arrow IPC *)
(* read_buffer's guard admits exactly the in-bounds (offset, length) pairs *)
Theorem ipc_buffer_guard : forall body off len,
  (0 <= body < 2^63)%Z -> (- 2^63 <= off < 2^63)%Z -> (- 2^63 <= len < 2^63)%Z ->
  (buffer_in_bounds body (off, len) = true <-> (0 <= off /\ 0 <= len /\ off + len <= body)%Z).
Proof. exact buffer_guard_iff. Qed.
Print Assumptions ipc_buffer_guard.

(* a field whose walk passes consumed exactly the nodes and buffers its type prescribes, all buffers inside the body *)
Theorem ipc_cursor_walk_sound : forall t body s s',
  walk t body s = (Pass, s') ->
  exists un ub, nodes s = un ++ nodes s' /\ bufs s = ub ++ bufs s' /\
                length un = n_nodes t /\ length ub = n_bufs t /\
                Forall (fun b => buffer_in_bounds body b = true) ub.
Proof. exact walk_sound. Qed.
Print Assumptions ipc_cursor_walk_sound.

(* ... and for a node that declares nulls the validity buffer covers the node length *)
Theorem ipc_validity_guard : forall body n vb b2 s',
  walk FPrim body {| nodes := [n]; bufs := [vb; b2] |} = (Pass, s') -> (0 < snd n)%Z ->
  (as_usize (fst n) <= 8 * as_usize (snd vb))%Z.
Proof. exact (fun body n vb b2 s' H => walk_leaf_validity FPrim body _ s' n _ vb (or_introl eq_refl) H eq_refl eq_refl). Qed.
Print Assumptions ipc_validity_guard.

(* INTENDED: an out-of-bounds buffer is an error.  In the pinned code it is a panic (assert in Buffer::slice_with_length) *)
Theorem ipc_out_of_bounds_is_error_refuted :
  exists body s, fst (walk FPrim body s) = BoundsPanic.
Proof. exact ipc_bounds_panic_reachable. Qed.
Print Assumptions ipc_out_of_bounds_is_error_refuted.
