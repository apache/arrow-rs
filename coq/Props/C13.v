(* C13 — property theorems only: each closed by [exact] and followed by Print Assumptions. *)
From Coq Require Import List ZArith Bool.
From AV Require Import Model.C13_Num Model.C13_Decimal Model.C13_Cast Model.C13_Text Model.C13_Interval.
From AV Require Import Proofs.C13_Col Proofs.C13_Pow Proofs.C13_Rescale Proofs.C13_Int Proofs.C13_TextIntEq Proofs.C13_TextDec Proofs.C13_Interval.
Import ListNotations.
Local Open Scope Z_scope.

(* Strict / safe duality of the array combinators every fallible cast arm is built from
   (unary_opt = safe, try_unary = strict), for ANY per-value function f and ANY physical column
   (validity bit + raw value, arbitrary garbage under nulls):
   - the safe result is, row by row, f applied to the valid values; nulls stay null;
   - the strict run fails iff some VALID value fails;
   - when the strict run succeeds it returns exactly the safe result. *)
Theorem strict_safe_dual : forall (f : Z -> option Z) (c : column),
  logical (unary_opt f c) = map (fun x => match x with Some v => f v | None => None end) (logical c)
  /\ (try_unary f c = None <-> exists v, In (true, v) c /\ f v = None)
  /\ (forall r, try_unary f c = Some r -> r = unary_opt f c).
Proof. exact (fun f c => conj (unary_opt_logical f c) (conj (try_unary_none f c) (try_unary_some f c))). Qed.
Print Assumptions strict_safe_dual.

(* The same for the modelled cast itself: for every pair of modelled types whose arm has a safe and
   a strict reading (every arm except the decimal fast path and the calendar arms), safe mode
   succeeds with f applied row-wise, strict mode errs iff a valid value fails, and otherwise both
   modes return the same logical column. *)
Theorem cast_strict_safe_dual : forall a b f c, value_fn (kernel_of a b) = Some f ->
  exists r, cast_model a b true c = ROk r
    /\ logical r = spec_safe f (logical c)
    /\ (cast_model a b false c = RErr <-> exists v, In (true, v) c /\ f v = None)
    /\ (forall r', cast_model a b false c = ROk r' -> logical r' = logical r).
Proof. exact C13_Col.cast_strict_safe_dual. Qed.
Print Assumptions cast_strict_safe_dual.

(* M refines S on columns: if the arm's per-value function agrees with a specification conversion
   on the valid values of the column, the whole cast (either mode) is the specification cast. *)
Theorem cast_model_refines_spec : forall a b f conv safe c,
  value_fn (kernel_of a b) = Some f ->
  (forall v, In (true, v) c -> f v = conv v) ->
  match cast_model a b safe c with
  | ROk r => spec_cast conv safe (logical c) = Some (logical r)
  | RErr => spec_cast conv safe (logical c) = None
  | RPanic => False
  end.
Proof. exact C13_Col.cast_model_refines_spec. Qed.
Print Assumptions cast_model_refines_spec.

(* integer -> integer on a whole physical column, either CastOptions.safe value, any widths: the
   modelled cast IS the specification cast of the logical column (strict: error iff some valid value
   is outside the target range; safe: nulls exactly there; nulls stay null; never a panic) *)
Theorem int_column_cast : forall b1 s1 b2 s2 safe c,
  (forall v, In (true, v) c -> fits b1 s1 v = true) ->
  match cast_model (TInt b1 s1) (TInt b2 s2) safe c with
  | ROk r => spec_cast (num_cast b2 s2) safe (logical c) = Some (logical r)
  | RErr => spec_cast (num_cast b2 s2) safe (logical c) = None
  | RPanic => False
  end.
Proof. exact int_column_cast_spec. Qed.
Print Assumptions int_column_cast.

(* decimal -> decimal on a whole physical column, either mode, every width / precision / scale pair
   within the stated arithmetic limits: provided every RAW slot (the ones under nulls too — the fast
   path visits them) is within the declared input precision, the modelled cast is the specification
   cast: rescale with round half away from zero, null / error beyond the output precision *)
Theorem decimal_column_cast : forall w1 p1 s1 w2 p2 s2 safe c,
  In w1 [32; 64; 128; 256] -> In w2 [32; 64; 128; 256] ->
  dec_type_ok w1 p1 s1 = true -> dec_type_ok w2 p2 s2 = true ->
  - 127 <= s2 - s1 <= 127 -> p1 + (s2 - s1) <= 127 -> (s1 <= s2 -> s2 - s1 <= dec_maxp w2) ->
  (forall b v, In (b, v) c -> Z.abs v < 10 ^ p1) ->
  match cast_model (TDec w1 p1 s1) (TDec w2 p2 s2) safe c with
  | ROk r => spec_cast (dec_dec_spec s1 p2 s2) safe (logical c) = Some (logical r)
  | RErr => spec_cast (dec_dec_spec s1 p2 s2) safe (logical c) = None
  | RPanic => False
  end.
Proof. exact decimal_column_cast_spec. Qed.
Print Assumptions decimal_column_cast.

(* integer -> integer, all widths and signs (abstract widths): the value is kept iff it lies in
   the target range, otherwise null / error *)
Theorem int_cast_exact : forall b1 s1 b2 s2 v, fits b1 s1 v = true ->
  kernel_value (kernel_of (TInt b1 s1) (TInt b2 s2)) v = Some (if fits b2 s2 v then Some v else None).
Proof. exact C13_Int.int_cast_exact. Qed.
Print Assumptions int_cast_exact.

(* lossless inverse, integers: a value that survives a -> b is unchanged and b -> a returns it *)
Theorem lossless_inverse_int : forall b1 s1 b2 s2 v w, fits b1 s1 v = true ->
  kernel_value (kernel_of (TInt b1 s1) (TInt b2 s2)) v = Some (Some w) ->
  w = v /\ kernel_value (kernel_of (TInt b2 s2) (TInt b1 s1)) w = Some (Some v).
Proof. exact int_cast_inverse. Qed.
Print Assumptions lossless_inverse_int.

(* make_downscaler's "divide, compare the remainder with +-half" is round half away from zero *)
Theorem decimal_round_half_away : forall div x, 0 < div -> Z.even div = true ->
  downscale div x = round_half_away div x.
Proof. exact downscale_is_round_half_away. Qed.
Print Assumptions decimal_round_half_away.

(* decimal -> decimal, every width pair, every precision / scale the types allow: for a value within
   its declared precision the arm chosen by cast_decimal_to_decimal(_same_type) — clone, upscale via
   the 10^k table with checked multiply, downscale with manual rounding, all-zero shortcut, or the
   unchecked fast path — yields exactly the rescaled value (round half away from zero) when it has
   at most p2 digits, and a null / error otherwise; it never panics.  Hypotheses: the scale and
   precision arithmetic stays within i8 (it is done in i8 by the code) and, when upscaling, the
   scale difference is within the 10^k table of the output width (otherwise the real code refuses
   every input). *)
Theorem decimal_rescale_exact : forall w1 p1 s1 w2 p2 s2 x,
  In w1 [32; 64; 128; 256] -> In w2 [32; 64; 128; 256] ->
  dec_type_ok w1 p1 s1 = true -> dec_type_ok w2 p2 s2 = true ->
  - 127 <= s2 - s1 <= 127 -> p1 + (s2 - s1) <= 127 ->
  (s1 <= s2 -> s2 - s1 <= dec_maxp w2) ->
  Z.abs x < 10 ^ p1 ->
  kernel_value (dec_dec_kernel w1 p1 s1 w2 p2 s2) x
  = Some (let r := if s1 <=? s2 then x * 10 ^ (s2 - s1) else round_half_away (10 ^ (s1 - s2)) x in
          if Z.abs r <? 10 ^ p2 then Some r else None).
Proof. exact dec_dec_kernel_exact. Qed.
Print Assumptions decimal_rescale_exact.

(* the fast path that skips validation is sound under "values within the declared precision" *)
Theorem infallible_path_sound : forall w1 p1 s1 w2 p2 s2 f x,
  In w1 [32; 64; 128; 256] -> In w2 [32; 64; 128; 256] ->
  dec_type_ok w1 p1 s1 = true -> dec_type_ok w2 p2 s2 = true ->
  - 127 <= s2 - s1 <= 127 -> p1 + (s2 - s1) <= 127 -> (s1 <= s2 -> s2 - s1 <= dec_maxp w2) ->
  dec_dec_kernel w1 p1 s1 w2 p2 s2 = KUnwrap f ->
  Z.abs x < 10 ^ p1 ->
  exists r, f x = Some r /\ Z.abs r < 10 ^ p2 /\ fits w2 true r = true /\ r = rescale_spec s1 s2 x.
Proof. exact C13_Rescale.infallible_path_sound. Qed.
Print Assumptions infallible_path_sound.

(* ... and only under it: a raw value under a NULL that does not fit the output native type makes
   the fast path panic (Decimal128(5,0) -> Decimal32(9,2), one null slot holding 2^100) *)
Theorem infallible_path_garbage_refuted :
  exists c, logical c = [None] /\ run_kernel (dec_dec_kernel 128 5 0 32 9 2) true c = RPanic.
Proof. exact C13_Rescale.infallible_path_garbage_refuted. Qed.
Print Assumptions infallible_path_garbage_refuted.

(* lossless inverse, decimals (specification level): upscaling then downscaling returns the value *)
Theorem lossless_inverse_decimal : forall s1 p1 s2 p2 x y, s1 <= s2 -> Z.abs x < 10 ^ p1 ->
  dec_dec_spec s1 p2 s2 x = Some y -> dec_dec_spec s2 p1 s1 y = Some x.
Proof. exact decimal_upscale_inverse. Qed.
Print Assumptions lossless_inverse_decimal.

(* lossless inverse, decimals, at the level of the modelled kernels: a value that survives the
   upscale (w1,p1,s1) -> (w2,p2,s2) is returned by the cast back, whatever arms (checked, fast path,
   different native widths) the two directions take *)
Theorem lossless_inverse_decimal_kernels : forall w1 p1 s1 w2 p2 s2 x y,
  In w1 [32; 64; 128; 256] -> In w2 [32; 64; 128; 256] ->
  dec_type_ok w1 p1 s1 = true -> dec_type_ok w2 p2 s2 = true ->
  s1 <= s2 -> s2 - s1 <= 127 -> p1 + (s2 - s1) <= 127 -> s2 - s1 <= dec_maxp w2 ->
  Z.abs x < 10 ^ p1 ->
  kernel_value (dec_dec_kernel w1 p1 s1 w2 p2 s2) x = Some (Some y) ->
  kernel_value (dec_dec_kernel w2 p2 s2 w1 p1 s1) y = Some (Some x).
Proof. exact decimal_kernel_inverse. Qed.
Print Assumptions lossless_inverse_decimal_kernels.

(* integer -> decimal with a non-negative scale: v * 10^s when it has at most p digits, else null / error *)
Theorem int_decimal_exact : forall bits sg w p s v, In w [32; 64; 128; 256] ->
  1 <= p <= dec_maxp w -> 0 <= s <= dec_maxp w ->
  kernel_value (int_dec_kernel bits sg w p s) v
  = Some (let r := v * 10 ^ s in if Z.abs r <? 10 ^ p then Some r else None).
Proof. exact int_decimal_exact_explicit. Qed.
Print Assumptions int_decimal_exact.

(* decimal -> integer with a non-negative scale: division by 10^s truncated toward zero, kept iff
   it lies in the target integer range *)
Theorem decimal_int_exact : forall w s obits osg v, In w [32; 64; 128; 256] -> 0 <= s <= dec_maxp w ->
  kernel_value (dec_int_kernel w s obits osg) v = Some (num_cast obits osg (Z.quot v (10 ^ s))).
Proof. exact C13_Rescale.decimal_int_exact. Qed.
Print Assumptions decimal_int_exact.

(* timestamp / duration unit changes: to a finer unit the result is the exact product, to a coarser
   unit the exact quotient truncated toward zero *)
Theorem temporal_unit_exact : forall u1 u2 v w, In u1 [0; 1; 2; 3] -> In u2 [0; 1; 2; 3] ->
  kernel_value (unit_change_kernel u1 u2) v = Some (Some w) ->
  (unit_mult u1 <= unit_mult u2 -> w * unit_mult u1 = v * unit_mult u2)
  /\ (unit_mult u2 < unit_mult u1 -> w = Z.quot (v * unit_mult u2) (unit_mult u1)).
Proof. exact C13_Int.temporal_unit_exact. Qed.
Print Assumptions temporal_unit_exact.

(* ... null / error exactly when the exact product leaves i64 *)
Theorem temporal_unit_overflow : forall u1 u2 v, In u1 [0; 1; 2; 3] -> In u2 [0; 1; 2; 3] ->
  kernel_value (unit_change_kernel u1 u2) v = Some None <->
  unit_mult u1 < unit_mult u2 /\ fits 64 true (v * Z.quot (unit_mult u2) (unit_mult u1)) = false.
Proof. exact C13_Int.temporal_unit_overflow. Qed.
Print Assumptions temporal_unit_overflow.

(* lossless inverse, time units *)
Theorem lossless_inverse_temporal : forall u1 u2 v w, In u1 [0; 1; 2; 3] -> In u2 [0; 1; 2; 3] ->
  unit_mult u1 <= unit_mult u2 ->
  kernel_value (unit_change_kernel u1 u2) v = Some (Some w) ->
  kernel_value (unit_change_kernel u2 u1) w = Some (Some v).
Proof. exact temporal_unit_inverse. Qed.
Print Assumptions lossless_inverse_temporal.

(* Date32 -> Date64 is exact, never overflows, and Date64 -> Date32 returns the day *)
Theorem date32_date64_exact : forall v, fits 32 true v = true ->
  kernel_value (kernel_of TDate32 TDate64) v = Some (Some (v * 86400000))
  /\ fits 64 true (v * 86400000) = true
  /\ kernel_value (kernel_of TDate64 TDate32) (v * 86400000) = Some (Some v).
Proof. exact C13_Int.date32_date64_exact. Qed.
Print Assumptions date32_date64_exact.

(* integer text: the parser of arrow-cast (atoi with checked accumulation, trimming rules of
   parser_primitive!) applied to the decimal rendering of any value of the type returns it *)
Theorem int_text_roundtrip : forall bits sg v, 1 <= bits -> fits bits sg v = true ->
  parse_int bits sg (fmt_int v) = Some v.
Proof. exact C13_TextIntEq.int_text_roundtrip. Qed.
Print Assumptions int_text_roundtrip.

(* M = S for integer parsing, on EVERY byte string: the parser of arrow-cast (conditional trimming,
   two atoi attempts, checked accumulation that keeps consuming digits after an overflow) accepts
   exactly  blanks* [+-]? digit+ blanks*  with the value in the range of the type, and returns it *)
Theorem int_parse_model_is_spec : forall bits sg s, 1 <= bits ->
  parse_int bits sg s = parse_int_spec bits sg s.
Proof. exact parse_int_eq_spec. Qed.
Print Assumptions int_parse_model_is_spec.

(* decimal text, the real parser: for every decimal type (w, p, s) with a non-negative scale and every
   value within the declared precision, the Utf8 -> Decimal cast (parse_string_to_decimal_native:
   trim, sign, 19-digit u64 chunks folded with checked multiply / add, rounding digit, then the
   precision check) applied to the text the Decimal -> Utf8 cast produces (format_decimal_str: sign,
   leading "0.", zero padding) is defined and returns the value *)
Theorem decimal_text_roundtrip : forall w p s v,
  In w [32; 64; 128; 256] -> 1 <= p <= dec_maxp w -> 0 <= s <= dec_maxs w -> Z.abs v < 10 ^ p ->
  exists f, cast_str_dec w p s = Some f /\ f (fmt_dec v p s) = Some v.
Proof. exact C13_TextDec.decimal_text_roundtrip. Qed.
Print Assumptions decimal_text_roundtrip.

(* the same for the specification reader of decimal literals (sign, digits, one point, round half
   away from zero) that the correspondence run compares the real parser with on arbitrary strings *)
Theorem decimal_text_roundtrip_spec : forall w p s v,
  In w [32; 64; 128; 256] -> 1 <= p <= dec_maxp w -> 0 <= s -> Z.abs v < 10 ^ p ->
  parse_dec_spec w p s (fmt_dec v p s) = Some v.
Proof. exact C13_TextDec.decimal_text_roundtrip_spec. Qed.
Print Assumptions decimal_text_roundtrip_spec.

(* Interval(MonthDayNano) -> Duration(unit): defined exactly on the intervals without a calendar part,
   BOTH months = 0 and days = 0 being required; the value is the nanosecond count in the target unit
   truncated toward zero *)
Theorem interval_to_duration_exact : forall u m d n, - 2 ^ 31 <= d < 2 ^ 31 -> - 2 ^ 63 <= n < 2 ^ 63 ->
  mdn_to_dur u (pack_mdn m d n) = if (m =? 0) && (d =? 0) then Some (Z.quot n (dur_scale u)) else None.
Proof. exact mdn_to_dur_exact. Qed.
Print Assumptions interval_to_duration_exact.

(* strict / safe agreement for every modelled interval cast (MonthDayNano <-> Duration, YearMonth /
   DayTime -> MonthDayNano, Int32 -> YearMonth) on a whole physical column: strict mode errs iff some
   VALID row is not representable, safe mode nulls exactly those rows, rows under a null never matter *)
Theorem interval_cast_strict_safe : forall kind u conv safe c, interval_conv kind u = Some conv ->
  match run_kernel (interval_kernel kind u) safe c with
  | ROk r => spec_cast conv safe (logical c) = Some (logical r)
  | RErr => spec_cast conv safe (logical c) = None
  | RPanic => False
  end.
Proof. exact interval_cast_refines. Qed.
Print Assumptions interval_cast_strict_safe.

(* lossless inverse: Duration -> Interval(MonthDayNano) -> Duration returns the value *)
Theorem lossless_inverse_duration_interval : forall u v w, dur_to_mdn u v = Some w -> mdn_to_dur u w = Some v.
Proof. exact dur_mdn_roundtrip. Qed.
Print Assumptions lossless_inverse_duration_interval.

(* text form of the time part of Interval(DayTime) / Interval(MonthDayNano) (MillisecondsFormatter /
   NanosecondsFormatter): the printed hours, mins, secs and sub-second fields recompose to the count and
   every lower field stays below its carry bound (|mins| < 60, |secs| < 60, |sub| < units per second) *)
Theorem interval_text_fields_exact : forall U v, 0 < U ->
  v = ((hms_hours U v * 60 + hms_mins U v) * 60 + hms_secs U v) * U + hms_sub U v
  /\ Z.abs (hms_mins U v) < 60 /\ Z.abs (hms_secs U v) < 60 /\ Z.abs (hms_sub U v) < U.
Proof. exact hms_decomposition. Qed.
Print Assumptions interval_text_fields_exact.
