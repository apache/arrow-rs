(* C02 — property theorems only.  "An array read back through its accessors yields exactly the values
   and nulls it was built from; `==` holds exactly when type, length, null positions and values
   coincide, whatever the physical layout; row-wise kernels commute with row selection."
   [logical] (Model/C02_Logical.v) is the column a physical layout denotes; [equal] (Model/C02_Equal.v)
   transcribes arrow-data/src/equal/*.rs; [build_*] transcribe the typed builders.  The correspondence
   run ties [logical] to the real accessors / iterators, [equal] to the real `==`, [build_*] to the
   real builders and [slice] to Array::slice / ArrayData::slice on every generated layout. *)
From Coq Require Import List Arith NArith ZArith Bool.
From AV Require Import Base.Bytes Model.C09_Layout Model.C02_Logical Model.C02_Equal Model.C02_Rows.
From AV Require Import Proofs.C02_Rows Proofs.C02_Readback Proofs.C02_EqualNulls Proofs.C02_EqualPrim Proofs.C02_EqualBool Proofs.C02_EqualBin Proofs.C02_EqualList Proofs.C02_EqualDict Proofs.C02_EqualStruct Proofs.C02_EqualFixedList.
Import ListNotations.

(* ---- slicing is a window on the logical content: EVERY modelled type (Null, Boolean, fixed width,
   FixedSizeBinary, (Large)Binary/Utf8, views, (Large)List, ListView, FixedSizeList, Struct, Dictionary,
   RunEndEncoded), any offset, with or without validity *)
Theorem slice_logical : forall a o n, o + n <= p_len a ->
  logical (slice a o n) = firstn n (skipn o (logical a)).
Proof. exact slice_logical_all. Qed.
Print Assumptions slice_logical.

(* the slot i of a slice IS the slot o+i of the array (no bound needed) *)
Theorem slice_slot : forall a o n i, logical_at (slice a o n) i = logical_at a (o + i).
Proof. exact logical_at_slice. Qed.
Print Assumptions slice_slot.

(* StructArray::slice (every field sliced, offset reset to 0) *)
Theorem slice_logical_struct : forall fs len off nulls bufs kids o n, o + n <= len ->
  logical (slice_struct (PArr (TStruct fs) len off nulls bufs kids) o n)
  = firstn n (skipn o (logical (PArr (TStruct fs) len off nulls bufs kids))).
Proof. exact slice_struct_logical. Qed.
Print Assumptions slice_logical_struct.

(* finding F3: ArrayData::slice on a Struct (offset advanced AND children sliced) does not denote the window *)
Theorem slice_arraydata_struct_refuted :
  exists a o n, o + n <= p_len a /\ logical (slice_data_struct a o n) <> firstn n (skipn o (logical a)).
Proof. exact arraydata_slice_struct_refuted. Qed.
Print Assumptions slice_arraydata_struct_refuted.

(* ---- read-back: the builder-made array denotes the appended column *)
Theorem readback_primitive : forall w vs, prim_col w vs -> logical (build_prim w vs) = vs.
Proof. exact readback_prim. Qed.
Print Assumptions readback_primitive.

Theorem readback_boolean : forall vs, bool_col vs -> logical (build_bool vs) = vs.
Proof. exact readback_bool. Qed.
Print Assumptions readback_boolean.

Theorem readback_binary : forall large utf8 vs, bin_col vs ->
  (N.of_nat (total_len vs) < 2 ^ N.of_nat (8 * offw large - 1))%N ->
  logical (build_bin large utf8 vs) = vs.
Proof. exact readback_bin. Qed.
Print Assumptions readback_binary.

Theorem readback_fixed_size_binary : forall n vs, fixedbin_col n vs -> logical (build_fixedbin n vs) = vs.
Proof. exact readback_fixedbin. Qed.
Print Assumptions readback_fixed_size_binary.

(* ---- equality: the transcribed arrow-data algorithm answers true exactly when type and logical
   column coincide — any offsets, validity present or absent, arbitrary payload under nulls *)
Theorem equal_iff_logical_primitive : forall w a b,
  p_ty a = TFixed w -> spec_node a = true -> spec_node b = true ->
  wf_bytes (buf a 0) -> wf_bytes (buf b 0) ->
  (equal a b = true <-> p_ty a = p_ty b /\ logical a = logical b).
Proof. exact equal_iff_logical_prim. Qed.
Print Assumptions equal_iff_logical_primitive.

Theorem equal_iff_logical_boolean : forall a b,
  p_ty a = TBool -> spec_node a = true -> spec_node b = true ->
  wf_bytes (buf a 0) -> wf_bytes (buf b 0) ->
  (equal a b = true <-> p_ty a = p_ty b /\ logical a = logical b).
Proof. exact equal_iff_logical_bool. Qed.
Print Assumptions equal_iff_logical_boolean.

Theorem equal_iff_logical_binary : forall large utf8 a b,
  p_ty a = TBin large utf8 -> spec_node a = true -> spec_node b = true ->
  (equal a b = true <-> p_ty a = p_ty b /\ logical a = logical b).
Proof. exact equal_iff_logical_bin. Qed.
Print Assumptions equal_iff_logical_binary.

Theorem equal_iff_logical_fixed_size_binary : forall s a b,
  p_ty a = TFixedBin s -> spec_node a = true -> spec_node b = true ->
  (equal a b = true <-> p_ty a = p_ty b /\ logical a = logical b).
Proof. exact equal_iff_logical_fixedbin. Qed.
Print Assumptions equal_iff_logical_fixed_size_binary.

(* the comparators on an arbitrary compared range (the form list / struct / dictionary recursion calls) *)
Theorem primitive_equal_range : forall w a b ls rs n,
  (p_off a + ls + n) * w <= length (buf a 0) -> (p_off b + rs + n) * w <= length (buf b 0) ->
  (forall i, i < n -> slot_valid a (ls + i) = slot_valid b (rs + i)) ->
  (primitive_equal w a b ls rs n = true
   <-> forall i, i < n -> slot_valid a (ls + i) = true ->
         chunk (buf a 0) w (p_off a + ls + i) = chunk (buf b 0) w (p_off b + rs + i)).
Proof. exact primitive_equal_iff. Qed.
Print Assumptions primitive_equal_range.

Theorem variable_sized_equal_range : forall w a b ls rs n,
  bin_ok a w -> bin_ok b w -> ls + n <= p_len a -> rs + n <= p_len b ->
  (forall i, i < n -> slot_valid a (ls + i) = slot_valid b (rs + i)) ->
  (variable_sized_equal w a b ls rs n = true
   <-> forall i, i < n -> slot_valid a (ls + i) = true -> bin_slice a w (ls + i) = bin_slice b w (rs + i)).
Proof. exact variable_sized_equal_iff. Qed.
Print Assumptions variable_sized_equal_range.

(* (Large)List, compositional: IF comparing the children on every range decides equality of the windows of
   the child's logical column, THEN list_equal (empty-children shortcut, null counts, the null-free path
   lengths_equal + ONE child range, the per-slot path) decides equality of the list slots, each slot being
   the window [offsets[j], offsets[j+1]) of the child's column *)
Theorem list_equal_range : forall (large nullable : bool) (c : dty) (alen aoff : nat) (anulls : option nullbuf)
    (abufs : list (list N)) (ka : parr) (akids : list parr) (b kb : parr) (bkids : list parr),
  let a := PArr (TList large nullable c) alen aoff anulls abufs (ka :: akids) in
  p_kids b = kb :: bkids ->
  offs_ok a (offw large) (p_len ka) -> offs_ok b (offw large) (p_len kb) ->
  (forall s1 s2 m, s1 + m <= p_len ka -> s2 + m <= p_len kb ->
     (equal_nulls ka kb s1 s2 m && equal_values ka kb s1 s2 m = true
      <-> window (logical ka) s1 m = window (logical kb) s2 m)) ->
  forall ls rs n, ls + n <= alen -> rs + n <= p_len b ->
  (forall i, i < n -> slot_valid a (ls + i) = slot_valid b (rs + i)) ->
  (equal_values a b ls rs n = true
   <-> forall i, i < n -> slot_valid a (ls + i) = true -> lslice large a ka (ls + i) = lslice large b kb (rs + i)).
Proof. exact list_equal_iff. Qed.
Print Assumptions list_equal_range.

(* instance: (Large)List of a fixed-width child — `==` exactly when type and logical column coincide
   (non-zero first offsets, unreferenced child slots, nulls at both levels with arbitrary payload) *)
Theorem equal_iff_logical_list_of_primitive : forall large nullable w a b,
  p_ty a = TList large nullable (TFixed w) -> spec_node a = true -> spec_node b = true ->
  (forall k, In k (p_kids a) -> spec_node k = true /\ wf_bytes (buf k 0)) ->
  (forall k, In k (p_kids b) -> spec_node k = true /\ wf_bytes (buf k 0)) ->
  (equal a b = true <-> p_ty a = p_ty b /\ logical a = logical b).
Proof. exact equal_iff_logical_list_prim. Qed.
Print Assumptions equal_iff_logical_list_of_primitive.

(* Dictionary, compositional: the code compares dictionaries by the values their keys select — permuted,
   duplicated and unused dictionary entries are irrelevant.  (Key validity itself is compared by equal_nulls:
   a valid key selecting a null value and a null key are told apart, see the findings.) *)
Theorem dictionary_equal_range : forall (kw : nat) (signed : bool) (v : dty) (alen aoff : nat) (anulls : option nullbuf)
    (abufs : list (list N)) (ka : parr) (akids : list parr) (b kb : parr) (bkids : list parr),
  let a := PArr (TDict kw signed v) alen aoff anulls abufs (ka :: akids) in
  p_kids b = kb :: bkids ->
  (forall s1 s2, s1 < p_len ka -> s2 < p_len kb ->
     (equal_nulls ka kb s1 s2 1 && equal_values ka kb s1 s2 1 = true <-> logical_at ka s1 = logical_at kb s2)) ->
  forall ls rs n, keys_ok kw signed a ka ls n -> keys_ok kw signed b kb rs n ->
  (forall i, i < n -> slot_valid a (ls + i) = slot_valid b (rs + i)) ->
  (equal_values a b ls rs n = true
   <-> forall i, i < n -> slot_valid a (ls + i) = true ->
         logical_at ka (Z.to_nat (dkey kw signed a (ls + i))) = logical_at kb (Z.to_nat (dkey kw signed b (rs + i)))).
Proof. exact dictionary_equal_iff. Qed.
Print Assumptions dictionary_equal_range.

(* Struct (ArrayData offset 0, as StructArray::to_data produces), compositional: whole-range path and
   per-slot path of struct_equal hold exactly when every valid slot has the same field values *)
Theorem struct_equal_range : forall (fs : list (bool * dty)) (alen : nat) (anulls : option nullbuf)
    (abufs : list (list N)) (akids : list parr) (b : parr),
  let a := PArr (TStruct fs) alen 0 anulls abufs akids in
  p_off b = 0 -> Forall2 range_ok akids (p_kids b) ->
  forall ls rs n,
  Forall (fun k => ls + n <= p_len k) akids -> Forall (fun k => rs + n <= p_len k) (p_kids b) ->
  (forall i, i < n -> slot_valid a (ls + i) = slot_valid b (rs + i)) ->
  (equal_values a b ls rs n = true
   <-> forall i, i < n -> slot_valid a (ls + i) = true ->
         map (fun k => logical_at k (ls + i)) akids = map (fun k => logical_at k (rs + i)) (p_kids b)).
Proof. exact struct_equal_iff. Qed.
Print Assumptions struct_equal_range.

(* FixedSizeList (any array offset), compositional *)
Theorem fixed_list_equal_range : forall (sz : Z) (nullable : bool) (c : dty) (alen aoff : nat) (anulls : option nullbuf)
    (abufs : list (list N)) (ka : parr) (akids : list parr) (b kb : parr) (bkids : list parr),
  let a := PArr (TFixedList sz nullable c) alen aoff anulls abufs (ka :: akids) in
  p_kids b = kb :: bkids -> range_ok ka kb ->
  forall ls rs n,
  (aoff + ls + n) * Z.to_nat sz <= p_len ka -> (p_off b + rs + n) * Z.to_nat sz <= p_len kb ->
  (forall i, i < n -> slot_valid a (ls + i) = slot_valid b (rs + i)) ->
  (equal_values a b ls rs n = true
   <-> forall i, i < n -> slot_valid a (ls + i) = true -> fslice sz a ka (ls + i) = fslice sz b kb (rs + i)).
Proof. exact fixed_list_equal_iff. Qed.
Print Assumptions fixed_list_equal_range.

(* equal_nulls / contains_nulls through the BitSliceIterator specification *)
Theorem equal_nulls_spec : forall a b ls rs n,
  equal_nulls a b ls rs n = true <-> (forall i, i < n -> slot_valid a (ls + i) = slot_valid b (rs + i)).
Proof. exact equal_nulls_iff. Qed.
Print Assumptions equal_nulls_spec.

(* the executable relation evaluated by the specification ops (c02.eq.spec, the input check of
   c02.congr.post) IS the relation of the property *)
Theorem logically_equal_spec : forall a b,
  logically_equal a b = true <-> (p_ty a = p_ty b /\ logical a = logical b).
Proof. exact logically_equal_iff. Qed.
Print Assumptions logically_equal_spec.

(* ---- row-wise kernels commute with row selection whenever the kernel succeeds on the whole input *)
Theorem rowwise_take : forall f xs ys idx,
  f LNull = Some LNull -> try_map_rows f xs = Some ys ->
  try_map_rows f (take_l xs idx) = Some (take_l ys idx).
Proof. exact rowwise_commutes_take. Qed.
Print Assumptions rowwise_take.

Theorem rowwise_slice : forall f xs ys o n,
  try_map_rows f xs = Some ys -> try_map_rows f (slice_l xs o n) = Some (slice_l ys o n).
Proof. exact rowwise_commutes_slice. Qed.
Print Assumptions rowwise_slice.

Theorem rowwise_concat : forall f xs1 xs2 ys1 ys2,
  try_map_rows f xs1 = Some ys1 -> try_map_rows f xs2 = Some ys2 ->
  try_map_rows f (xs1 ++ xs2) = Some (ys1 ++ ys2).
Proof. exact rowwise_commutes_concat. Qed.
Print Assumptions rowwise_concat.
