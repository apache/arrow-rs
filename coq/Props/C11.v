(* C11 — property theorems only: each closed by [exact] and followed by Print Assumptions.
   Model: coq/Model/C11_Row.v ([enc]/[enc_row] = RowConverter::convert_columns bytes, [dec]/[dec_row] =
   convert_rows, [cmp_field]/[row_cmp] = logical comparison under SortOptions, [lex] = Row::cmp). *)
From Coq Require Import List ZArith NArith.
From AV Require Import Model.C11_Row Proofs.C11_Lex Proofs.C11_Fixed Proofs.C11_Var Proofs.C11_Unfold Proofs.C11_Field Proofs.C11_Nested Proofs.C11_RowOrder Proofs.C11_Decode.
Import ListNotations.
Local Open Scope N_scope.

(* ROW ORDER: byte-wise comparison of two encoded rows = lexicographic comparison of the value
   tuples under the per-field SortOptions; for every list of (nested) field types and options. *)
Theorem row_order : forall (fs : list field) (r1 r2 : list value),
  Forall (fun f : field => wf_type (fst f)) fs -> wt_row fs r1 -> wt_row fs r2 ->
  lex (enc_row fs r1) (enc_row fs r2) = row_cmp fs r1 r2.
Proof. exact row_order_thm. Qed.
Print Assumptions row_order.

(* ... and rows are prefix-free: whatever bytes follow (further columns, as in nested use) never
   influence the comparison unless the rows are logically equal. *)
Theorem row_order_strong : forall (fs : list field) (r1 r2 : list value) (x y : list N),
  Forall (fun f : field => wf_type (fst f)) fs -> wt_row fs r1 -> wt_row fs r2 ->
  lex (enc_row fs r1 ++ x) (enc_row fs r2 ++ y) = match row_cmp fs r1 r2 with Eq => lex x y | c => c end.
Proof. exact (fun fs r1 r2 x y Wf => enc_row_strong fs Wf r1 r2 x y). Qed.
Print Assumptions row_order_strong.

(* INJECTIVE: two rows are byte-equal exactly when all their values are equal. *)
Theorem row_injective : forall (fs : list field) (r1 r2 : list value),
  Forall (fun f : field => wf_type (fst f)) fs -> wt_row fs r1 -> wt_row fs r2 ->
  (enc_row fs r1 = enc_row fs r2 <-> r1 = r2).
Proof. exact row_injective_thm. Qed.
Print Assumptions row_injective.

(* the logical comparison is Eq exactly on equal tuples (so Eq of Row::cmp means logical equality) *)
Theorem row_cmp_eq : forall (fs : list field) (r1 r2 : list value),
  Forall (fun f : field => wf_type (fst f)) fs -> wt_row fs r1 -> wt_row fs r2 ->
  (row_cmp fs r1 r2 = Eq <-> r1 = r2).
Proof. exact row_cmp_eq_iff. Qed.
Print Assumptions row_cmp_eq.

(* the boolean equality used by the c11.cmp.spec oracle decides equality of value tuples *)
Theorem row_eqb_spec : forall r1 r2 : list value, row_eqb r1 r2 = true <-> r1 = r2.
Proof. exact row_eqb_eq. Qed.
Print Assumptions row_eqb_spec.

(* INVERTIBLE: decoding an encoded row (followed by anything) returns the original values. *)
Theorem decode_encode_row : forall (fs : list field) (r : list value) (rest : list N),
  Forall (fun f : field => wf_type (fst f)) fs -> wt_row fs r ->
  dec_row fs (enc_row fs r ++ rest) = r.
Proof. exact dec_enc_row. Qed.
Print Assumptions decode_encode_row.

Theorem decode_encode_field : forall (t : ftype), wf_type t -> forall (o : opts) (v : value) (rest : list N),
  wt t v -> dec t o (enc t o v ++ rest) = (v, rest).
Proof. exact dec_enc. Qed.
Print Assumptions decode_encode_field.

(* rows appended later / converted from other arrays: the encoding of a row depends on the row only *)
Theorem append_independent : forall (fs : list field) (a b : list (list value)),
  map (enc_row fs) (a ++ b) = map (enc_row fs) a ++ map (enc_row fs) b.
Proof. exact (fun fs => map_app (enc_row fs)). Qed.
Print Assumptions append_independent.

(* PER FIELD: every field encoder (fixed width, variable length, struct, list, fixed-size list,
   run-end encoded; any nesting) is strongly order preserving under every SortOptions: this packs
   order preservation, injectivity and prefix-freeness. *)
Theorem field_order_strong : forall (t : ftype) (o : opts) (a b : value) (x y : list N),
  wf_type t -> wt t a -> wt t b ->
  lex (enc t o a ++ x) (enc t o b ++ y) = match cmp_field t o a b with Eq => lex x y | c => c end.
Proof. exact (fun t o a b x y Wt Wa Wb => enc_strong t Wt o a b x y Wa Wb). Qed.
Print Assumptions field_order_strong.

(* Variable-length values: empty / non-empty sentinels, 4 mini blocks of 8 bytes, then blocks of 32
   bytes with continuation bytes and the final length byte: strong for byte strings of EVERY length
   (the 8- and 32-byte boundaries are induction steps, embedded 0x00 / 0xFF bytes are arbitrary). *)
Theorem var_order_strong : forall (nf : bool) (v w x y : list N),
  lex (encode_one (mkOpts false nf) (Some v) ++ x) (encode_one (mkOpts false nf) (Some w) ++ y)
  = match lex v w with Eq => lex x y | c => c end.
Proof. exact var_strong_asc. Qed.
Print Assumptions var_order_strong.

(* the row length pre-computed by row_lengths (padded_length, which the writes into the pre-sized
   buffer rely on) is exactly the number of bytes encode_one produces, for null / empty / any length *)
Theorem lengths_exact : forall (o : opts) (v : option (list N)),
  length (encode_one o v) = padded_length (option_map (@length N) v).
Proof. exact encode_one_length. Qed.
Print Assumptions lengths_exact.

(* decode_blocks returns the (still inverted) data and the exact number of bytes consumed *)
Theorem decode_blocks_inverts : forall (o : opts) (b rest : list N),
  Forall (fun x => x < 256) b ->
  decode_blocks o (encode_one o (Some b) ++ rest) = (inv_if (descending o) b, length (encode_one o (Some b))).
Proof. exact decode_blocks_some. Qed.
Print Assumptions decode_blocks_inverts.

(* Descending = bitwise complement: sound for ANY strongly order preserving encoder (prefix-freeness
   is what makes it work), reversing the comparison. *)
Theorem descending_by_complement : forall (A : Type) (P : A -> Prop) (e : A -> list N) (c : A -> A -> comparison),
  (forall a, P a -> Forall (fun b => b < 256) (e a)) ->
  (forall a b x y, P a -> P b -> lex (e a ++ x) (e b ++ y) = match c a b with Eq => lex x y | r => r end) ->
  forall a b x y, P a -> P b ->
    lex (invert (e a) ++ x) (invert (e b) ++ y) = match CompOpp (c a b) with Eq => lex x y | r => r end.
Proof. exact @strong_invert. Qed.
Print Assumptions descending_by_complement.

(* Signed integers of any width (Int8..Int64, Decimal128/256 …): big-endian with the sign bit flipped. *)
Theorem signed_int_order : forall (w : nat) (a b : Z), (1 <= w)%nat ->
  (- Z.of_N (2 ^ (8 * N.of_nat w - 1)) <= a < Z.of_N (2 ^ (8 * N.of_nat w - 1)))%Z ->
  (- Z.of_N (2 ^ (8 * N.of_nat w - 1)) <= b < Z.of_N (2 ^ (8 * N.of_nat w - 1)))%Z ->
  lex (encode_signed w a) (encode_signed w b) = (a ?= b)%Z.
Proof. exact signed_order. Qed.
Print Assumptions signed_int_order.

(* Floats: the xor/shift key followed by the sign flip orders bit patterns by IEEE totalOrder
   (-NaN < -inf < … < -0 < +0 < … < +inf < +NaN, NaN payloads ordered). *)
Theorem float_total_order : forall (w : nat) (a b : Z), (1 <= w)%nat ->
  (0 <= a < Z.of_N (2 ^ (8 * N.of_nat w)))%Z -> (0 <= b < Z.of_N (2 ^ (8 * N.of_nat w)))%Z ->
  lex (encode_float w a) (encode_float w b) = total_cmp (Z.of_N (2 ^ (8 * N.of_nat w - 1))) a b.
Proof. exact float_order. Qed.
Print Assumptions float_total_order.

(* the float key, arithmetically: non-negative patterns are kept, negative ones get their low bits flipped *)
Theorem float_key_spec : forall (w : nat) (u : N), (1 <= w)%nat -> u < 2 ^ (8 * N.of_nat w) ->
  float_key w u = if u <? 2 ^ (8 * N.of_nat w - 1) then u else 3 * 2 ^ (8 * N.of_nat w - 1) - 1 - u.
Proof. exact float_key_arith. Qed.
Print Assumptions float_key_spec.

(* the specification itself: nulls_first decides the place of nulls whatever the direction *)
Theorem nulls_placement : forall (t : ftype) (o : opts) (a : value),
  match t with TRee _ => False | _ => True end -> a <> VNull ->
  cmp_field t o VNull a = (if nulls_first o then Lt else Gt) /\
  cmp_field t o a VNull = (if nulls_first o then Gt else Lt).
Proof. exact cmp_field_null. Qed.
Print Assumptions nulls_placement.
