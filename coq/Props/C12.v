(* C12 — property theorems only: each closed by [exact] or in a line or two and followed by Print Assumptions.
   Integer types are (s, H): signed range [-H, H), unsigned range [0, 2H); every statement holds
   for every H > 0 (H = 2^7, 2^15, 2^31, 2^63, 2^127, 2^255 are the machine widths).
   i256 limbs: B = 2^64, H = 2^127 abstractly as any B, H with 0 < B, B*B = 2H. *)
From Coq Require Import List ZArith NArith Bool.
From AV Require Import Model.C12_Int Model.C12_Kernel Model.C12_I256 Model.C12_Bool Model.C12_Agg Model.C12_Decimal.
From AV Require Import Proofs.C12_Int Proofs.C12_Kernel Proofs.C12_I256 Proofs.C12_I256Mul Proofs.C12_Bool Proofs.C12_Agg Proofs.C12_Decimal.
Import ListNotations.
Local Open Scope Z_scope.

(* ---------------------------------------------------------------- scalar vocabulary *)

(* Every integer kernel closure (add/sub/mul checked and wrapping, div, rem), every width and
   signedness: the exact result when representable, Overflow otherwise; DivideByZero iff the
   divisor is 0; Overflow for div iff MIN / -1; rem(MIN, -1) = Ok 0; wrapping forms = the exact
   result reduced modulo the type width. *)
Theorem scalar_op_exact : forall (H : Z), 0 < H -> forall (s : bool) (op : aop) (a b : Z),
  in_range s H a = true -> in_range s H b = true ->
  integer_op_elem s H op a b =
    (if is_divrem op && (b =? 0) then Err E_DIVZERO
     else let z := exact_op op a b in
          if is_wrapping op then Ok (wrap s H z)
          else if in_range s H z then Ok z else Err E_OVERFLOW).
Proof. exact integer_op_elem_spec. Qed.
Print Assumptions scalar_op_exact.

(* an Ok result is always a value of the type (never a wrapped-out-of-range value) *)
Theorem scalar_op_result_in_range : forall (H : Z), 0 < H -> forall (s : bool) (op : aop) (a b z : Z),
  in_range s H a = true -> in_range s H b = true ->
  integer_op_elem s H op a b = Ok z -> in_range s H z = true.
Proof. exact integer_op_elem_in_range. Qed.
Print Assumptions scalar_op_result_in_range.

(* the reduction used by the wrapping forms: in range, and congruent to the exact value mod 2H *)
Theorem wrap_is_reduction : forall (H : Z), 0 < H -> forall (s : bool) (z : Z),
  in_range s H (wrap s H z) = true /\ exists k, wrap s H z = z + k * (2 * H).
Proof. exact (fun H Hp s z => conj (wrap_in_range H Hp s z) (wrap_cong H Hp s z)). Qed.
Print Assumptions wrap_is_reduction.

(* quotient overflow happens exactly at MIN / -1 of a signed type *)
Theorem div_overflow_iff_min_neg1 : forall (H : Z), 0 < H -> forall (s : bool) (a b : Z),
  in_range s H a = true -> in_range s H b = true -> b <> 0 ->
  in_range s H (Z.quot a b) = negb (s && (a =? tmin s H) && (b =? -1)).
Proof. exact quot_in_range. Qed.
Print Assumptions div_overflow_iff_min_neg1.

Theorem neg_checked_exact : forall (H : Z), 0 < H -> forall (s : bool) (a : Z),
  in_range s H a = true ->
  neg_checked s H a = (if in_range s H (- a) then Ok (- a) else Err E_OVERFLOW).
Proof. exact (fun H _ => neg_checked_spec H). Qed.
Print Assumptions neg_checked_exact.

(* recorded deviation of the trait method (not used by the integer kernel): mod_checked(MIN,-1)
   reports Overflow although the remainder 0 is representable *)
Theorem mod_checked_min_neg1_deviates : forall (H : Z), 0 < H ->
  mod_checked true H (- H) (-1) = Err E_OVERFLOW /\ Z.rem (- H) (-1) = 0.
Proof. exact (fun H _ => mod_checked_min_neg1 H). Qed.
Print Assumptions mod_checked_min_neg1_deviates.

(* ---------------------------------------------------------------- row machinery *)

(* try_op!/try_binary/try_unary with any fallible row function f: values under null slots are
   inert (the result depends only on `denote`), result rows are null exactly where an input row is
   null, the kernel fails iff a valid row fails; a scalar operand is broadcast. *)
Theorem try_op_rows : forall (f : Z -> Z -> res) (l_s r_s : bool) (l r : parr),
  (match a_nulls l with Some n => length n = length (a_vals l) | None => True end) ->
  (match a_nulls r with Some n => length n = length (a_vals r) | None => True end) ->
  (l_s = true -> length (a_vals l) = 1%nat) -> (r_s = true -> length (a_vals r) = 1%nat) ->
  canon (try_op f l_s r_s l r) = spec_binary_kernel f l_s r_s (denote l) (denote r).
Proof. exact try_op_spec. Qed.
Print Assumptions try_op_rows.

(* the integer kernels add/sub/mul/div/rem (+ wrapping forms), array-array and array-scalar *)
Theorem integer_kernel_rows : forall (H : Z), 0 < H ->
  forall (s : bool) (op : aop) (l_s r_s : bool) (l r : parr),
  (match a_nulls l with Some n => length n = length (a_vals l) | None => True end) ->
  (match a_nulls r with Some n => length n = length (a_vals r) | None => True end) ->
  (l_s = true -> length (a_vals l) = 1%nat) -> (r_s = true -> length (a_vals r) = 1%nat) ->
  Forall (fun x => in_range s H x = true) (a_vals l) ->
  Forall (fun x => in_range s H x = true) (a_vals r) ->
  canon (integer_op s H op l_s r_s l r)
  = spec_binary_kernel (spec_scalar s H op) l_s r_s (denote l) (denote r).
Proof. exact integer_op_spec. Qed.
Print Assumptions integer_kernel_rows.

Theorem neg_kernel_rows : forall (H : Z) (a : parr),
  (match a_nulls a with Some n => length n = length (a_vals a) | None => True end) ->
  Forall (fun x => in_range true H x = true) (a_vals a) ->
  canon (neg_kernel true H a) = spec_rows1 (spec_neg true H) (denote a).
Proof. exact (fun H a _ => neg_kernel_spec H a). Qed.
Print Assumptions neg_kernel_rows.

Theorem neg_wrapping_kernel_rows : forall (H : Z) (s : bool) (a : parr),
  (match a_nulls a with Some n => length n = length (a_vals a) | None => True end) ->
  canon (neg_wrapping_kernel s H a) = spec_rows1 (spec_neg_wrapping s H) (denote a).
Proof. exact (fun H s a _ => neg_wrapping_kernel_spec H s a). Qed.
Print Assumptions neg_wrapping_kernel_rows.

(* ---------------------------------------------------------------- i256 *)

Theorem i256_wrapping_add_exact : forall (B H : Z), 0 < B -> B * B = 2 * H -> forall a b : i256,
  (0 <= low a < 2 * H /\ - H <= high a < H) -> (0 <= low b < 2 * H /\ - H <= high b < H) ->
  (0 <= low (wrapping_add H a b) < 2 * H /\ - H <= high (wrapping_add H a b) < H) /\
  val H (wrapping_add H a b) = wrap true (H * (2 * H)) (val H a + val H b).
Proof. intros B H Bp BB a b Wa Wb. pose proof (limb_pos B H Bp BB). rewrite wrapping_add_eq by assumption. now apply rep_spec. Qed.
Print Assumptions i256_wrapping_add_exact.

Theorem i256_wrapping_sub_exact : forall (B H : Z), 0 < B -> B * B = 2 * H -> forall a b : i256,
  (0 <= low a < 2 * H /\ - H <= high a < H) -> (0 <= low b < 2 * H /\ - H <= high b < H) ->
  (0 <= low (wrapping_sub H a b) < 2 * H /\ - H <= high (wrapping_sub H a b) < H) /\
  val H (wrapping_sub H a b) = wrap true (H * (2 * H)) (val H a - val H b).
Proof. intros B H Bp BB a b Wa Wb. pose proof (limb_pos B H Bp BB). rewrite wrapping_sub_eq by assumption. now apply rep_spec. Qed.
Print Assumptions i256_wrapping_sub_exact.

Theorem i256_wrapping_neg_exact : forall (B H : Z), 0 < B -> B * B = 2 * H -> forall a : i256,
  (0 <= low a < 2 * H /\ - H <= high a < H) ->
  (0 <= low (wrapping_neg256 H a) < 2 * H /\ - H <= high (wrapping_neg256 H a) < H) /\
  val H (wrapping_neg256 H a) = wrap true (H * (2 * H)) (- val H a).
Proof. intros B H Bp BB a Wa. pose proof (limb_pos B H Bp BB). rewrite wrapping_neg_eq by assumption. now apply rep_spec. Qed.
Print Assumptions i256_wrapping_neg_exact.

(* mulx: the four 64x64 partial products with their carries give the full 128x128 product *)
Theorem i256_mulx_exact : forall (B H : Z), 0 < B -> B * B = 2 * H -> forall a b : Z,
  0 <= a < 2 * H -> 0 <= b < 2 * H ->
  mulx B H a b = ((a * b) mod (2 * H), (a * b) / (2 * H)).
Proof. exact mulx_spec. Qed.
Print Assumptions i256_mulx_exact.

Theorem i256_wrapping_mul_exact : forall (B H : Z), 0 < B -> B * B = 2 * H -> forall a b : i256,
  (0 <= low a < 2 * H /\ - H <= high a < H) -> (0 <= low b < 2 * H /\ - H <= high b < H) ->
  (0 <= low (wrapping_mul256 B H a b) < 2 * H /\ - H <= high (wrapping_mul256 B H a b) < H) /\
  val H (wrapping_mul256 B H a b) = wrap true (H * (2 * H)) (val H a * val H b).
Proof. intros B H Bp BB a b Wa Wb. rewrite (wrapping_mul_eq B H Bp BB a b Wa Wb). apply rep_spec, (limb_pos B H Bp BB). Qed.
Print Assumptions i256_wrapping_mul_exact.

(* checked add/sub/neg: Some exact value iff it is representable in 256 bits, None otherwise *)
Theorem i256_checked_add_exact : forall (B H : Z), 0 < B -> B * B = 2 * H -> forall a b : i256,
  (0 <= low a < 2 * H /\ - H <= high a < H) -> (0 <= low b < 2 * H /\ - H <= high b < H) ->
  match checked_add256 H a b with
  | Some r => (0 <= low r < 2 * H /\ - H <= high r < H) /\ val H r = val H a + val H b
              /\ in_range true (H * (2 * H)) (val H a + val H b) = true
  | None => in_range true (H * (2 * H)) (val H a + val H b) = false
  end.
Proof. intros B H Bp BB a b Wa Wb. pose proof (limb_pos B H Bp BB). rewrite checked_add_eq by assumption. now apply checked_exact. Qed.
Print Assumptions i256_checked_add_exact.

Theorem i256_checked_sub_exact : forall (B H : Z), 0 < B -> B * B = 2 * H -> forall a b : i256,
  (0 <= low a < 2 * H /\ - H <= high a < H) -> (0 <= low b < 2 * H /\ - H <= high b < H) ->
  match checked_sub256 H a b with
  | Some r => (0 <= low r < 2 * H /\ - H <= high r < H) /\ val H r = val H a - val H b
              /\ in_range true (H * (2 * H)) (val H a - val H b) = true
  | None => in_range true (H * (2 * H)) (val H a - val H b) = false
  end.
Proof. intros B H Bp BB a b Wa Wb. pose proof (limb_pos B H Bp BB). rewrite checked_sub_eq by assumption. now apply checked_exact. Qed.
Print Assumptions i256_checked_sub_exact.

Theorem i256_checked_neg_exact : forall (B H : Z), 0 < B -> B * B = 2 * H -> forall a : i256,
  (0 <= low a < 2 * H /\ - H <= high a < H) ->
  match checked_neg256 H a with
  | Some r => (0 <= low r < 2 * H /\ - H <= high r < H) /\ val H r = - val H a
              /\ in_range true (H * (2 * H)) (- val H a) = true
  | None => in_range true (H * (2 * H)) (- val H a) = false
  end.
Proof. intros B H Bp BB a Wa. pose proof (limb_pos B H Bp BB). rewrite checked_neg_eq by assumption. now apply checked_exact. Qed.
Print Assumptions i256_checked_neg_exact.

(* checked_mul (abs-split, overflow-checked partial products, sign restore, final sign check):
   Some exact product iff representable *)
Theorem i256_checked_mul_exact : forall (B H : Z), 0 < B -> B * B = 2 * H -> forall a b : i256,
  (0 <= low a < 2 * H /\ - H <= high a < H) -> (0 <= low b < 2 * H /\ - H <= high b < H) ->
  match checked_mul256 B H a b with
  | Some r => (0 <= low r < 2 * H /\ - H <= high r < H) /\ val H r = val H a * val H b
              /\ in_range true (H * (2 * H)) (val H a * val H b) = true
  | None => in_range true (H * (2 * H)) (val H a * val H b) = false
  end.
Proof. intros B H Bp BB a b Wa Wb. rewrite (checked_mul_eq B H Bp BB a b Wa Wb). apply checked_exact, (limb_pos B H Bp BB). Qed.
Print Assumptions i256_checked_mul_exact.

(* div_rem: zero and MIN / -1 detection, |a|, |b|, exact unsigned division of the magnitudes
   (the Knuth long division of bigint/div.rs is abstracted as n / d, n mod d), sign restore:
   truncating quotient and remainder with the sign of the dividend *)
Theorem i256_div_rem_exact : forall (B H : Z), 0 < B -> B * B = 2 * H -> forall a b : i256,
  (0 <= low a < 2 * H /\ - H <= high a < H) -> (0 <= low b < 2 * H /\ - H <= high b < H) ->
  match div_rem256 H a b with
  | inr k => (k = E_DIVZERO /\ val H b = 0) \/ (k = E_OVERFLOW /\ val H a = - (H * (2 * H)) /\ val H b = -1)
  | inl (q, r) => val H b <> 0 /\
                  (0 <= low q < 2 * H /\ - H <= high q < H) /\ (0 <= low r < 2 * H /\ - H <= high r < H) /\
                  val H q = Z.quot (val H a) (val H b) /\ val H r = Z.rem (val H a) (val H b)
  end.
Proof. exact (fun B H Bp BB => div_rem_spec H (limb_pos B H Bp BB)). Qed.
Print Assumptions i256_div_rem_exact.

Theorem i256_cmp_exact : forall (B H : Z), 0 < B -> B * B = 2 * H -> forall a b : i256,
  (0 <= low a < 2 * H /\ - H <= high a < H) -> (0 <= low b < 2 * H /\ - H <= high b < H) ->
  cmp256 a b = (val H a ?= val H b).
Proof. exact (fun B H Bp BB => cmp256_spec H (limb_pos B H Bp BB)). Qed.
Print Assumptions i256_cmp_exact.

(* ---------------------------------------------------------------- boolean kernels *)

(* word level: validity/value words of and_kleene / or_kleene, any garbage value bit under null *)
Theorem and_kleene_word_exact : forall (a b c d i : N), (i < 64)%N ->
  (if N.testbit (and_kleene_both a b c d) i then Some (N.testbit (N.land b d) i) else None)
  = k3_and (if N.testbit a i then Some (N.testbit b i) else None)
           (if N.testbit c i then Some (N.testbit d i) else None).
Proof. exact and_kleene_word. Qed.
Print Assumptions and_kleene_word_exact.

Theorem or_kleene_word_exact : forall (a b c d i : N), (i < 64)%N ->
  (if N.testbit (or_kleene_both a b c d) i then Some (N.testbit (N.lor b d) i) else None)
  = k3_or (if N.testbit a i then Some (N.testbit b i) else None)
          (if N.testbit c i then Some (N.testbit d i) else None).
Proof. exact or_kleene_word. Qed.
Print Assumptions or_kleene_word_exact.

(* array level, every length, all four null-buffer combinations, 64-bit word loop with zero-padded
   last word: three-valued logic row by row *)
Theorem and_kleene_rows : forall l r : barr,
  bcanon (and_kleene l r) =
  (if negb (length (bdenote l) =? length (bdenote r))%nat then inr E_INVALID_n
   else inl (bmap2 k3_and (bdenote l) (bdenote r))).
Proof. exact and_kleene_spec. Qed.
Print Assumptions and_kleene_rows.

Theorem or_kleene_rows : forall l r : barr,
  bcanon (or_kleene l r) =
  (if negb (length (bdenote l) =? length (bdenote r))%nat then inr E_INVALID_n
   else inl (bmap2 k3_or (bdenote l) (bdenote r))).
Proof. exact or_kleene_spec. Qed.
Print Assumptions or_kleene_rows.

Theorem and_or_andnot_not_rows : forall l r : barr,
  bcanon (and_k l r) = spec_bool2 (strict2 andb) (bdenote l) (bdenote r) /\
  bcanon (or_k l r) = spec_bool2 (strict2 orb) (bdenote l) (bdenote r) /\
  bcanon (and_not_k l r) = spec_bool2 (strict2 (fun a b => a && negb b)) (bdenote l) (bdenote r) /\
  bcanon (not_k l) = inl (map k3_not (bdenote l)).
Proof. exact (fun l r => conj (and_spec l r) (conj (or_spec l r) (conj (and_not_spec l r) (not_spec l)))). Qed.
Print Assumptions and_or_andnot_not_rows.

(* ---------------------------------------------------------------- aggregates *)

(* lane-split sum: for ANY lane count 2^k, any length and null pattern, the tree-reduced lane
   accumulators equal the exact sum of the non-null values reduced into the type; None iff no
   non-null value *)
Theorem sum_lanes_exact : forall (H : Z), 0 < H -> forall (s : bool) (k : nat) (a : parr),
  (match a_nulls a with Some n => length n = length (a_vals a) | None => True end) ->
  Forall (fun x => in_range s H x = true) (a_vals a) ->
  aggregate (sum_acc s H) (2 ^ k) a =
  match valid_values (denote a) with [] => None | vs => Some (wrap s H (fold_right Z.add 0 vs)) end.
Proof. exact (fun H Hp s k a W _ => sum_lanes_spec H Hp s k a W). Qed.
Print Assumptions sum_lanes_exact.

Theorem min_lanes_exact : forall (H : Z) (s : bool) (k : nat) (a : parr),
  (match a_nulls a with Some n => length n = length (a_vals a) | None => True end) ->
  Forall (fun x => in_range s H x = true) (a_vals a) ->
  aggregate (min_acc s H) (2 ^ k) a =
  match valid_values (denote a) with [] => None | v :: vs => Some (fold_left Z.min vs v) end.
Proof. exact min_lanes_spec. Qed.
Print Assumptions min_lanes_exact.

Theorem max_lanes_exact : forall (H : Z) (s : bool) (k : nat) (a : parr),
  (match a_nulls a with Some n => length n = length (a_vals a) | None => True end) ->
  Forall (fun x => in_range s H x = true) (a_vals a) ->
  aggregate (max_acc s H) (2 ^ k) a =
  match valid_values (denote a) with [] => None | v :: vs => Some (fold_left Z.max vs v) end.
Proof. exact max_lanes_spec. Qed.
Print Assumptions max_lanes_exact.

(* sum_checked: left-to-right exact sum of the non-null values, Overflow at the first partial sum
   that is not representable *)
Theorem sum_checked_exact : forall (H : Z), 0 < H -> forall (s : bool) (a : parr),
  (match a_nulls a with Some n => length n = length (a_vals a) | None => True end) ->
  sum_checked s H a = spec_sum_checked s H (denote a).
Proof. exact sum_checked_spec. Qed.
Print Assumptions sum_checked_exact.

(* ---------------------------------------------------------------- decimals *)

(* the closure decimal_op applies per row (equal-scale fast path or rescale-then-operate with the
   multipliers lm, rm): Overflow iff a rescaled operand or the result does not fit the native type,
   DivideByZero iff the rescaled divisor is 0, otherwise the exact sum / difference / product /
   truncated quotient / remainder of the rescaled operands *)
Theorem decimal_row_exact_or_error : forall (H : Z), 0 < H ->
  forall (op : dop) (same : bool) (lm rm x y : Z),
  in_range true H x = true -> in_range true H y = true ->
  (same = true -> lm = 1 /\ rm = 1) -> (op = DMul -> lm = 1 /\ rm = 1) ->
  (op = DRem -> ~ (x * lm = - H /\ y * rm = -1)) ->
  decimal_row H op same lm rm x y =
  fits H (x * lm) (fun a => fits H (y * rm) (fun b =>
    match op with
    | DAdd => fits H (a + b) Ok
    | DSub => fits H (a - b) Ok
    | DMul => fits H (a * b) Ok
    | DDiv => if b =? 0 then Err E_DIVZERO else fits H (Z.quot a b) Ok
    | DRem => if b =? 0 then Err E_DIVZERO else Ok (Z.rem a b)
    end)).
Proof. exact decimal_row_exact. Qed.
Print Assumptions decimal_row_exact_or_error.

(* the whole decimal kernel (32/64/128/256-bit natives: H = 2^31 .. 2^255, m = MAX_PRECISION =
   MAX_SCALE): documented result precision/scale (computed in the source with saturating u8/i8
   arithmetic), Overflow when a rescaling power of ten does not fit, row-wise exact-or-error
   results with nulls and scalars, InvalidArgument when the documented type is not a valid decimal
   type.  For rem an unrepresentable multiplier is reported as Overflow by model and spec alike
   (finding F17, fixed in /repo 9e1df4d: the source used pow_wrapping there); the statement only
   excludes MIN as a rescaled dividend (mod_checked reports MIN % -1 as Overflow). *)
Theorem decimal_kernel_exact : forall (H : Z), 2 <= H -> forall (m : Z), 1 <= m <= 76 ->
  forall (op : dop) (l_s r_s : bool) (p1 s1 p2 s2 : Z) (l r : parr),
  1 <= p1 <= m -> 1 <= p2 <= m -> - 40 <= s1 <= p1 -> - 40 <= s2 <= p2 ->
  1 <= fst (spec_result_type m m op p1 s1 p2 s2) ->
  (match a_nulls l with Some n => length n = length (a_vals l) | None => True end) ->
  (match a_nulls r with Some n => length n = length (a_vals r) | None => True end) ->
  (l_s = true -> length (a_vals l) = 1%nat) -> (r_s = true -> length (a_vals r) = 1%nat) ->
  Forall (fun x => in_range true H x = true) (a_vals l) ->
  Forall (fun x => in_range true H x = true) (a_vals r) ->
  (op = DRem -> Forall (fun x => x * 10 ^ (Z.max s1 s2 - s1) <> - H) (a_vals l)) ->
  (match decimal_op H m m op l_s r_s p1 s1 p2 s2 l r with
   | DOk v n p s => inl (denote (mkarr v n), (p, s))
   | DErr k => inr k
   end)
  = spec_decimal H m m op l_s r_s p1 s1 p2 s2 (denote l) (denote r).
Proof. exact decimal_op_spec. Qed.
Print Assumptions decimal_kernel_exact.
