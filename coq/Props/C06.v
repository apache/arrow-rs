(* C06 — property theorems only: each closed by [exact] and followed by Print Assumptions.
   [den] maps a RowSelection (run-length or bitmap backed) to the list of booleans "row i is
   selected"; the *_spec operations are the obvious operations on such lists
   (Model/C06_RowSel.v, section S). *)
From Coq Require Import List ZArith Arith Bool.
From AV Require Import Model.C06_RowSel Model.C06_Reader.
From AV Require Import Proofs.C06_Construct Proofs.C06_Algebra Proofs.C06_Plan Proofs.C06_Total Proofs.C06_Scan.
Import ListNotations.

(* ---- constructors *)
(* From<Vec<RowSelector>> / collect(): dropping empty selectors and merging neighbours keeps
   the selected rows, for every selector vector (empty runs, repeated kinds included) ... *)
Theorem from_selectors_den : forall l : list sel, dens (from_iter l) = dens l.
Proof. exact from_iter_dens. Qed.
Print Assumptions from_selectors_den.

(* ... and establishes the documented invariants: no empty selector, alternating kinds *)
Theorem from_selectors_normal : forall l : list sel,
  Forall (fun s : sel => snd s <> 0) (from_iter l) /\ alternating (from_iter l).
Proof. exact from_iter_normal. Qed.
Print Assumptions from_selectors_normal.

(* mask_to_selectors / MaskRunIter / iter() on a bitmap: the run-length form of a bitmap
   denotes the bitmap *)
Theorem mask_selectors_agree : forall m : list bool, dens (mask_to_selectors m) = m.
Proof. exact mask_to_selectors_dens. Qed.
Print Assumptions mask_selectors_agree.

(* from_consecutive_ranges: whenever it does not panic, row i is selected iff it lies in one
   of the ranges, for 0 <= i < total_rows *)
Theorem from_consecutive_ranges_spec : forall (rs : list (nat * nat)) (total : nat) (l : list sel),
  from_consecutive_ranges rs total = Some l ->
  dens l = map (fun i => existsb (fun r => (fst r <=? i) && (i <? snd r)) rs) (seq 0 total).
Proof. exact from_consecutive_ranges_dens. Qed.
Print Assumptions from_consecutive_ranges_spec.

(* from_filters never panics on null-free filters and denotes their concatenation *)
Theorem from_filters_spec : forall filters : list (list bool),
  exists l, from_filters filters = Some l /\ dens l = concat filters.
Proof. exact from_filters_dens. Qed.
Print Assumptions from_filters_spec.

(* ---- and_then, all four backing pairings; None = the documented panic *)
Theorem den_and_then : forall a b r : rowsel,
  and_then a b = Some r -> den r = and_then_spec (den a) (den b).
Proof. exact Proofs.C06_Plan.den_and_then. Qed.
Print Assumptions den_and_then.

(* ... and under the documented precondition (the second selection has exactly as many rows as
   the first selects; its run-length form has no empty run, as every constructor guarantees)
   no pairing panics *)
Theorem and_then_total : forall a b : rowsel,
  match b with Sels l => Forall (fun s : sel => snd s <> 0) l | Mask _ => True end ->
  count_true (den a) = length (den b) -> and_then a b <> None.
Proof. exact Proofs.C06_Total.and_then_total. Qed.
Print Assumptions and_then_total.

(* ---- intersection / union: pointwise, the longer operand's tail passes through *)
Theorem den_intersection : forall a b : rowsel, den (intersection a b) = zip_tail andb (den a) (den b).
Proof. exact Proofs.C06_Algebra.den_intersection. Qed.
Print Assumptions den_intersection.

Theorem den_union : forall a b : rowsel, den (union a b) = zip_tail orb (den a) (den b).
Proof. exact Proofs.C06_Algebra.den_union. Qed.
Print Assumptions den_union.

(* ---- FromIterator<RowSelection>: concatenation, whatever the mix of backings *)
Theorem den_concat : forall l : list rowsel, den (concat_sel l) = flat_map den l.
Proof. exact Proofs.C06_Algebra.den_concat. Qed.
Print Assumptions den_concat.

(* ---- split_off: head = first n rows, tail = the rest *)
Theorem den_split_off : forall (s : rowsel) (n : nat),
  den (fst (split_off s n)) = firstn n (den s) /\ den (snd (split_off s n)) = skipn n (den s).
Proof. exact Proofs.C06_Algebra.den_split_off. Qed.
Print Assumptions den_split_off.

Theorem den_split_off_parts : forall (s : rowsel) (n : nat),
  den (fst (split_off s n)) ++ den (snd (split_off s n)) = den s
  /\ length (den (fst (split_off s n))) = Nat.min n (length (den s)).
Proof. exact Proofs.C06_Algebra.den_split_off_parts. Qed.
Print Assumptions den_split_off_parts.

(* ---- offset / limit / trim *)
Theorem den_offset : forall (s : rowsel) (n : nat),
  den (offset s n) = if n =? 0 then den s else if count_true (den s) <=? n then [] else clear_first n (den s).
Proof. exact Proofs.C06_Algebra.den_offset. Qed.
Print Assumptions den_offset.

Theorem den_limit : forall (s : rowsel) (n : nat), den (limit s n) = limit_spec n (den s).
Proof. exact Proofs.C06_Algebra.den_limit. Qed.
Print Assumptions den_limit.

(* trim and selects_any need the invariant "no empty select run" that every public constructor
   establishes (from_selectors_normal); without it both statements are false *)
Theorem den_trim : forall s : rowsel,
  match s with Sels l => Forall (fun x : sel => fst x = false -> snd x <> 0) l | Mask _ => True end ->
  den (trim s) = rev (drop_false (rev (den s))).
Proof. exact Proofs.C06_Algebra.den_trim. Qed.
Print Assumptions den_trim.

Theorem den_trim_unrestricted_refuted : exists s : rowsel, den (trim s) <> rev (drop_false (rev (den s))).
Proof. exact Proofs.C06_Algebra.den_trim_unrestricted_refuted. Qed.
Print Assumptions den_trim_unrestricted_refuted.

(* ---- counters *)
Theorem selects_any_spec : forall s : rowsel,
  match s with Sels l => Forall (fun x : sel => fst x = false -> snd x <> 0) l | Mask _ => True end ->
  selects_any s = existsb (fun b => b) (den s).
Proof. exact selects_any_den. Qed.
Print Assumptions selects_any_spec.

Theorem selects_any_unrestricted_refuted : exists s : rowsel, selects_any s <> existsb (fun b => b) (den s).
Proof. exact Proofs.C06_Algebra.selects_any_unrestricted_refuted. Qed.
Print Assumptions selects_any_unrestricted_refuted.

Theorem row_count_spec : forall s : rowsel,
  row_count s = count_true (den s) /\ total_row_count s = length (den s)
  /\ skipped_row_count s = length (den s) - count_true (den s).
Proof. exact counters_den. Qed.
Print Assumptions row_count_spec.

(* ---- scan_ranges (page pruning): a page holding a selected row is always fetched.
   [page_of pages r] is the page holding row r, for pages given as (index, first_row_index) *)
Theorem scan_ranges_cover : forall (s : rowsel) (first_rows : list nat) (i p : nat),
  nth i (den s) false = true ->
  page_of (combine (seq 0 (length first_rows)) first_rows) i = Some p ->
  In p (scan_ranges s first_rows).
Proof. exact Proofs.C06_Scan.scan_ranges_cover. Qed.
Print Assumptions scan_ranges_cover.

(* ---- ReadPlanBuilder::build with the Mask policy + MaskCursor::next_mask_chunk: the chunks
   (initial_skip, chunk_rows, selected_rows, mask_start, mask bits) tile the trimmed selection and
   none selects more rows than the batch size *)
Theorem mask_plan_tiles : forall (s : rowsel) (bs : nat),
  match s with Sels l => Forall (fun x : sel => fst x = false -> snd x <> 0) l | Mask _ => True end ->
  1 <= bs ->
  flat_map (fun c : nat * nat * nat * nat * list bool =>
              match c with (isk, _, _, _, bits) => repeat false isk ++ bits end) (plan_mask s bs)
  = rev (drop_false (rev (den s)))
  /\ Forall (fun c : nat * nat * nat * nat * list bool =>
               match c with (_, rows, selected, _, bits) =>
                 selected <= bs /\ selected = count_true bits /\ rows = length bits /\ 1 <= rows end)
            (plan_mask s bs).
Proof. exact plan_mask_spec. Qed.
Print Assumptions mask_plan_tiles.

(* ---- the read plan: the plan the sync reader derives from (selection, predicates, offset,
   limit) can always be built when the selection does not extend past the rows of the chosen row
   groups, and the rows it visits are exactly those of the reference reader: rows of the chosen
   row groups -> selection -> predicates in order -> offset -> limit *)
Theorem read_plan_refines : forall (nullmod : Z) (rg_counts : list Z) (chosen : list nat)
    (selection : option rowsel) (preds : list pred) (off lim : option nat),
  match selection with Some s => length (den s) <= length (rows_of rg_counts chosen) | None => True end ->
  plan_read nullmod rg_counts chosen selection preds off lim
  = Some (reference_read nullmod rg_counts chosen (option_map den selection) preds off lim).
Proof. exact Proofs.C06_Total.read_plan_refines. Qed.
Print Assumptions read_plan_refines.

(* without the side condition: whenever the plan can be built it reads the reference rows *)
Theorem read_plan_sound : forall (nullmod : Z) (rg_counts : list Z) (chosen : list nat)
    (selection : option rowsel) (preds : list pred) (off lim : option nat) (ids : list Z),
  plan_read nullmod rg_counts chosen selection preds off lim = Some ids ->
  ids = reference_read nullmod rg_counts chosen (option_map den selection) preds off lim.
Proof. exact Proofs.C06_Plan.read_plan_sound. Qed.
Print Assumptions read_plan_sound.
